(* Properties/C14.v — property theorems only; every proof is [exact] of a lemma of Proofs/TaskLifecycle.v, of a
   conjunction of such lemmas or, for C14_exit_reachable, of [can_finish], which does without two of the hypotheses.

   The model (Task/Lifecycle.v) is a transition system over the five registries of function.py; a label is (a piece of)
   one atomic stretch of asyncio code.  [run cfg ls = Some s] ranges over ALL label sequences: all interleavings of any
   number of tasks started by triggers / services / task.create, with cancellations (LReaper delivering a task.cancel /
   task.unique request, taken by LEnd t OCancel at any body suspension or by LCbEnd t CbCancelled inside the finally) and
   exceptions (LEnd t ORaise, LCbEnd t CbRaise) placed anywhere.  [cfg] are the deviation switches; the conformant
   statements need the named switches off, the C14_refuted_* theorems show that each switch, turned on, violates them. *)
From PV Require Import Common.Util Gen.LifecycleConsts Task.Lifecycle Task.LifecycleCheck Proofs.TaskLifecycle.

(* run_coro / task_reaper / user_task_cancel have the shape the model mirrors (regenerated from the source on every run) *)
Theorem C14_source_shape :
  lc_finally_order = [1; 2; 3; 4; 5]%N /\ lc_registers_first = true /\ lc_start_cbrec_if_ctx = true /\
  lc_cb_loop_awaits = true /\ lc_reaper_awaits = true /\ lc_cancel_checks_ours = true /\ lc_cancel_via_reaper = true /\
  lc_remove_pops_one = true /\ lc_add_sets_entry = true /\ (2 ^ 28 < lc_self_cancel_sleep * 4096)%N.
Proof. exact source_shape. Qed.
Print Assumptions C14_source_shape.

(* C14_cleanup: however the task ended (return / raise / cancel at any suspension point of the body or of a done-callback),
   once it is done none of the five registries mentions it.  Holds also with the switches of D20 and D22 on. *)
Theorem C14_cleanup : forall cfg, d_fin_cancel_escapes cfg = false /\ d_live_iter cfg = false ->
  forall ls s, run cfg ls = Some s -> forall t, phase_of s t = PDone ->
  (st_ours s t = false /\ st_cb s t = None /\ st_ctx s t = false /\ st_t2n s t = None) /\ (forall n, st_n2t s n <> Some t).
Proof. exact cleanup_all. Qed.
Print Assumptions C14_cleanup.

(* ... and a task inside its finally can always get there by its own steps alone, whatever the others do *)
Theorem C14_exit_reachable : forall cfg, d_live_iter cfg = false ->
  forall s t cur n0 incb brk,
    phase_of s t = PFin cur n0 incb brk -> tr_creq (st_task s t) = false -> (incb = true -> brk = false) ->
    exists ls s', (forall l, In l ls -> owner l = Some t) /\ run_from cfg s ls = Some s' /\ phase_of s' t = PDone.
Proof. exact (fun cfg _ s t cur n0 incb brk Ep _ => can_finish cfg s t cur n0 incb brk Ep). Qed.
Print Assumptions C14_exit_reachable.

(* C14_callbacks_once: the done-callbacks called for a finished task are exactly the entries of its callback table at the
   moment its body ended, in insertion order, one per callback function ... *)
Theorem C14_callbacks_once : forall cfg,
  d_cb_raise_breaks cfg = false /\ d_fin_cancel_escapes cfg = false /\ d_live_iter cfg = false ->
  forall ls s t, run cfg ls = Some s -> phase_of s t = PDone ->
  calls s t = tbl_live (tr_snap (st_task s t)) /\ NoDup (map fst (calls s t)).
Proof. exact callbacks_once. Qed.
Print Assumptions C14_callbacks_once.

(* ... i.e. a callback registered with argument a and not removed ran exactly once, with a; every other one did not run *)
Theorem C14_callbacks_exactly_once : forall cfg,
  d_cb_raise_breaks cfg = false /\ d_fin_cancel_escapes cfg = false /\ d_live_iter cfg = false ->
  forall ls s t j, run cfg ls = Some s -> phase_of s t = PDone ->
  filter (fun p => N.eqb (fst p) j) (calls s t) =
  match tbl_lookup j (tbl_live (tr_snap (st_task s t))) with Some a => [(j, a)] | None => [] end.
Proof. exact callbacks_exactly_once. Qed.
Print Assumptions C14_callbacks_exactly_once.

(* where [tr_snap] is the table when the body ended, and the table obeys: add registers/replaces the arguments of that
   callback function only, remove unregisters that callback function only *)
Theorem C14_snapshot_is_table_at_body_end : forall cfg s t o s',
  step cfg s (LEnd t o) = Some s' -> tr_snap (st_task s' t) = table_of s t /\ tr_out (st_task s' t) = Some o.
Proof. exact snapshot_at_body_end. Qed.
Print Assumptions C14_snapshot_is_table_at_body_end.
Theorem C14_add_remove_meaning : forall j a t,
  tbl_lookup j (tbl_live (tbl_add j a t)) = Some a /\
  (forall j', j' <> j -> tbl_lookup j' (tbl_live (tbl_add j a t)) = tbl_lookup j' (tbl_live t)) /\
  (NoDup (keys t) -> tbl_lookup j (tbl_live (tbl_rem j t)) = None) /\
  (forall j', j' <> j -> tbl_lookup j' (tbl_live (tbl_rem j t)) = tbl_lookup j' (tbl_live t)).
Proof. exact (fun j a t => conj (add_registers j a t) (conj (add_keeps_others j a t) (conj (rem_unregisters j t) (rem_keeps_others j t)))). Qed.
Print Assumptions C14_add_remove_meaning.

(* with D20 and D143 repaired, add_done_callback on any run whose body is executing registers the callback *)
Theorem C14_add_registers_on_running : forall cfg, d_service_no_cbrec cfg = false -> d_shutdown_no_cbrec cfg = false ->
  forall ls s t x j a, run cfg ls = Some s -> running s t = true -> phase_of s x = PBody ->
  exists tb, st_cb s x = Some tb /\ step cfg s (LAdd t x j a) = Some (set_cb s x (Some (tbl_add j a tb))).
Proof. exact add_registers_on_running. Qed.
Print Assumptions C14_add_registers_on_running.

(* C14_independent (a): whether run r can take its next step depends on r's own record only - never on what another
   run is doing (sleeping, waiting, raising, being cancelled) *)
Theorem C14_independent_enabled : forall cfg s1 s2 l r,
  d_live_iter cfg = false -> d_call_cancel_kills cfg = false -> owner l = Some r -> st_task s1 r = st_task s2 r ->
  (step cfg s1 l <> None <-> step cfg s2 l <> None).
Proof. exact enabled_local. Qed.
Print Assumptions C14_independent_enabled.

(* (b) a step of run r never changes phase, pending cancellation or outcome of another run r' *)
Theorem C14_independent_frame : forall cfg s l s' r r',
  step cfg s l = Some s' -> owner l = Some r -> r' <> r -> st_task s' r' = st_task s r'.
Proof. exact step_frame. Qed.
Print Assumptions C14_independent_frame.

(* (c) the only steps that do are the reaper executing the cancel request at the head of its queue - a task gets into that
   queue only by a task.cancel naming it or a task.unique taking over a name it owns - and asyncio handing the pending
   cancellation of a run blocked in a blocking service.call on to the service run it awaits *)
Theorem C14_only_requested_cancels : forall cfg s l s' x,
  step cfg s l = Some s' ->
  (owner l <> Some x -> st_task s' x <> st_task s x ->
   (l = LReaper /\ hd_error (st_rq s) = Some x) \/ (exists t, l = LPropCancel t x /\ tr_creq (st_task s t) = true)) /\
  (In x (st_rq s') -> In x (st_rq s) \/ (exists src, l = LCancel src x) \/
                      (exists t n, l = LClaim t n /\ st_n2t s n = Some x /\ x <> t)).
Proof. exact (fun cfg s l s' x H => conj (foreign_record_change cfg s l s' x H) (rq_only_by_request cfg s l s' x H)). Qed.
Print Assumptions C14_only_requested_cancels.

(* C14_reaper_serialises: the reaper never delivers a second cancellation to a task - for every configuration.
   [tr_ncancel] counts the reaper's deliveries; a cancellation handed on by asyncio (LPropCancel) is not counted *)
Theorem C14_reaper_serialises : forall cfg ls s, run cfg ls = Some s -> forall t, (tr_ncancel (st_task s t) <= 1)%nat.
Proof. exact reaper_serialises. Qed.
Print Assumptions C14_reaper_serialises.

(* each deviation switch, turned on alone, violates a conformant statement: one witness per finding *)
Local Open Scope N_scope.
Theorem C14_refuted_D22 :
  exists s, run (mkDev true false false false false false) wit_d22 = Some s /\ phase_of s 0 = PDone /\
            tbl_live (tr_snap (st_task s 0)) = [(0, 5); (1, 6)]%N /\ calls s 0 = [(0, 5)]%N.
Proof. exact refuted_D22. Qed.
Print Assumptions C14_refuted_D22.

Theorem C14_refuted_D20 :
  exists s0 s, run (mkDev false true false false false false) (firstn 2 wit_d20) = Some s0 /\ running s0 0 = true /\ phase_of s0 0 = PBody /\
               run (mkDev false true false false false false) wit_d20 = Some s /\ st_cb s 0 = None /\ tr_out (st_task s 0) = Some ORaise.
Proof. exact refuted_D20. Qed.
Print Assumptions C14_refuted_D20.

Theorem C14_refuted_D140 :
  exists s, run (mkDev false false true false false false) wit_d140 = Some s /\ phase_of s 0 = PDone /\
            st_ours s 0 = true /\ st_cb s 0 <> None /\ st_ctx s 0 = true /\ st_t2n s 0 <> None /\ st_n2t s 3 = Some 0%N /\
            calls s 0 = [(0, 5)]%N /\ tr_out (st_task s 0) = Some (ORet (Some 7%N)) /\ tr_final (st_task s 0) = Some OCancel.
Proof. exact refuted_D140. Qed.
Print Assumptions C14_refuted_D140.

Theorem C14_refuted_D141 :
  exists s, run (mkDev false false false true false false) wit_d141 = Some s /\ phase_of s 0 = PDone /\
            st_ours s 0 = true /\ st_cb s 0 <> None /\ st_ctx s 0 = true /\
            calls s 0 = [(0, 5)]%N /\ tr_final (st_task s 0) = Some OEscape.
Proof. exact refuted_D141. Qed.
Print Assumptions C14_refuted_D141.

(* D142: the blocking caller of a cancelled service run ends cancelled without any cancellation delivered to it; with the
   switch off no such step exists *)
Theorem C14_refuted_D142 :
  exists s, run (mkDev false false false false true false) wit_d142 = Some s /\ phase_of s 0 = PDone /\
            tr_final (st_task s 0) = Some OCancel /\ tr_ncancel (st_task s 0) = 0%nat.
Proof. exact refuted_D142. Qed.
Print Assumptions C14_refuted_D142.
Theorem C14_callee_cancel_spares_caller : forall cfg s t x, d_call_cancel_kills cfg = false -> step cfg s (LCallKilled t x) = None.
Proof. exact callee_cancel_spares_caller. Qed.
Print Assumptions C14_callee_cancel_spares_caller.

Theorem C14_refuted_D143 :
  exists s0 s, run (mkDev false false false false false true) (firstn 2 wit_d143) = Some s0 /\ running s0 0 = true /\ st_ctx s0 0 = true /\
               run (mkDev false false false false false true) wit_d143 = Some s /\ st_cb s 0 = None /\ tr_out (st_task s 0) = Some ORaise.
Proof. exact refuted_D143. Qed.
Print Assumptions C14_refuted_D143.

(* the hypothesis of C14_independent_enabled is necessary *)
Theorem C14_independent_refuted_D141 :
  exists s1 s2, st_task s1 0%N = st_task s2 0%N /\
    (exists s', step (mkDev false false false true false false) s1 (LExit 0) = Some s' /\ st_cb s' 0 = None) /\
    (exists s', step (mkDev false false false true false false) s2 (LExit 0) = Some s' /\ st_cb s' 0 <> None).
Proof. exact independent_needs_D141_off. Qed.
Print Assumptions C14_independent_refuted_D141.
