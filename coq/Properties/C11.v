(* Properties/C11.v — property theorems only; every proof is [exact] of a lemma of Proofs/InterpCtx.v. *)
From PV Require Import Common.Util Gen.CtxConsts Interp.Ctx Interp.CtxCheck Proofs.InterpCtx.
(* the *Check file is imported although no statement below names it: a check of this property builds the cone of this
   file only, and its correspondence streams load the *Check file, which must be rebuilt whenever Gen/ changes *)

(* the three shape facts re-extracted from eval.py / global_ctx.py on every run; the lemmas of Proofs/InterpCtx.v rest on them *)
Theorem C11_consts : call_restore_in_finally = true /\ star_skip_underscore = true /\ lookup_before_load = true.
Proof. exact consts_ctx. Qed.
Print Assumptions C11_consts.

(* C11, first sentence.  Context [a]'s table and the evaluator's frames hold only a's own values (data, and functions
   defined in a whose bodies contain no import, no set_global_ctx and no decorated def); then running ANY such
   program in a - with calls of any nesting depth, raising callees, try/except, created tasks - leaves the record
   (table, flags, import set) of every other context exactly as it was, leaves the manager unchanged, and a's values
   stay a's own (so the statement composes over consecutive programs). *)
Theorem C11_frame : forall cfg fuel a w e prog w' e' o,
  closedt a (tab w a) -> in_ctx a e -> Forall pure prog ->
  exec_block cfg fuel w e prog = (w', e', o) ->
  (forall c, c <> a -> ctx_of w' c = ctx_of w c) /\ w_mgr w' = w_mgr w /\ closedt a (tab w' a) /\
  (o <> OFuel -> in_ctx a e').
Proof. exact frame. Qed.
Print Assumptions C11_frame.

(* ... in particular loading a file whose source is such a program (whatever else it does) changes no
   context that existed before and (re)binds no other name in the manager *)
Theorem C11_frame_load : forall cfg fuel w n rel src w' ok,
  Forall pure src -> run_op cfg fuel w (OpLoad n rel src) = (w', ok) ->
  (forall c, c < length (w_ctxs w) -> ctx_of w' c = ctx_of w c) /\
  (forall m, m <> n -> pget (w_mgr w') m = pget (w_mgr w) m).
Proof. exact frame_load. Qed.
Print Assumptions C11_frame_load.

(* C11, last clause.  After a call of any function value from any evaluator state, whether the body returned
   (normally or through a return nested anywhere: [OReturn]) or raised ([OExc]), at any nesting depth of further calls,
   imports and tasks inside it: the evaluator state (global_sym_table, sym_table, sym_table_stack, global_ctx,
   curr_func) is exactly the state before the call -
   (1) unconditionally when the callee was defined in another context than the caller's current one (even if the
       body executed set_global_ctx), and
   (2) for same-context calls provided no set_global_ctx was executed meanwhile (ghost counter w_nsw unchanged);
       set_global_ctx is the documented way to change exactly these pointers. *)
Theorem C11_call_restores : forall cfg fuel w e v w' e' o,
  call_fun cfg fuel w e v = (w', e', o) -> o <> OFuel ->
  (forall c f gl body, v = VFun c f gl body -> e_gctx e <> c -> e' = e) /\
  (w_nsw w' = w_nsw w -> e' = e).
Proof. exact call_restores. Qed.
Print Assumptions C11_call_restores.

(* C11, "a function always executes against the globals of the file that defined it regardless of which file,
   trigger or task calls it".  For a function defined in context c (info fi = its global/local name sets) and ANY two
   callers e1, e2 (any current context, frames, stack): on entry every name resolves in c's table
   ([resolve_global] mentions only c), identically for both callers; and after any prefix [pre] of the body that ran
   normally without set_global_ctx, names still resolve in the body's own frame [t] and otherwise in c's table. *)
Theorem C11_defining_globals : forall cfg fuel w e1 e2 c fi pre w1 e1' x,
  coherent e1 -> coherent e2 ->
  lookup_name w (enter_call e1 c fi) x = resolve_global w c fi x /\
  lookup_name w (enter_call e2 c fi) x = lookup_name w (enter_call e1 c fi) x /\
  (exec_block cfg fuel w (enter_call e1 c fi) pre = (w1, e1', ONormal) -> w_nsw w1 = w_nsw w ->
   exists t, e_sym e1' = SymL t /\
     lookup_name w1 e1' x = if memN x (fi_gl fi) then tget (tab w1 c) x
                           else match tget t x with Some v => Some v | None => resolve_global w1 c fi x end).
Proof. exact defining_globals. Qed.
Print Assumptions C11_defining_globals.

(* ... and writes to names declared global go to c's table *)
Theorem C11_defining_globals_write : forall w e1 c fi x v,
  e_gst e1 = c -> e_func e1 = Some fi -> memN x (fi_gl fi) = true ->
  assign_name w e1 x v = (set_tab w c x v, e1).
Proof. exact assign_in_body. Qed.
Print Assumptions C11_defining_globals_write.

(* C11, second sentence.  For every file system, every sequence of file loads and trigger firings running arbitrary
   programs (any import statements from any contexts, inside functions, tasks, try/except, failing loads ...), if no
   module was requested while it was itself being loaded (acyclic imports: ghost flag w_cyc), then for every name n that
   is not the name of an autoloaded file: n was loaded successfully at most once, and every successful import that
   resolved to n - from whatever importer - yielded that one context, which is the one registered under n with its
   module object set. *)
Theorem C11_module_singleton : forall cfg fuel fs ops w ok,
  run_ops cfg fuel (init_world fs) ops = (w, ok) -> w_cyc w = false ->
  forall n, ~ In n (load_names ops) ->
    nloads n (w_log w) <= 1 /\
    (forall c1 c2, In (LLoad n c1) (w_log w) -> In (LLoad n c2) (w_log w) -> c1 = c2) /\
    (forall c, In (LImp n c) (w_log w) ->
       In (LLoad n c) (w_log w) /\ pget (w_mgr w) n = Some c /\ modflag w c = true).
Proof. exact module_singleton. Qed.
Print Assumptions C11_module_singleton.

(* The theorem above is per context NAME.  With the naming of finding D110 for relative imports made by a
   non-__init__ file of a package one FILE gets two names, hence two contexts: in this run 3 module files
   produce 4 successful loads and pkg/__init__.py misses an update pkg/sib.py made to "the same" module;
   with the conformant naming the same run gives 3 loads (singleton_inhabited in Proofs/InterpCtx.v). *)
Theorem C11_singleton_refuted_D110 :
  let '(w, ok) := run_ops only_D110 50 (init_world ex_fs_pkg) ex_ops_pkg in
  ok = true /\ w_cyc w = false /\ total_loads w = 4 /\ length ex_fs_pkg = 3 /\
  tget (tab w 0) 100 = Some (VInt 1).
Proof. exact singleton_refuted_D110. Qed.
Print Assumptions C11_singleton_refuted_D110.

(* star import from a module without __all__: underscore names are not copied (any configuration) *)
Theorem C11_star_no_underscore : forall cfg t l, tget t n_all = None -> star_items cfg t = Some l ->
  forall x v, In (x, v) l -> is_under x = false.
Proof. exact star_no_underscore. Qed.
Print Assumptions C11_star_no_underscore.

(* with the conformant model a module's __all__ is the exact list of copied names *)
Theorem C11_star_all_respected : forall t names l, tget t n_all = Some (VNames names) -> star_items all_off t = Some l ->
  map fst l = names /\ forall x v, In (x, v) l -> tget t x = Some v.
Proof. exact star_all_respected. Qed.
Print Assumptions C11_star_all_respected.

(* with switch D111 on (__all__ ignored) the star import overwrites a global of the importer *)
Theorem C11_star_refuted_D111 :
  tget (tab (fst (run_ops only_D111 50 (init_world ex_fs_star) ex_ops_star)) 0) 101 = Some (VInt 2) /\
  tget (tab (fst (run_ops all_off 50 (init_world ex_fs_star) ex_ops_star)) 0) 101 = Some (VInt 7).
Proof. exact star_refuted_D111. Qed.
Print Assumptions C11_star_refuted_D111.
