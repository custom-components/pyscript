(* Properties/C07.v — property theorems only; every proof is [exact] of a lemma of Proofs/ or of an instance of one. *)
From PV Require Import Common.Util Gen.GuardConsts Time.Windows Trig.Guards Trig.GuardsCheck Proofs.TimeWindows Proofs.TrigGuards.

Local Open Scope Z_scope.

(* C07, @time_active: for every list of signed specifications (positive / prefixed with "not"; range() or cron() in parsed
   form), every start-up time, sunrise/sunset table and instant, the model of timer_active_check answers true exactly when
   the instant lies in at least one positive specification (or none is given) and in no negated one. *)
Theorem C07_windows : forall (specs : list sspec) (startup : Z) (sun : suntab) (now : Z),
  active_check specs startup sun now = active_spec_b specs startup sun now /\
  (active_check specs startup sun now = true <-> active_spec specs startup sun now).
Proof. exact (fun specs st sun now => conj (active_check_spec specs st sun now) (active_check_iff specs st sun now)). Qed.
Print Assumptions C07_windows.

(* range() includes both end points: on resolved instants, and for a daily window at the exact end points +/- 1 us *)
Theorem C07_range_inclusive : forall s e : Z, s <= e ->
  range_match s e s = true /\ range_match s e e = true /\
  range_match s e (s - 1) = false /\ range_match s e (e + 1) = false.
Proof. exact range_inclusive. Qed.
Print Assumptions C07_range_inclusive.

Theorem C07_daily_endpoints : forall (ta tb st : Z) (sun : suntab) (d : Z), 0 <= ta -> ta <= tb -> tb < DAY ->
  win_match (daily ta tb) st sun (d * DAY + ta) = true /\
  win_match (daily ta tb) st sun (d * DAY + tb) = true /\
  (tb + 1 < DAY -> win_match (daily ta tb) st sun (d * DAY + (tb + 1)) = false) /\
  (0 <= ta - 1 -> win_match (daily ta tb) st sun (d * DAY + (ta - 1)) = false).
Proof. exact daily_endpoints_inclusive. Qed.
Print Assumptions C07_daily_endpoints.

(* a range whose end precedes its start wraps around midnight: it holds from [ta] of one day to [tb] of the next *)
Theorem C07_wrap_midnight : forall (ta tb st : Z) (sun : suntab) (d t : Z), 0 <= tb -> tb < ta -> ta < DAY -> 0 <= t < DAY ->
  win_match (daily ta tb) st sun (d * DAY + t) = (ta <=? t) || (t <=? tb) /\
  (win_match (daily ta tb) st sun (d * DAY + t) = true <-> exists k, k * DAY + ta <= d * DAY + t <= (k + 1) * DAY + tb).
Proof.
  exact (fun ta tb st sun d t H0 H1 H2 Ht =>
           conj (daily_wrap_midnight ta tb st sun d t H0 H1 H2 Ht) (daily_wrap_overnight ta tb st sun d t H0 H1 H2 Ht)).
Qed.
Print Assumptions C07_wrap_midnight.

(* cron() matches the fields as crontab does *)
Theorem C07_cron : forall (c : cronspec) (now : Z), cron_match c now = true <-> cron_spec c now.
Proof. exact cron_match_spec. Qed.
Print Assumptions C07_cron.

(* C07, the pipeline: with conformant switches, for every guard configuration and every occurrence list (state, time and
   event occurrences and direct calls; monotonic clock positive and non-decreasing; hold_off >= 0) both subsystems run the
   function for exactly the occurrences the Spec accepts: state_active true on the triggering values, time_active as above,
   and not less than hold_off after the last ACCEPTED run. *)
Theorem C07_pipeline : forall (cfg : deviations) (legacy : bool) (g : guards) (st : Z) (sun : suntab) (occs : list occ),
  all_off cfg -> Forall occ_ok occs -> nondecr 1 occs -> hold_nonneg g ->
  accepted_model legacy cfg g st sun occs = accepted_spec g st sun occs.
Proof. exact pipeline. Qed.
Print Assumptions C07_pipeline.

(* what the Spec's verdicts mean, position by position: occurrence i runs iff it is a direct call, or state_active and
   time_active hold for it and it is not less than hold_off after the last run accepted from a trigger before it *)
Theorem C07_spec_meaning : forall (g : guards) (st : Z) (sun : suntab) (occs : list occ) (i : nat) (o : occ),
  nth_error occs i = Some o ->
  nth_error (accepted_spec g st sun occs) i =
  Some (verdict_spec g st sun (last_accepted (firstn i occs) (firstn i (accepted_spec g st sun occs))) o).
Proof. exact spec_meaning. Qed.
Print Assumptions C07_spec_meaning.

(* the legacy pipeline needs neither the clock nor the hold_off hypothesis *)
Theorem C07_pipeline_legacy : forall (cfg : deviations) (g : guards) (st : Z) (sun : suntab) (occs : list occ),
  all_off cfg -> Forall occ_ok occs -> accepted_legacy cfg g st sun occs = accepted_spec g st sun occs.
Proof. exact pipeline_legacy. Qed.
Print Assumptions C07_pipeline_legacy.

(* guards never start a run by themselves (one verdict per occurrence, nothing else) nor affect direct calls: a direct call
   always runs, and removing the direct calls from a history changes no other verdict — for any setting of the switches *)
Theorem C07_direct_calls : forall (legacy : bool) (cfg : deviations) (g : guards) (st : Z) (sun : suntab) (occs : list occ),
  (forall i o, nth_error occs i = Some o -> is_direct o = true ->
               nth_error (accepted_model legacy cfg g st sun occs) i = Some true) /\
  accepted_model legacy cfg g st sun (filter (fun o => negb (is_direct o)) occs) =
  map snd (filter (fun p => negb (is_direct (fst p))) (combine occs (accepted_model legacy cfg g st sun occs))) /\
  length (accepted_model legacy cfg g st sun occs) = length occs.
Proof. exact direct_calls. Qed.
Print Assumptions C07_direct_calls.

(* with one switch on the pipeline deviates: D15 (per-argument @time_active), D70 (hold_off reference updated before a later
   guard rejects), D71 (stale symbol table of the state_active evaluator), and D72 further down *)
Theorem C07_refuted_D15 : exists g st sun occs, Forall occ_ok occs /\ nondecr 1 occs /\ hold_nonneg g /\
  accepted_new only_D15 g st sun occs <> accepted_spec g st sun occs.
Proof. exact refuted_D15. Qed.
Print Assumptions C07_refuted_D15.

Theorem C07_refuted_D70 : exists g st sun occs, Forall occ_ok occs /\ nondecr 1 occs /\ hold_nonneg g /\
  accepted_new only_D70 g st sun occs <> accepted_spec g st sun occs.
Proof. exact refuted_D70. Qed.
Print Assumptions C07_refuted_D70.

Theorem C07_refuted_D71 : exists g st sun occs, Forall occ_ok occs /\ nondecr 1 occs /\ hold_nonneg g /\
  accepted_legacy only_D71 g st sun occs <> accepted_spec g st sun occs /\
  accepted_new only_D71 g st sun occs <> accepted_spec g st sun occs.
Proof. exact refuted_D71. Qed.
Print Assumptions C07_refuted_D71.

(* D72: the legacy subsystem measures hold_off per repeated trigger decorator, not per function *)
Theorem C07_refuted_D72 : exists g st sun occs, Forall occ_ok occs /\ nondecr 1 occs /\ hold_nonneg g /\
  accepted_legacy only_D72 g st sun occs <> accepted_spec g st sun occs.
Proof. exact refuted_D72. Qed.
Print Assumptions C07_refuted_D72.

(* whatever behaviour of the implementation the conformant Model reproduces satisfies the property *)
Theorem C07_model_implies_spec : forall cfg c, all_off cfg -> gcase_wf c -> gcase_model_ok cfg c = true -> gcase_spec_ok c = true.
Proof. exact gcase_model_implies_spec. Qed.
Print Assumptions C07_model_implies_spec.

(* the same for a scenario with several functions, each judged on its own occurrences *)
Theorem C07_model_implies_spec_multi : forall cfg (m : mcase), all_off cfg -> Forall gcase_wf m ->
  mcase_model_ok cfg m = true -> mcase_spec_ok m = true.
Proof. exact mcase_model_implies_spec. Qed.
Print Assumptions C07_model_implies_spec_multi.
