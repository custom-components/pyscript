(* Properties/C15.v — property theorems only; every proof is [exact] of a lemma of Proofs/TrigWaitUntil.v or of an instance
   of one.
   Model: Trig/WaitUntil.v ([run cfg legacy a L0 init pre h] = one task.wait_until call of the legacy (legacy = true) or
   default subsystem with arguments [a], ledger before the call [L0], history [pre] before and [h] after the call;
   [h] contains the cancellation of the waiting task as an occurrence).  Spec: [spec_run] in the same file. *)
From PV Require Import Common.Util Gen.WaitConsts Trig.WaitUntil Trig.WaitUntilCheck Proofs.TrigWaitUntil.
Local Open Scope Z_scope.

(* C15, first sentence.  For the conformant model of BOTH subsystems, every argument combination (state_trigger with
   state_check_now unset/True/False and state_hold, time triggers once(now + o) with future and past o, event_trigger,
   timeout including 0), every value of the state expression at the call and every timed history after it -
   cancellation of the waiting task at any instant included -: the call exits exactly with the earlier of the earliest
   fixed instant ('time' at the first future time-trigger instant, 'timeout' at the timeout) and the first qualifying
   occurrence (state change making the expression true - held for state_hold -, matching event, raising condition,
   cancellation); immediately with {trigger_type: state} when state_check_now is in effect and the expression is
   already true; 'none' when only time triggers without future instant were given.  The returned dictionary is
   identified by the occurrence number / the instant.  (The defaults of state_check_now come from Gen/WaitConsts.v.) *)
Theorem C15_first : forall legacy a L0 init pre h,
  args_ok a -> a_badexpr a = false -> timed h ->
  outcome (run all_off legacy a L0 init pre h) = spec_run a (truth_after init pre) h.
Proof. exact (fun legacy a L0 init pre h Ha => run_first false false false 0 legacy a L0 init pre h (proj1 Ha)). Qed.
Print Assumptions C15_first.

(* C15, "occurrences before the call ... have no effect": for every setting of the switches, the history before the call
   matters only through the current value of the state expression - and not at all when there is no state trigger or
   state_check_now is off and state_hold_false is not given. *)
Theorem C15_deaf_before : forall cfg legacy a L0 init pre init' pre' h,
  truth_after init pre = truth_after init' pre' \/ a_state a = false \/ (cn_eff legacy a = false /\ a_hf a = None) ->
  run cfg legacy a L0 init pre h = run cfg legacy a L0 init' pre' h.
Proof. exact run_deaf_before. Qed.
Print Assumptions C15_deaf_before.

(* C15, "occurrences ... after the return have no effect": for every setting of the switches, once the call has exited
   (return, exception, cancellation) at some instant, whatever occurs at or after that instant changes nothing: neither
   the exit, nor its time, nor the ledger. *)
Theorem C15_deaf_after : forall cfg legacy a L0 init pre h1 h2,
  r_exit (run cfg legacy a L0 init pre h1) <> XPending ->
  (forall t o, In (t, o) h2 -> r_time (run cfg legacy a L0 init pre h1) <= t) ->
  run cfg legacy a L0 init pre (h1 ++ h2) = run cfg legacy a L0 init pre h1.
Proof. exact run_deaf_after. Qed.
Print Assumptions C15_deaf_after.

(* both directions together, as the property states them: "occurrences before the call or after the return have no effect" *)
Theorem C15_deaf_outside : forall cfg legacy a L0 init pre h1,
  (forall init' pre', truth_after init pre = truth_after init' pre' ->
     run cfg legacy a L0 init pre h1 = run cfg legacy a L0 init' pre' h1)
  /\ (forall h2, r_exit (run cfg legacy a L0 init pre h1) <> XPending ->
        (forall t o, In (t, o) h2 -> r_time (run cfg legacy a L0 init pre h1) <= t) ->
        run cfg legacy a L0 init pre (h1 ++ h2) = run cfg legacy a L0 init pre h1).
Proof.
  exact (fun cfg legacy a L0 init pre h1 =>
           conj (fun init' pre' H => run_deaf_before cfg legacy a L0 init pre init' pre' h1 (or_introl H))
                (run_deaf_after cfg legacy a L0 init pre h1)).
Qed.
Print Assumptions C15_deaf_outside.

(* C15, last sentence.  For the conformant model of both subsystems, every argument combination (also an unparsable
   condition), every ledger before the call, every history (not even required to be ordered) and every exit path -
   return, exception in a condition, cancellation of the waiting task at any instant -: everything the call registered
   (state subscriptions, event queues, bus listeners, trigger cycle tasks with their timers) is released:
   ledger after = ledger before. *)
Theorem C15_ledger_restored : forall legacy a L0 init pre h,
  r_exit (run all_off legacy a L0 init pre h) <> XPending ->
  r_ledger (run all_off legacy a L0 init pre h) = L0.
Proof. exact (fun legacy a L0 init pre h => run_ledger_restored all_off legacy a L0 init pre h eq_refl eq_refl eq_refl). Qed.
Print Assumptions C15_ledger_restored.

(* whatever behaviour of the implementation the conformant Model reproduces satisfies the Spec the correspondence
   evaluates (returned dictionary, no second report and the remaining registries are checked by the worker) *)
Theorem C15_model_implies_spec : forall c,
  wcase_wf c -> wcase_model_ok all_off c = true ->
  o_dict_ok (wc_obs c) = true -> o_late (wc_obs c) = 0%N -> o_other_ok (wc_obs c) = true ->
  o_leak_end (wc_obs c) = (0, 0, 0, 0) ->
  wcase_spec_ok c = true.
Proof. exact wcase_model_implies_spec. Qed.
Print Assumptions C15_model_implies_spec.

(* With the switch of one finding on, the property fails: one witness per finding. *)

(* D18: default subsystem, timeout=0 with an event trigger: keeps waiting instead of 'timeout' at once *)
Theorem C15_refuted_D18 : exists a init pre h,
  args_ok a /\ a_badexpr a = false /\ timed h /\
  outcome (run only_D18 false a lg_zero init pre h) <> spec_run a (truth_after init pre) h.
Proof. exact (refutes_first_unless only_D18 eq_refl). Qed.
Print Assumptions C15_refuted_D18.

(* D19, legacy half: a cancelled wait leaves its state subscription, event queue and bus listener *)
Theorem C15_refuted_D19_legacy : exists a init pre h,
  timed h /\ r_exit (run only_D19 true a lg_zero init pre h) = XCancelled /\
  r_ledger (run only_D19 true a lg_zero init pre h) <> lg_zero.
Proof. exact (cancel_leaks only_D19 true eq_refl). Qed.
Print Assumptions C15_refuted_D19_legacy.

(* D19, default-subsystem half (listed as D150): a cancelled wait never stops its temporary decorator manager *)
Theorem C15_refuted_D19_new : exists a init pre h,
  timed h /\ r_exit (run only_D150 false a lg_zero init pre h) = XCancelled /\
  r_ledger (run only_D150 false a lg_zero init pre h) <> lg_zero.
Proof. exact (cancel_leaks only_D150 false eq_refl). Qed.
Print Assumptions C15_refuted_D19_new.

(* D151: legacy, once(now + 1.25s) and a non-matching event at 1 s: 'time' at 2.25 s instead of 1.25 s *)
Theorem C15_refuted_D151 : exists a init pre h,
  args_ok a /\ a_badexpr a = false /\ timed h /\
  outcome (run only_D151 true a lg_zero init pre h) <> spec_run a (truth_after init pre) h.
Proof. exact (now_restarts_refutes only_D151 eq_refl). Qed.
Print Assumptions C15_refuted_D151.

(* D152: legacy, unparsable mqtt/webhook condition next to an event trigger: the exception leaves the event subscription *)
Theorem C15_refuted_D152 : exists a init pre h,
  r_exit (run only_D152 true a lg_zero init pre h) = XExc ESyntax /\
  r_ledger (run only_D152 true a lg_zero init pre h) <> lg_zero.
Proof. exact (badexpr_leaks only_D152 eq_refl). Qed.
Print Assumptions C15_refuted_D152.

(* D153: default subsystem, state trigger plus an exhausted time trigger: 'none' at once instead of waiting for the state *)
Theorem C15_refuted_D153 : exists a init pre h,
  args_ok a /\ a_badexpr a = false /\ timed h /\
  outcome (run only_D153 false a lg_zero init pre h) <> spec_run a (truth_after init pre) h.
Proof. exact (refutes_first_unless only_D153 eq_refl). Qed.
Print Assumptions C15_refuted_D153.

(* D154: default subsystem, state_hold and a second still-true change: the dictionary of the latest change is returned *)
Theorem C15_refuted_D154 : exists a init pre h,
  args_ok a /\ a_badexpr a = false /\ timed h /\
  outcome (run only_D154 false a lg_zero init pre h) <> spec_run a (truth_after init pre) h.
Proof. exact (refutes_first_unless only_D154 eq_refl). Qed.
Print Assumptions C15_refuted_D154.

(* D155: default subsystem, an attribute-only update of the watched variable cancels the pending state_hold *)
Theorem C15_refuted_D155 : exists a init pre h,
  args_ok a /\ a_badexpr a = false /\ timed h /\
  outcome (run only_D155 false a lg_zero init pre h) <> spec_run a (truth_after init pre) h.
Proof. exact (refutes_first_unless only_D155 eq_refl). Qed.
Print Assumptions C15_refuted_D155.
