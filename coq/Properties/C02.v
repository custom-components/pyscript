(* Properties/C02.v — property theorems only; every proof is [exact] of a lemma of Proofs/InterpFlow.v or
   of a pair of them. *)
From PV Require Import Common.Util Interp.Flow Interp.FlowCheck Proofs.InterpFlow.

(* C02: for every skeleton built from t(n), if, while/for (+else), break, continue, return, raise (class,
   raise-from, bare re-raise), try/except/else/finally (handler lists, named handlers), with (any number of
   managers, also managers written in the script), assert (with message), pass and nested function calls, including
   the async forms (async with / async for / async def), in any combination and depth, that Python's compiler
   accepts ([supported]: break/continue inside a loop of the same function); for every host oracle
   ([h]: what every condition, iterator, __enter__, __exit__ answers — with arbitrary state — and the subclass
   relation used by `except`); and for every fuel: pyscript's marker-passing evaluator with all deviation
   switches off produces the same event trace (tracer calls, condition / iterator evaluations, manager
   construction, __enter__ and __exit__ calls with the exception information they receive, handler-name
   probes, values returned through inner function boundaries — i.e. the same statements in the same order,
   finally blocks and exits exactly when Python runs them, with the same information and suppression effect)
   and ends with the same returned value or propagated exception (class and __cause__) as the reference. *)
Theorem C02_flow_equiv : forall (H : Type) (h : host H) (cfg : deviations) (body : list stmt),
  all_off cfg -> supported body = true ->
  forall (fuel : nat) (h0 : H), ps_exec h cfg fuel body h0 = py_exec h fuel body h0.
Proof. exact @flow_equiv. Qed.
Print Assumptions C02_flow_equiv.

(* The same at statement level, inside any context: whatever exception is being handled ([cur]), whatever the
   state, a supported statement evaluated by pyscript returns the marker / raises the exception that corresponds
   to the reference outcome, leaving the same state (trace, host, handler-name bindings). *)
Theorem C02_stmt_equiv : forall (H : Type) (h : host H) (fuel : nat) (cur : option exc) (inl : bool) (s : stmt) (st : state H),
  supp inl s = true -> cv (ps_stmt h no_dev fuel cur s st) = py_stmt h fuel cur s st.
Proof. exact @stmt_agree. Qed.
Print Assumptions C02_stmt_equiv.

(* break / continue never escape a statement that is outside every loop (this is what makes EvalFunc.call's
   `isinstance(val, EvalReturn)`-only test sound) *)
Theorem C02_no_escape : forall (H : Type) (h : host H) (fuel : nat) (cur : option exc) (s : stmt) (st : state H),
  supp false s = true -> is_jump (snd (py_stmt h fuel cur s st)) = false.
Proof. exact @py_stmt_safe. Qed.
Print Assumptions C02_no_escape.

(* hypotheses are inhabited: a skeleton using every construct, nested, is supported *)
Theorem C02_hypotheses_inhabited : supported ex_body = true /\ all_off no_dev.
Proof. exact (conj ex_supported ex_all_off). Qed.
Print Assumptions C02_hypotheses_inhabited.

(* With any single one of the six switches on the statement is false: a supported skeleton exists on which the
   evaluators differ.  The witnesses are those of the findings. *)
Theorem C02_refuted_D8 : differs only_d8 w_d8_scripts [] w_d8_body.
Proof. exact refuted_D8. Qed.
Print Assumptions C02_refuted_D8.
Theorem C02_refuted_D9 : differs only_d9 [] w_d9_mgrs w_d9_body.
Proof. exact refuted_D9. Qed.
Print Assumptions C02_refuted_D9.
Theorem C02_refuted_D10 : differs only_d10 [] [] w_d10_body.
Proof. exact refuted_D10. Qed.
Print Assumptions C02_refuted_D10.
Theorem C02_refuted_D200 : differs only_d200 [] [] w_d200_body.
Proof. exact refuted_D200. Qed.
Print Assumptions C02_refuted_D200.
Theorem C02_refuted_D201 : differs only_d201 [] w_d201_mgrs w_d201_body.
Proof. exact refuted_D201. Qed.
Print Assumptions C02_refuted_D201.

(* D202: `async for` over a proper asynchronous iterator *)
Theorem C02_refuted_D202 : differs only_d202 w_d202_scripts [] w_d202_body.
Proof. exact refuted_D202. Qed.
Print Assumptions C02_refuted_D202.

(* the correspondence check and the theorem fit together: a case on which the conformant Model reproduces both
   the real AstEval's and CPython's observation satisfies the Spec (so, once every finding is repaired, a Spec
   failure can only come with a Model mismatch) *)
Theorem C02_model_implies_spec : forall ct c, fcase_model_ok no_dev ct c = true -> fcase_spec_ok c = true.
Proof. exact model_implies_spec. Qed.
Print Assumptions C02_model_implies_spec.
