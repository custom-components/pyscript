(* Properties/C13.v — task.unique guarantees at most one live owner per name.
   Property theorems only; every proof is [exact] of a lemma of Proofs/TaskUnique.v; lemmas about any state that
   satisfies the invariant [Inv] are applied to the reachable ones through [Inv_run].

   [run cfg ls = Some s] ranges over ALL finite sequences [ls] of atomic steps of the transition system of
   Task/Unique.v — claims, reaper segments, task ends, @task_unique dispatch/start, steps of tasks not started by
   pyscript — i.e. over all interleavings of any number of tasks, names and contexts.  [cfg] is the deviation
   configuration: the theorems hold for the code as it is ([as_is]) and for the conformant model ([all_off]) unless a
   hypothesis says otherwise. *)
From PV Require Import Common.Util Gen.UniqueConsts Task.Unique Task.UniqueCheck Proofs.TaskUnique.
From Coq Require Import String.
Import List ListNotations.
Local Open Scope list_scope.

(* name2task and task2name are mutually inverse in every reachable state *)
Theorem C13_maps_inverse : forall cfg ls s, run cfg ls = Some s ->
  forall k t, lookup k (n2t s) = Some t <-> In (t, k) (t2n s).
Proof. exact (fun cfg ls s R => inv_maps s (Inv_run cfg ls s R)). Qed.
Print Assumptions C13_maps_inverse.

(* after a pyscript task calls task.unique(name): it is the owner as reported by task.name2id; the previous owner is
   queued for cancellation; and of all live tasks that ever claimed that name, every other one has its cancellation
   pending (in the reaper queue) or in progress *)
Theorem C13_claim : forall cfg ls s t ctx name s',
  run cfg ls = Some s -> ustep cfg s (UUnique t ctx name false) = Some s' -> In t (ours s) ->
  owner cfg s' ctx name = Some t
  /\ (forall o, owner cfg s ctx name = Some o -> o <> t -> In o (rq s'))
  /\ (forall t', In (key_of cfg ctx name, t') (claimed s') -> In t' (live s') -> t' <> t -> cancel_pending s' t').
Proof. exact (fun cfg ls s t ctx name s' R => unique_claims cfg s t ctx name s' (Inv_run cfg ls s R)). Qed.
Print Assumptions C13_claim.

(* the title: two live claimants of one key that are both not being cancelled are the same task, the owner *)
Theorem C13_one_live_owner : forall cfg ls s k t1 t2,
  run cfg ls = Some s -> In (k, t1) (claimed s) -> In (k, t2) (claimed s) -> In t1 (live s) -> In t2 (live s) ->
  ~ cancel_pending s t1 -> ~ cancel_pending s t2 -> t1 = t2 /\ lookup k (n2t s) = Some t1.
Proof. exact (fun cfg ls s k t1 t2 R => one_live_owner s k t1 t2 (Inv_run cfg ls s R)). Qed.
Print Assumptions C13_one_live_owner.

(* kill_me=True while another task owns the name: nothing changes but the caller, which is queued for cancellation and
   suspended; it takes no further step; its cancellation stays pending until it ends *)
Theorem C13_kill_me : forall cfg s t ctx name s' o,
  ustep cfg s (UUnique t ctx name true) = Some s' -> owner cfg s ctx name = Some o -> o <> t ->
  n2t s' = n2t s /\ t2n s' = t2n s /\ ours s' = ours s /\ live s' = live s /\ rq s' = rq s ++ [t] /\ In t (waiting s').
Proof. exact kill_me_blocked. Qed.
Print Assumptions C13_kill_me.

Theorem C13_kill_me_pending : forall cfg ls s t, run cfg ls = Some s -> In t (waiting s) ->
  In t (live s) /\ cancel_pending s t.
Proof. exact (fun cfg ls s t R => inv_waiting s (Inv_run cfg ls s R) t). Qed.
Print Assumptions C13_kill_me_pending.

Theorem C13_kill_me_stuck : forall cfg s t ctx name km, In t (waiting s) ->
  ustep cfg s (UUnique t ctx name km) = None /\ ustep cfg s (UNop t) = None.
Proof. exact waiting_stuck. Qed.
Print Assumptions C13_kill_me_stuck.

(* kill_me=True when the name is free or the caller's own: an ordinary claim *)
Theorem C13_kill_me_free : forall cfg s t ctx name s',
  ustep cfg s (UUnique t ctx name true) = Some s' -> In t (ours s) ->
  (owner cfg s ctx name = None \/ owner cfg s ctx name = Some t) ->
  owner cfg s' ctx name = Some t /\ rq s' = rq s /\ waiting s' = waiting s.
Proof. exact kill_me_free. Qed.
Print Assumptions C13_kill_me_free.

(* @task_unique applies the same rule before the body starts — when the test is made by the new run itself (the
   default subsystem; the legacy subsystem once D130 is repaired): with kill_me=True and the name in use the run ends
   without touching anything; otherwise its first segment is exactly start + task.unique(name, kill_me) *)
Theorem C13_decorator : forall cfg ls s t ctx name km lg s',
  run cfg ls = Some s -> precheck cfg lg = false ->
  ustep cfg s (UDecStart t ctx name km lg) = Some s' ->
  (km = true -> used cfg s ctx name = true ->
     n2t s' = n2t s /\ t2n s' = t2n s /\ rq s' = rq s /\ live s' = live s /\ ~ In t (live s'))
  /\ (km && used cfg s ctx name = false ->
     exists s1, ustep cfg (set_admitted s (removeN t (admitted s))) (UStart t true) = Some s1
                /\ ustep cfg s1 (UUnique t ctx name km) = Some s').
Proof. exact (fun cfg ls s t ctx name km lg s' R => dec_start_rule cfg s t ctx name km lg s' (Inv_run cfg ls s R)). Qed.
Print Assumptions C13_decorator.

(* ... and the legacy subsystem as it is violates it (known finding D130) *)
Theorem C13_refuted_D130 : exists ls s s',
  run as_is ls = Some s
  /\ owner as_is s "scripts.a" "x" = Some 0%N /\ In 0%N (live s)
  /\ ustep as_is s (UDecStart 1%N "scripts.a" "x" true true) = Some s'
  /\ In 1%N (live s') /\ owner as_is s' "scripts.a" "x" = Some 1%N /\ In 0%N (rq s').
Proof. exact refuted_D130. Qed.
Print Assumptions C13_refuted_D130.

(* a task may own several names: claiming one leaves every other key as it was *)
Theorem C13_multi_names : forall cfg s t ctx name km s',
  ustep cfg s (UUnique t ctx name km) = Some s' ->
  forall k', k' <> key_of cfg ctx name -> lookup k' (n2t s') = lookup k' (n2t s).
Proof. exact unique_keeps_other_names. Qed.
Print Assumptions C13_multi_names.

(* a name is released as soon as its owner ends for any reason (normally, by an exception, cancelled); the other
   owners keep theirs; consequently every owner is a live pyscript-started task *)
Theorem C13_release_on_exit : forall cfg ls s t c s',
  run cfg ls = Some s -> ustep cfg s (UExit t c) = Some s' ->
  (forall k, lookup k (n2t s') <> Some t)
  /\ (forall k t', t' <> t -> (lookup k (n2t s') = Some t' <-> lookup k (n2t s) = Some t'))
  /\ ~ In t (live s') /\ ~ In t (ours s').
Proof. exact (fun cfg ls s t c s' R => exit_releases cfg s t c s' (Inv_run cfg ls s R)). Qed.
Print Assumptions C13_release_on_exit.

Theorem C13_owner_live : forall cfg ls s k t, run cfg ls = Some s -> lookup k (n2t s) = Some t ->
  In t (live s) /\ In t (ours s).
Proof. exact (fun cfg ls s k t R => owner_is_live s k t (Inv_run cfg ls s R)). Qed.
Print Assumptions C13_owner_live.

(* tasks not started by pyscript are never cancelled: a cancelled end only happens to a task of our_tasks or to one that
   asked for it itself with kill_me=True; no step queues anybody else *)
Theorem C13_foreign_safe : forall cfg ls s t s',
  run cfg ls = Some s -> ustep cfg s (UExit t true) = Some s' -> In t (ours s) \/ In t (waiting s).
Proof. exact (fun cfg ls s t s' R => cancelled_exit_ours cfg s t s' (Inv_run cfg ls s R)). Qed.
Print Assumptions C13_foreign_safe.

Theorem C13_foreign_safe_queue : forall cfg ls s l s' x,
  run cfg ls = Some s -> ustep cfg s l = Some s' -> In x (rq s') ->
  In x (rq s) \/ In x (ours s) \/ exists ctx name, l = UUnique x ctx name true.
Proof. exact (fun cfg ls s l s' x _ => step_queues_only_ours cfg s l s' x). Qed.
Print Assumptions C13_foreign_safe_queue.

(* names in different global contexts never interact — for pair keys, or for the code's concatenated keys when the
   names contain no separator: a claim in ctx changes no owner in ctx' and queues only the caller or the owner of the
   claimed name *)
Theorem C13_contexts_disjoint : forall cfg s t ctx name km s' ctx' name',
  d17_concat_keys cfg = false \/ (dot_free name = true /\ dot_free name' = true) ->
  ctx <> ctx' ->
  ustep cfg s (UUnique t ctx name km) = Some s' ->
  owner cfg s' ctx' name' = owner cfg s ctx' name'
  /\ (forall x, In x (rq s') -> In x (rq s) \/ x = t \/ owner cfg s ctx name = Some x).
Proof. exact contexts_disjoint. Qed.
Print Assumptions C13_contexts_disjoint.

Theorem C13_contexts_disjoint_decorator : forall cfg s t ctx name km lg s' ctx' name',
  d17_concat_keys cfg = false \/ (dot_free name = true /\ dot_free name' = true) ->
  ctx <> ctx' ->
  ustep cfg s (UDecStart t ctx name km lg) = Some s' ->
  owner cfg s' ctx' name' = owner cfg s ctx' name'
  /\ (forall x, In x (rq s') -> In x (rq s) \/ owner cfg s ctx name = Some x).
Proof. exact contexts_disjoint_dec. Qed.
Print Assumptions C13_contexts_disjoint_decorator.

(* with pair keys the whole of task.name2id() of another context is untouched *)
Theorem C13_contexts_disjoint_view : forall cfg s t ctx name km s' ctx',
  d17_concat_keys cfg = false -> ctx <> ctx' ->
  ustep cfg s (UUnique t ctx name km) = Some s' -> view cfg ctx' (n2t s') = view cfg ctx' (n2t s).
Proof. exact contexts_disjoint_view. Qed.
Print Assumptions C13_contexts_disjoint_view.

(* the hypothesis is necessary for the code as it is (known finding D17) *)
Theorem C13_refuted_D17 : exists ls s s',
  run as_is ls = Some s
  /\ ("scripts.a.b" <> "scripts.a")%string
  /\ ustep as_is s (UUnique 1%N "scripts.a.b" "x" false) = Some s'
  /\ owner as_is s "scripts.a" "b.x" = Some 0%N
  /\ owner as_is s' "scripts.a" "b.x" = Some 1%N
  /\ In 0%N (rq s')
  /\ view as_is "scripts.a" (n2t s') = [("b.x"%string, 1%N)].
Proof. exact refuted_D17. Qed.
Print Assumptions C13_refuted_D17.

(* the tie: an observation of the real pyscript accepted by the trace validator is a path of the transition system
   (so every theorem above applies to each of its states) *)
Theorem C13_validated_is_path : forall cfg c, ucase_model_ok cfg c = true ->
  exists ls s, ucase_path cfg c = Some ls /\ run cfg ls = Some s /\ Inv s.
Proof. exact validated_is_path. Qed.
Print Assumptions C13_validated_is_path.
