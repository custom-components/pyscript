(* Properties/C01.v — property theorems only; every proof is [exact] of a lemma of Proofs/InterpEquiv.v or
   Proofs/InterpWitness.v, or of an instance of one.

   C01: "for every script of the supported subset, running it under pyscript leaves the same final variable values,
   produces the same ordered trail of observable side effects and raises the same exception type as the standard
   Python interpreter; every operand with side effects is evaluated exactly once, left to right."

   ps_run = Interp/PsEval.v (mirror of eval.py AstEval; tied to the code by tape replay on every run),
   py_run = Interp/PyRef.v  (Language Reference / CPython 3.12; tied to CPython by tape replay on every run).
   The host ([prim], [oh]) is universally quantified: it decides what every operator computes and what raises, so
   the theorems cover all builtin value kinds, well- and ill-typed programs, every nesting depth and every fuel.
   The subset is the whole of Interp/Syntax.v (the translator refuses any other node), so no [supported]
   side condition is needed. *)
From PV Require Import Common.Util Interp.Syntax Interp.Host Interp.PsEval Interp.PyRef Interp.BuiltinHost Interp.EvalCheck
  Proofs.InterpEquiv Proofs.InterpWitness.
(* Interp.EvalCheck is imported although no statement below names it: a check of this property builds the cone of this
   file only, and its correspondence stream loads EvalCheck *)

(* The conformant evaluator (all deviation switches off) and the reference agree on the whole run record — final
   symbol table, complete trail of primitive calls, outcome, final host state — or are both out of fuel. *)
Theorem C01_run_equal :
  forall (hstate : Type) (prim : primop -> list value -> hstate -> hstate * pres) (oh : N -> bool) (cfg : deviations),
  H1 prim -> H2 prim -> all_off cfg ->
  forall (fuel : nat) (p : program) (h : hstate) (e : env),
  ps_run hstate prim oh cfg fuel p h e = py_run hstate prim oh fuel p h e.
Proof. exact (fun hstate prim oh cfg HH1 HH2 => run_equiv hstate prim oh HH1 HH2 cfg). Qed.
Print Assumptions C01_run_equal.

(* the statement of DESIGN.md: equality of the observable projection (final variable values, sub-trail of calls —
   every tracer call is one —, exception class) as options, for all fuel *)
Theorem C01_eval_equiv :
  forall (hstate : Type) (prim : primop -> list value -> hstate -> hstate * pres) (oh : N -> bool) (cfg : deviations),
  all_off cfg -> H1 prim -> H2 prim ->
  forall (fuel : nat) (p : program) (h : hstate) (e : env),
  option_map obs (ps_run hstate prim oh cfg fuel p h e) = option_map obs (py_run hstate prim oh fuel p h e).
Proof. exact obs_equiv. Qed.
Print Assumptions C01_eval_equiv.

(* "every operand that has side effects is evaluated exactly once and in Python's left-to-right order":
   the ordered list of calls (callee, positional and keyword arguments) is the same *)
Theorem C01_once_left_to_right :
  forall (hstate : Type) (prim : primop -> list value -> hstate -> hstate * pres) (oh : N -> bool) (cfg : deviations),
  all_off cfg -> H1 prim -> H2 prim ->
  forall fuel p h e r1 r2,
  ps_run hstate prim oh cfg fuel p h e = Some r1 -> py_run hstate prim oh fuel p h e = Some r2 ->
  calls (rr_trail r1) = calls (rr_trail r2).
Proof. exact calls_equal. Qed.
Print Assumptions C01_once_left_to_right.

Theorem C01_same_exception :
  forall (hstate : Type) (prim : primop -> list value -> hstate -> hstate * pres) (oh : N -> bool) (cfg : deviations),
  all_off cfg -> H1 prim -> H2 prim ->
  forall fuel p h e r1 r2,
  ps_run hstate prim oh cfg fuel p h e = Some r1 -> py_run hstate prim oh fuel p h e = Some r2 ->
  rr_out r1 = rr_out r2 /\ rr_env r1 = rr_env r2.
Proof. exact outcome_equal. Qed.
Print Assumptions C01_same_exception.

(* the hypotheses are met by a concrete host over ints, bools, None, strings and native containers ... *)
Theorem C01_builtin_host_ok : H1 bh_prim /\ H2 bh_prim.
Proof. exact (conj builtin_host_H1 builtin_host_H2). Qed.
Print Assumptions C01_builtin_host_ok.
(* ... on which a three-generator comprehension with a walrus, a chained comparison, and/or, a starred call with a
   keyword and an augmented subscript assignment runs to completion with at least ten calls *)
Theorem C01_example_nontrivial : exists e t, py_obs w_example = Some (e, t, ONormal) /\ 10 <= length t.
Proof. exact example_runs. Qed.
Print Assumptions C01_example_nontrivial.

(* Each deviation switch, on alone, refutes the property on the witness of its finding (concrete host). *)
Theorem C01_refuted_D1 : ps_obs (only_dev 1) w_D1 <> py_obs w_D1.        Proof. exact refuted_D1. Qed.
Theorem C01_refuted_D2 : ps_obs (only_dev 2) w_D2 <> py_obs w_D2.        Proof. exact refuted_D2. Qed.
Theorem C01_refuted_D3 : ps_obs (only_dev 3) w_D3 <> py_obs w_D3.        Proof. exact refuted_D3. Qed.
Theorem C01_refuted_D4 : ps_obs (only_dev 4) w_D4 <> py_obs w_D4.        Proof. exact refuted_D4. Qed.
Theorem C01_refuted_D5 : ps_obs (only_dev 5) w_D5 <> py_obs w_D5.        Proof. exact refuted_D5. Qed.
Theorem C01_refuted_D6 : ps_obs (only_dev 6) w_D6 <> py_obs w_D6.        Proof. exact refuted_D6. Qed.
Theorem C01_refuted_D7 : ps_obs (only_dev 7) w_D7 <> py_obs w_D7.        Proof. exact refuted_D7. Qed.
Theorem C01_refuted_D100 : ps_obs (only_dev 100) w_D100 <> py_obs w_D100.  Proof. exact refuted_D100. Qed.
Theorem C01_refuted_D101 : ps_obs (only_dev 101) w_D101 <> py_obs w_D101.  Proof. exact refuted_D101. Qed.
Theorem C01_refuted_D102 : ps_obs (only_dev 102) w_D102 <> py_obs w_D102.  Proof. exact refuted_D102. Qed.
Theorem C01_refuted_D103 : ps_obs (only_dev 103) w_D103 <> py_obs w_D103.  Proof. exact refuted_D103. Qed.
Theorem C01_refuted_D104 : ps_obs (only_dev 104) w_D104 <> py_obs w_D104.  Proof. exact refuted_D104. Qed.
Theorem C01_refuted_D105 : ps_obs (only_dev 105) w_D105 <> py_obs w_D105.  Proof. exact refuted_D105. Qed.
Print Assumptions C01_refuted_D1.
Print Assumptions C01_refuted_D105.
