(* Properties/C08.v — property theorems only; every proof is [exact] of a lemma of Proofs/TrigEventFlow.v or
   Proofs/TrigEventFlowPath.v, or of an instance or a conjunction of such.
   "All schedules" = all label sequences [ls] of the LTS of Trig/EventFlow.v (LBus / LConsume / LRun in any order,
   any number of runs in any state); [legacy] ranges over both decorator subsystems. *)
From PV Require Import Common.Util Trig.EventBase Gen.EventFlowConsts Trig.EventFlow Trig.EventFlowCheck Proofs.TrigEventFlow Proofs.TrigEventFlowPath.

(* the func_args dictionaries read from the current source are the documented ones *)
Theorem C08_tables_as_documented : forall legacy o, base_args legacy o = spec_base o.
Proof. exact base_args_spec. Qed.
Print Assumptions C08_tables_as_documented.

(* C08, exactly once / no loss / no duplication / no reordering, at every moment of every schedule:
   per decorator T, (runs started so far) ++ (runs its queue will still start) = one run per matching occurrence handed
   over so far, in order, with the Spec's kwargs and the occurrence's context as parent. *)
Theorem C08_fifo_invariant : forall legacy trigs order ls st T tr,
  let S := mk_sys all_off legacy trigs order in
  run_lts S ls = Some st -> nth_error trigs T = Some tr ->
  started st T ++ pending S T (st_q st T) = spec_runs tr (st_occs st).
Proof. exact fifo_invariant. Qed.
Print Assumptions C08_fifo_invariant.

Theorem C08_fifo_prefix : forall legacy trigs order ls st T tr,
  run_lts (mk_sys all_off legacy trigs order) ls = Some st -> nth_error trigs T = Some tr ->
  exists rest, spec_runs tr (st_occs st) = started st T ++ rest.
Proof. exact fifo_prefix. Qed.
Print Assumptions C08_fifo_prefix.

Theorem C08_fifo_quiescent : forall legacy trigs order ls st T tr,
  let S := mk_sys all_off legacy trigs order in
  run_lts S ls = Some st -> nth_error trigs T = Some tr -> drained S st T ->
  started st T = spec_runs tr (st_occs st).
Proof. exact fifo_quiescent. Qed.
Print Assumptions C08_fifo_quiescent.

(* the same about the Model with any deviation switches: it runs exactly [model_runs] *)
Theorem C08_fifo_invariant_model : forall S ls st, run_lts S ls = Some st ->
  forall T, started st T ++ pending S T (st_q st T) = model_runs S T (st_occs st).
Proof. exact fifo_invariant_model. Qed.
Print Assumptions C08_fifo_invariant_model.

(* C08, independence: a non-empty queue can always be consumed, whatever the runs are doing; no step of any run disables a
   consumption; the effect of a consumption does not depend on the runs that exist *)
Theorem C08_independent :
  (forall S st T c, trig_at S T <> None -> consume_enabled st T = true -> exists st', step S st (LConsume T c) = Some st') /\
  (forall S st r a st' T, step S st (LRun r a) = Some st' -> consume_enabled st T = true -> consume_enabled st' T = true) /\
  (forall S st1 st2 T c, st_q st1 T = st_q st2 T ->
     match consume S st1 T c, consume S st2 T c with
     | Some a, Some b => st_q a T = st_q b T /\ exists new, st_runs a = st_runs st1 ++ new /\ st_runs b = st_runs st2 ++ new
     | None, None => True
     | _, _ => False
     end).
Proof. exact (conj consume_enabled_total (conj run_step_keeps_consume_enabled consume_ignores_runs)). Qed.
Print Assumptions C08_independent.

(* C08, contexts: every run was started by an occurrence matching a decorator of its function, got the Spec's kwargs, and
   its HA context's parent is that occurrence's context; everything it emits without an explicit context carries it *)
Theorem C08_context_parent : forall legacy trigs order ls st,
  run_lts (mk_sys all_off legacy trigs order) ls = Some st ->
  (forall i rn, nth_error (st_runs st) i = Some rn ->
     exists tr o, nth_error trigs (r_trig rn) = Some tr /\ r_func rn = t_func tr /\ In o (st_occs st) /\
                  spec_matches tr o = true /\ r_kwargs rn = spec_kwargs tr o /\ c_parent (r_ctx rn) = o_ctx o) /\
  (forall e, In e (st_acts st) -> em_explicit e = false ->
     exists rn, nth_error (st_runs st) (em_run e) = Some rn /\ em_ctx e = r_ctx rn).
Proof. exact context_parent. Qed.
Print Assumptions C08_context_parent.

(* ... and with every deviation switch on: the parent is right whenever neither the event data nor the decorator
   kwargs use the name "context" *)
Theorem C08_context_parent_current : forall legacy trigs order tr o,
  let S := mk_sys all_on legacy trigs order in
  o_kind o = KEvent -> ~ In s_context (map fst (o_data o)) -> ~ In s_context (map fst (t_kwargs tr)) ->
  expected_parent S tr o = o_ctx o.
Proof. exact (fun legacy trigs order => expected_parent_unshadowed (mk_sys all_on legacy trigs order)). Qed.
Print Assumptions C08_context_parent_current.

(* C08, event.fire: exactly the given parameters minus a Context-typed `context`, under that context if given, else under
   the run's; the emitted event is itself an occurrence handed to every subscribed trigger *)
Theorem C08_fire_exact : forall S st r key given data c ep st',
  NoDup (map fst given) ->
  step S st (LRun r (AFire key given data c ep)) = Some st' ->
  kw_eqb data (spec_fire_data given) = true /\
  st_occs st' = st_occs st ++ [ {| o_kind := KEvent; o_key := key; o_epoch := ep; o_ctx := Some (c_id c); o_attrs := [];
                                  o_data := spec_fire_data given; o_opt := None |} ] /\
  (match kw_get s_context given with
   | Some (VCtx x) => c_id c = x
   | _ => exists rn, nth_error (st_runs st) r = Some rn /\ c_id c = c_id (r_ctx rn) /\ c_parent c = c_parent (r_ctx rn)
   end).
Proof. exact fire_exact. Qed.
Print Assumptions C08_fire_exact.

(* with the deviation switch of a finding on the property is false *)
Theorem C08_refuted_D80 :
  exists trigs order ls T tr,
    let S := mk_sys {| d_webhook_dup := true; d_ctx_shadow_legacy := false; d_ctx_shadow_new := false |} false trigs order in
    nth_error trigs T = Some tr /\
    match run_lts S ls with
    | Some st => drained S st T /\ started st T <> spec_runs tr (st_occs st)
    | None => False
    end.
Proof. exact refuted_D80. Qed.
Print Assumptions C08_refuted_D80.

Theorem C08_refuted_D81 :
  exists trigs order ls T tr,
    let S := mk_sys {| d_webhook_dup := false; d_ctx_shadow_legacy := true; d_ctx_shadow_new := false |} true trigs order in
    nth_error trigs T = Some tr /\
    match run_lts S ls with
    | Some st => drained S st T /\ started st T <> spec_runs tr (st_occs st) /\
                 map fst (started st T) = map fst (spec_runs tr (st_occs st))
    | None => False
    end.
Proof. exact (refuted_ctx_shadow true). Qed.
Print Assumptions C08_refuted_D81.

Theorem C08_refuted_D82 :
  exists trigs order ls T tr,
    let S := mk_sys {| d_webhook_dup := false; d_ctx_shadow_legacy := false; d_ctx_shadow_new := true |} false trigs order in
    nth_error trigs T = Some tr /\
    match run_lts S ls with
    | Some st => drained S st T /\ started st T <> spec_runs tr (st_occs st) /\
                 map fst (started st T) = map fst (spec_runs tr (st_occs st))
    | None => False
    end.
Proof. exact (refuted_ctx_shadow false). Qed.
Print Assumptions C08_refuted_D82.

(* the tie: whenever the correspondence check ([ecase_model_ok], evaluated on every run on traces of the real code) accepts
   an observed trace, the label sequence it built is a path of the LTS from the initial state ending with all queues empty,
   and for the conformant model that end state has, per decorator, exactly the Spec's runs *)
Theorem C08_trace_validator_sound : forall cfg c, ecase_model_ok cfg c = true ->
  exists ls st, run_lts (case_sys cfg c) ls = Some st /\ forall T, (T < length (ec_trigs c))%nat -> st_q st T = [].
Proof. exact model_ok_path. Qed.
Print Assumptions C08_trace_validator_sound.

Theorem C08_accepted_trace_exact : forall c, ecase_model_ok all_off c = true ->
  exists ls st, run_lts (case_sys all_off c) ls = Some st /\
    forall T tr, nth_error (ec_trigs c) T = Some tr -> started st T = spec_runs tr (st_occs st).
Proof. exact model_ok_exact. Qed.
Print Assumptions C08_accepted_trace_exact.
