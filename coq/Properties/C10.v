(* Properties/C10.v — "Reload loads exactly what the files and configuration now dictate".
   Property theorems only; every proof is [exact <lemma>], the lemmas being in the nine Proofs files imported below
   (hub: Proofs/LifeReloadThms.v).
   Model: Life/Modules.v (module_import, executing a file), Life/Reload.v (discover, plan, delete-then-load,
   start_global_contexts); constants Gen/ReloadConsts.v regenerated from the source on every run.
   [all_off] is the conformant model; the switches are the deviations of findings D100-D103 (each refuted below). *)
From PV Require Import Common.Util Life.ReloadBase Gen.ReloadConsts Life.Modules Life.Reload Life.ReloadPlanSpec Life.ReloadSpec
  Life.ReloadCheck Life.ReloadLoaded Proofs.LifeReloadBase Proofs.LifeClosure Proofs.LifePlan Proofs.LifeUntouched
  Proofs.LifeDiscover Proofs.LifeDiscoverDoc Proofs.LifeReloadThms Proofs.LifeReloadFindings Proofs.LifeLoaded.

(* import_recurse, with its `visited` set and its memo shared between the top-level calls, returns exactly the
   contexts reachable through one or more recorded import edges -- for every context table whose import graph is
   acyclic and every memo left behind by earlier calls; the memo stays correct.  (The result is the non-reflexive
   closure: load_scripts adds the context itself through the changed set.) *)
Theorem C10_import_closure : forall st n m, acyclic st -> INV st m [] [] ->
  exists res v' m', import_recurse (ir_fuel st) st n [] m = IROk res v' m'
    /\ closure_of st n res /\ closure_of st n (memo_or_empty m' n) /\ INV st m' [] [].
Proof. exact import_closure. Qed.
Print Assumptions C10_import_closure.

(* the termination argument: the fuel |contexts| + 2 is never exhausted, cyclic graphs included *)
Theorem C10_import_closure_terminates : forall st n m, import_recurse (ir_fuel st) st n [] m <> IRFuel.
Proof. exact import_recurse_never_out_of_fuel. Qed.
Print Assumptions C10_import_closure_terminates.

(* the step-by-step plan (in-place force flags, growing delete set, `done` roots) = the declarative sets:
   delete set = Changed U Importers*(changed module roots) U package mates; a discovered file is forced iff it is the
   root file of a widened package, or outside every widened package and changed / new / an importer *)
Theorem C10_plan_exact : forall st fs a, acyclic st -> fresh fs -> uniq_files fs -> NoDup (map c_name (ctx_all st)) ->
  p_ok (plan all_off st fs a) = true ->
  let pl := plan all_off st fs a in
  p_fuel_ok pl = true
  /\ same_files fs (p_files pl)
  /\ (forall n, In n (p_del pl) <-> Discard st fs a n)
  /\ (forall s', In s' (p_files pl) -> (sf_force s' = true <-> Forced st fs a s')).
Proof. exact plan_exact. Qed.
Print Assumptions C10_plan_exact.

(* "leaves all other contexts untouched": a context outside the discard set (and not the named one) is in the new
   table as the same object -- source, variables, counter, import set, identity -- at most with its triggers armed *)
Theorem C10_untouched : forall born st t k a c,
  uniq_ctx st -> acyclic st -> In c st -> in_ctx_roots (c_name c) = true ->
  (c_ismod c = true \/ safe_name all_off t (c_name c)) ->
  ~ Discard st (discover t k) a (c_name c) -> ~ Forced0 st (discover t k) a (c_name c) ->
  let st' := r_st (reload all_off born st t k a) in
  In c st' \/ In (set_started c) st'.
Proof. exact untouched_outside_Discard. Qed.
Print Assumptions C10_untouched.

(* The post-state (first sentence of the property).
   [spec_loaded t k] (Life/ReloadLoaded.v) is the least set of context names containing the existing auto-loaded
   files and closed under "its source imports m and m resolves to an existing file" -- defined on the tree alone
   (module_import's candidate list + first existing file; no table, no lookup-before-load, no execution order).
   [consistent t k st]: every context of the table is a reachable load descriptor at the tree's CURRENT source
   (generation, mtime, rel_import_path, module-or-auto-loaded) and everything it transitively imports is loaded.
   [good_tree t k]: no duplicate paths; every import of a reachable file resolves (else that file fails to load);
   unambiguous (one name = one way to load it; no second candidate of an import names another reachable file);
   the import graph of the tree is acyclic with chains shorter than the number of files (fuel = |tree| + 1).
   [ex_good_tree] inhabits it (diamond, app package with a sibling importing a module, script in a sub-directory). *)

(* '*' (also when forced by a change of the global options) and start-up: exact, both directions, unconditionally *)
Theorem C10_post_state_star : forall born st t k, good_tree t k -> uniq_ctx st -> acyclic st ->
  (forall c, In c st -> in_ctx_roots (c_name c) = true) ->
  let st' := r_st (reload all_off born st t k RAll) in
  consistent t k st' /\ forall n, has st' n <-> spec_loaded t k n.
Proof. exact star_post_state. Qed.
Print Assumptions C10_post_state_star.

Theorem C10_post_state_startup : forall born t k, good_tree t k ->
  let st' := r_st (reload all_off born [] t k RNone) in
  consistent t k st' /\ forall n, has st' n <-> spec_loaded t k n.
Proof. exact startup_post_state. Qed.
Print Assumptions C10_post_state_startup.

(* C10_post_state_default_partial.  Full statement wanted:
     forall history, good_tree at each step -> after every default reload: contexts = spec_loaded /\ consistent.
   Proved: the equality (both directions) and consistency for every default or '*' reload from every state, under ONE
   hypothesis: the survivors of the delete phase are consistent with the NEW tree.  It is vacuous after '*' and at
   start-up (nothing survives; the two theorems above).  Missing to drop it for default reloads: deriving it from
   the previous reload's post-state, i.e. that an unchanged file (same generation, mtime, configuration) has the same
   import list and resolves it to the same names in the new tree as in the tree it was loaded from (cross-tree
   stability of resolution: no newly created file shadows a candidate; generation determines the import list), and that
   lingering unimported modules are absent.  The correspondence checks the equality on every generated history
   (Spec clauses 1-2, by-source closure sp_load). *)
Theorem C10_post_state_default_partial : forall born st t k a, good_tree t k -> uniq_ctx st -> acyclic st ->
  (forall n, a <> RName n) ->
  consistent t k (delete_phase st (p_del (plan all_off st (discover t k) a))) ->
  let st' := r_st (reload all_off born st t k a) in
  consistent t k st' /\ forall n, has st' n <-> spec_loaded t k n.
Proof. exact post_state_exact. Qed.
Print Assumptions C10_post_state_default_partial.

(* unconditional (no good_tree, no hypothesis on the survivors), weaker: every context of the new table runs the current
   source of an existing file -- a survivor is not `changed` w.r.t. the discovered file of its name, a re-executed
   auto-loaded file is its discovered entry, an imported module is the tree's file at a candidate path *)
Theorem C10_post_state_current : forall born st t k a,
  uniq_ctx st -> acyclic st -> (forall n, a <> RName n) ->
  let st' := r_st (reload all_off born st t k a) in
  uniq_ctx st' /\ forall c', In c' st' -> exists c, (c' = c \/ c' = set_started c) /\
                                           (in_ctx_roots (c_name c) = true -> current_ctx t k born c).
Proof. exact post_state_current. Qed.
Print Assumptions C10_post_state_current.

(* the post-state theorems at every default / '*' step of every history (incl. the global-option rule) *)
Theorem C10_history_post : forall steps born old st, uniq_ctx st ->
  hist_all (fun _ st _ _ => acyclic st) born old st steps -> hist_all step_post born old st steps.
Proof. exact history_post. Qed.
Print Assumptions C10_history_post.

(* "re-executes those of them that are auto-loaded": holds for every deviation setting *)
Theorem C10_reexecuted : forall dv born st t k a s,
  let pl := plan dv st (discover t k) a in
  p_ok pl = true -> In s (load_list (p_files pl)) -> In (sf_name s, sf_gen s) (r_ev (reload dv born st t k a)).
Proof. exact reload_reexecutes. Qed.
Print Assumptions C10_reexecuted.

(* the exact re-execution set: whatever a reload executes is a forced auto-loaded file or a file an import statement
   resolved to (any deviation setting); with C10_reexecuted (every forced auto-loaded file IS executed) and C10_untouched
   (what is outside Discard is not replaced): executed = Forced auto-loaded + lazily imported, nothing else *)
Theorem C10_reexecution_exact : forall dv born st t k a e,
  In e (r_ev (reload dv born st t k a)) ->
  (exists s, In s (load_list (p_files (plan dv st (discover t k) a))) /\ e = (sf_name s, sf_gen s)) \/ lazily_imported dv t e.
Proof. exact reload_events_origin. Qed.
Print Assumptions C10_reexecution_exact.

Theorem C10_star_discards_all : forall born st t k c',
  uniq_ctx st -> acyclic st ->
  In c' (r_st (reload all_off born st t k RAll)) ->
  exists c, (c' = c \/ c' = set_started c) /\ (in_ctx_roots (c_name c) = true -> c_born c = born).
Proof. exact star_discards_all. Qed.
Print Assumptions C10_star_discards_all.

(* lower bound of the post-state: every discovered auto-loaded file is executed by a default or '*' reload, or it was
   loaded before and lies outside the discard set (C10_untouched then keeps it) *)
Theorem C10_autoload_complete : forall born st t k a s,
  uniq_ctx st -> acyclic st -> (forall n, a <> RName n) -> In s (discover t k) -> sf_auto s = true ->
  In (sf_name s, sf_gen s) (r_ev (reload all_off born st t k a))
  \/ (exists c, In c st /\ c_name c = sf_name s /\ in_ctx_roots (c_name c) = true
        /\ ~ Discard st (discover t k) a (sf_name s) /\ ~ Forced0 st (discover t k) a (sf_name s)).
Proof. exact autoload_complete. Qed.
Print Assumptions C10_autoload_complete.

(* lifted to every sequence of reloads (None | name | '*'), each finding an arbitrary tree and configuration -- any
   sequence of modify / touch / create / delete / rename / configuration steps in between is some such tree --
   by induction over the history (a change of the global options since the previous reload turns the step into '*',
   [eff_arg]); the only hypothesis is that the recorded import graph is acyclic at each step *)
Theorem C10_history : forall steps born old st, uniq_ctx st ->
  hist_all (fun _ st _ _ => acyclic st) born old st steps -> hist_all step_thms born old st steps.
Proof. exact history_thms. Qed.
Print Assumptions C10_history.

(* discovery: context naming, '#' skipping, existence *)
Theorem C10_discover_names : forall t k s, tree_ok t -> In s (discover t k) ->
  sf_name s = sp_name_of (sf_path s) /\ hashed (sf_path s) = false /\
  exists f, In (sf_path s, f) t /\ sf_gen s = f_gen f /\ sf_mtime s = f_mtime f.
Proof. exact discover_names. Qed.
Print Assumptions C10_discover_names.

(* discovery: a file is discovered as auto-loaded iff it is at a documented auto-load place: top level, below
   scripts/, apps/<a>/__init__.py or (no package form) apps/<a>.py with <a> configured; not '#'-commented *)
Theorem C10_discover_autoload : forall t k p f, tree_ok t -> In (p, f) t -> unambiguous t p ->
  (sp_autoload t k p = true <-> exists s, In s (discover t k) /\ sf_path s = p /\ sf_auto s = true).
Proof. exact discover_autoload_exact. Qed.
Print Assumptions C10_discover_autoload.

(* discover is "first candidate in (load_paths row, sorted path) order wins" *)
Theorem C10_discover_first : forall t k n, sf_find (discover t k) n = sf_find (cands t k) n.
Proof. exact discover_find. Qed.
Print Assumptions C10_discover_first.

(* each deviation switch alone violates the Spec on its witness, the conformant model satisfies it *)
Theorem C10_refuted_D100 : exists steps, spec_of_model (only 100) steps = false /\ spec_of_model all_off steps = true.
Proof. exact refuted_D100. Qed.
Print Assumptions C10_refuted_D100.
Theorem C10_refuted_D101 : exists steps, spec_of_model (only 101) steps = false /\ spec_of_model all_off steps = true.
Proof. exact refuted_D101. Qed.
Print Assumptions C10_refuted_D101.
Theorem C10_refuted_D102 : exists steps, spec_of_model (only 102) steps = false /\ spec_of_model all_off steps = true.
Proof. exact refuted_D102. Qed.
Print Assumptions C10_refuted_D102.
Theorem C10_refuted_D103 : exists steps, spec_of_model (only 103) steps = false /\ spec_of_model all_off steps = true.
Proof. exact refuted_D103. Qed.
Print Assumptions C10_refuted_D103.
