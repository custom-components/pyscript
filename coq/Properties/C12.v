(* Properties/C12.v — property theorems only; every proof is [exact <lemma>] (lemmas in Proofs/).

   C12: "A @service exists exactly while declared and calls the current definition".
   Model: Life/Services.v (life cycle), Life/ServiceCalls.v (outgoing calls); constants of service_register /
   service_remove and the control-keyword tables are regenerated from the source into Gen/ServiceConsts.v on every run.
   [all_off] is the Model with every deviation switch off (conformant behaviour); each switch (the deviations of findings D21,
   D23, D26, D120 - D127) is refuted below on the witness the check replays. *)
From PV Require Import Common.Util Gen.ServiceConsts Life.Services Life.ServicesSpec Life.ServiceCalls Life.ServicesCheck
  Proofs.LifeServices Proofs.LifeServiceCalls Proofs.LifeServicesRefuted Proofs.LifeServicesRefine.

(* After ANY sequence of operations (start-up, exec of def/redefine/del statements in a live context, reload of one file,
   unload, reload of everything; any number of contexts, function names, service names, aliases, duplicates), in either
   subsystem: a name is registered in HA iff a live function holds it; the count equals the number of live holdings;
   every holding is a declared name of a function that is bound, started and in a loaded context; the owner table names
   the holders' context.  ("once any definition, redefinition, deletion or reload has completed ... no undeclared one
   remains"; with C12_define_effective: "no declared service is missing".) *)
Theorem C12_registry_invariant : forall (legacy : bool) (ops : list op),
  Registry_ok (run_ops all_off legacy ops init_st).
Proof. exact registry_invariant. Qed.
Print Assumptions C12_registry_invariant.

(* A definition executed in a loaded context registers exactly the declared names that no other context owns at that
   moment (the new function holds them afterwards), and leaves names owned by another context completely untouched:
   handler, owner and count unchanged. *)
Theorem C12_define_effective : forall (legacy : bool) (ops : list op) (c : cid) (f : fid) (decl : list key) (d : srd),
  let s := run_ops all_off legacy ops init_st in
  loaded s c = true ->
  let s' := run_op all_off legacy s (OExec c [SDef f decl d]) in
  (exists r, In r (s_funcs s') /\ f_gen r = s_next s /\ f_ctx r = c /\ f_name r = f /\ f_decl r = nodupN decl /\ f_bound r = true /\
             forall k, memN k (f_held r) = memN k decl && okf s c k) /\
  (forall k, okf s c k = false -> s_reg s' k = s_reg s k /\ s_owner s' k = s_owner s k /\ s_cnt s' k = s_cnt s k).
Proof. exact define_effective. Qed.
Print Assumptions C12_define_effective.

(* In every reachable state all holders of a name are in one context, and the function HA calls for the name is a live
   holder in the owning context: a second context never takes over a name another context owns. *)
Theorem C12_no_takeover : forall (legacy : bool) (ops : list op), let s := run_ops all_off legacy ops init_st in
  (forall k r1 r2, In r1 (s_funcs s) -> In r2 (s_funcs s) -> memN k (f_held r1) = true -> memN k (f_held r2) = true ->
                   f_ctx r1 = f_ctx r2) /\
  (forall k g m, s_reg s k = Some (g, m) ->
     exists r, In r (s_funcs s) /\ f_gen r = g /\ memN k (f_held r) = true /\ s_owner s k = Some (f_ctx r)).
Proof. exact no_takeover. Qed.
Print Assumptions C12_no_takeover.

(* Calling a service runs the most recent live definition holding the name, with data + trigger_type='service', and the
   returned value is that definition's result when a response was requested and accepted. *)
Theorem C12_calls_current : forall (legacy : bool) (ops : list op) (k : key) (data : kwargs) (resp : bool) g kw ret,
  let s := run_ops all_off legacy ops init_st in
  model_call s k data resp = OcRun g kw ret ->
  (exists r, In r (s_funcs s) /\ f_gen r = g /\ f_bound r = true /\ memN k (f_held r) = true /\ memN k (f_decl r) = true /\
             forall r', In r' (s_funcs s) -> memN k (f_held r') = true -> (f_gen r' <= g)%N) /\
  kw = call_kwargs data /\ ret = (if resp then Some g else None).
Proof. exact calls_current. Qed.
Print Assumptions C12_calls_current.

(* Outgoing calls: for every keyword set (distinct keywords), every call site, caller context, target response mode and
   positional-argument count, the data delivered to the target is exactly the given keywords minus the control keywords
   recognised by the site's table (regenerated from the source); the only other outcomes are HA's own validation error and
   the TypeError for positional arguments the call form does not take. *)
Theorem C12_outgoing_exact : forall s task_ctx target honly nargs nparams kws,
  NoDup (map kw_key kws) ->
  match outgoing all_off s task_ctx target honly nargs nparams kws with
  | ODelivered d _ => d = expected_data s nargs nparams kws
  | OTypeError => args_misuse s nargs nparams = true
  | OValidation => True
  | OOther => False
  end.
Proof. exact outgoing_exact. Qed.
Print Assumptions C12_outgoing_exact.

Theorem C12_outgoing_controls : forall s task_ctx kws x,
  NoDup (map kw_key kws) -> In x kws -> recognised s x = true -> In (HGiven x) (snd (split s task_ctx kws)).
Proof. exact outgoing_controls. Qed.
Print Assumptions C12_outgoing_controls.


(* Refinement: the conformant Model and the reference semantics (ServicesSpec.v) make the same observations: after an operation
   sequence (define / redefine / delete / run-time definitions / reload / unload / reload of everything, any number of contexts,
   aliases, duplicates, garbage-collection points) every name is registered in the Model iff the Spec requires it and the same
   function generation answers (hence the same returned value).  For the legacy subsystem every sequence is covered
   (C12_refines_legacy); for the default subsystem those with [ops_ok]: every operation except a reload of everything / start-up
   that leaves MORE THAN ONE script file (C12_refines_partial).  Left out: several contexts waiting for ctx.start() at the same
   time (pyscript.reload "*" with >= 2 files), which would need "start of context i commutes with loading context j > i";
   C12_registry_invariant covers that case. *)
Theorem C12_refines_legacy : forall (ops : list op) (k : key),
  LifeServicesRefine.handler_gen (run_ops all_off true ops init_st) k = LifeServicesRefine.ref_gen (fold_left ref_op ops init_rst) k.
Proof. exact refines_observations_legacy. Qed.
Print Assumptions C12_refines_legacy.

Theorem C12_refines_partial : forall (legacy : bool) (ops : list op), ops_ok legacy ops [] ->
  forall k, LifeServicesRefine.handler_gen (run_ops all_off legacy ops init_st) k
            = LifeServicesRefine.ref_gen (fold_left ref_op ops init_rst) k.
Proof. exact refines_observations. Qed.
Print Assumptions C12_refines_partial.

(* Each deviation switch makes the Model leave the reference semantics (D126 together with D127; D123 on the outgoing call path) *)
Theorem C12_refuted_D21 : refuted 21.   Proof. exact refuted_D21. Qed.
Print Assumptions C12_refuted_D21.
Theorem C12_refuted_D23 : refuted 23.   Proof. exact refuted_D23. Qed.
Print Assumptions C12_refuted_D23.
Theorem C12_refuted_D26 : refuted 26.   Proof. exact refuted_D26. Qed.
Print Assumptions C12_refuted_D26.
Theorem C12_refuted_D120 : refuted 120. Proof. exact refuted_D120. Qed.
Print Assumptions C12_refuted_D120.
Theorem C12_refuted_D121 : refuted 121. Proof. exact refuted_D121. Qed.
Print Assumptions C12_refuted_D121.
Theorem C12_refuted_D122 : refuted 122. Proof. exact refuted_D122. Qed.
Print Assumptions C12_refuted_D122.
Theorem C12_refuted_D124 : refuted 124. Proof. exact refuted_D124. Qed.
Print Assumptions C12_refuted_D124.
Theorem C12_refuted_D125 : refuted 125. Proof. exact refuted_D125. Qed.
Print Assumptions C12_refuted_D125.
Theorem C12_refuted_D127 : refuted 127. Proof. exact refuted_D127. Qed.
Print Assumptions C12_refuted_D127.
Theorem C12_refuted_D126 :
  LifeServicesRefuted.handler_gen (mid_final (cfg_mid true)) 2%N = None /\
  LifeServicesRefuted.handler_gen (mid_final (cfg_mid false)) 2%N = Some 1%N.
Proof. exact refuted_D126. Qed.
Print Assumptions C12_refuted_D126.
Theorem C12_refuted_D123 : exists target data h,
  (exists x, In (HGiven x) h /\ kw_key x = 4%N) /\
  ha_call (only 123) target data h = OTypeError /\ ha_call all_off target data h = ODelivered data false.
Proof. exact refuted_D123. Qed.
Print Assumptions C12_refuted_D123.
