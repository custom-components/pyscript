(* Properties/C18.v — property theorems only; every proof is [exact] of a lemma of Proofs/InterpFrames.v or
   Proofs/PolicyErrors.v.

   C18 (full statement): an exception raised by user code - in a trigger or service function, a trigger/active/filter
   expression, a done-callback, a created task or at load time - is reported once on that script's logger with the
   exception type and message and a traceback whose script frames name the same file, function and line numbers that
   Python's own traceback would name for that source.  It never propagates into Home Assistant, never stops the trigger
   from serving later occurrences, never disturbs other functions or files, and a load-time error leaves that one file
   unloaded while others load.

   Claimed as PARTIAL.  Proved here, about executable models tied to the code on every run:
   - attribution, for every program of the mini language of Interp/Frames.v (statements and expression nodes with line
     numbers, user-function calls through plain calls / methods / comprehension elements / decorator wrappers / decorator
     application / functions of imported modules / natively compiled script functions and lambdas (as given frames), module import, try statements that pass on, swallow or chain an
     exception, raise..from), any call depth, any nesting, any length of the cause chain;
   - containment, for every entry point of both subsystems, every outcome of the user code, every history.
   Missing for the full statement: the chain of interpreter frames is an abstraction of CPython frame objects (f_locals,
   co_positions) that no Coq model exhibits; class bodies, lambdas, @pyscript_compile functions and generators are outside
   the mini language; both are exercised only by the differential stream (fault injection vs CPython's traceback). *)
From PV Require Import Common.Util Gen.ErrorConsts.
From PV Require Interp.Frames Interp.FramesCheck Proofs.InterpFrames.
From PV Require Policy.Errors Policy.ErrorsCheck Proofs.PolicyErrors.

Module Attribution.
Import Interp.Frames Interp.FramesCheck Proofs.InterpFrames.
Local Open Scope N_scope.

(* (1) With the conformant switches, what pyscript's formatter makes of the interpreter frames at the fault -
   [reported] = script_frames (format_stack (frames_at_fault p)) for every exception of the cause/context chain - is
   exactly the list of CPython traceback entries [reference_triples p]; the two also agree on "nothing raised" and on
   running out of fuel.  For all programs, entry points and amounts of fuel. *)
Theorem C18_attribution_partial : forall (p : prog) (fuel : nat) (en : entry),
  wf_prog p = true -> reported all_off p fuel en = reference_triples p fuel en.
Proof. exact attribution_all_off. Qed.
Print Assumptions C18_attribution_partial.

(* the hypothesis is inhabited by programs with calls, recursion, chaining and imports *)
Theorem C18_attribution_instances : wf_prog w182 = true /\ wf_prog w184 = true /\ wf_prog w187 = true.
Proof. exact wf_instances. Qed.
Print Assumptions C18_attribution_instances.

(* (1') Any setting of the deviation switches, on the plain fragment: only plain nodes (no multi-line
   attribute call, no decorator application), no renamed (decorator-wrapper) functions, no callee sharing (file, name) with
   its caller, no import of a failing module, no with-header fault, no handler that raises: the logged entries are
   CPython's, for any depth and nesting.  ([plain_prog] is decidable: [plain_progb].) *)
Theorem C18_attribution_today_plain : forall (dv : deviations) (p : prog),
  plain_prog p -> forall fuel en, reported dv p fuel en = reference_triples p fuel en.
Proof. exact attribution_today_plain. Qed.
Print Assumptions C18_attribution_today_plain.

Theorem C18_attribution_today_plain_instance : plain_prog w_plain.
Proof. exact plain_instance. Qed.
Print Assumptions C18_attribution_today_plain_instance.

(* each deviation switch alone, on a witness program (left: what is logged, right: what CPython prints) *)
Theorem C18_attribution_refuted_D182 :
  wf_prog w182 = true /\
  reported only_merge w182 50%nat (EnFunc 0%nat 99 false) = RRaise [[(1, FnNamed 11, 31); (1, FnNamed 10, 16)]] /\
  reference_triples w182 50%nat (EnFunc 0%nat 99 false)
    = RRaise [[(1, FnNamed 11, 31); (1, FnNamed 10, 17); (1, FnNamed 10, 17); (1, FnNamed 10, 16)]].
Proof. exact refuted_D182. Qed.
Print Assumptions C18_attribution_refuted_D182.

Theorem C18_attribution_refuted_D183 :
  wf_prog w183 = true /\
  reported only_rename w183 50%nat (EnFunc 0%nat 99 true) = RRaise [[(1, FnNamed 11, 20); (1, FnNamed 13, 6); (1, FnNamed 13, 9)]] /\
  reference_triples w183 50%nat (EnFunc 0%nat 99 true) = RRaise [[(1, FnNamed 11, 20); (1, FnNamed 12, 6); (1, FnNamed 13, 9)]].
Proof. exact refuted_D183. Qed.
Print Assumptions C18_attribution_refuted_D183.

Theorem C18_attribution_refuted_D184 :
  wf_prog w184 = true /\
  reported only_chain w184 50%nat (EnFunc 2%nat 99 false)
    = RRaise [[(1, FnNamed 22, 10); (1, FnNamed 21, 8)]; [(1, FnNamed 99, 6); (1, FnNamed 20, 3)]] /\
  reference_triples w184 50%nat (EnFunc 2%nat 99 false)
    = RRaise [[(1, FnNamed 22, 10); (1, FnNamed 21, 8)]; [(1, FnNamed 21, 6); (1, FnNamed 20, 3)]].
Proof. exact refuted_D184. Qed.
Print Assumptions C18_attribution_refuted_D184.

Theorem C18_attribution_refuted_D185 :
  wf_prog w185 = true /\
  reported only_line w185 50%nat (EnFunc 0%nat 99 false) = RRaise [[(1, FnNamed 11, 7); (1, FnNamed 12, 4)]] /\
  reference_triples w185 50%nat (EnFunc 0%nat 99 false) = RRaise [[(1, FnNamed 11, 8); (1, FnNamed 12, 4)]].
Proof. exact refuted_D185. Qed.
Print Assumptions C18_attribution_refuted_D185.

Theorem C18_attribution_refuted_D186 :
  wf_prog w186 = true /\
  reported only_with w186 50%nat (EnFunc 0%nat 99 false) = RNormal /\
  reference_triples w186 50%nat (EnFunc 0%nat 99 false) = RRaise [[(1, FnNamed 11, 5)]].
Proof. exact refuted_D186. Qed.
Print Assumptions C18_attribution_refuted_D186.

Theorem C18_attribution_refuted_D187 :
  wf_prog w187 = true /\
  reported only_sticky w187 50%nat (EnFunc 0%nat 99 false) = RRaise [[(1, FnNamed 11, 9); (1, FnNamed 11, 3)]] /\
  reference_triples w187 50%nat (EnFunc 0%nat 99 false) = RRaise [[(1, FnNamed 11, 9); (3, FnModule 3, 3)]].
Proof. exact refuted_D187. Qed.
Print Assumptions C18_attribution_refuted_D187.

Theorem C18_attribution_refuted_D190 :
  wf_prog w190 = true /\
  reported only_lambda w190 50%nat (EnFunc 0%nat 99 false) = RRaise [[(1, FnNamed 11, 5); (1, FnNamed 31, 2)]] /\
  reference_triples w190 50%nat (EnFunc 0%nat 99 false) = RRaise [[(1, FnNamed 11, 5); (1, FnNamed 30, 2)]].
Proof. exact refuted_D190. Qed.
Print Assumptions C18_attribution_refuted_D190.

(* whatever behaviour of the implementation the conformant Model reproduces (both the report and CPython's traceback)
   satisfies the Spec the correspondence applies *)
Theorem C18_model_implies_spec : forall c,
  wf_prog (ac_prog c) = true -> acase_model_ok acfg_off c = true -> acase_spec_ok c = true.
Proof. exact acase_model_implies_spec. Qed.
Print Assumptions C18_model_implies_spec.
End Attribution.

Module Containment.
Import Policy.Errors Policy.ErrorsCheck Proofs.PolicyErrors.

(* (2) Every entry kind, both subsystems, every user outcome (return, raise an Exception, raise any other
   BaseException), every history of occurrences starting with all triggers serving: every occurrence is served, logs
   exactly once on the script's logger iff the user code raised, lets nothing out ([history_ok]), and afterwards every
   trigger still serves.  Done-callback lists are occurrences too: every callback runs, each raising one is logged once.
   So are reloads of the script file ([OReload]) and runs that are suspended while their file is reloaded and end -
   return or raise - afterwards ([OLate]): the old run is still reported exactly once. *)
Theorem C18_contained : forall (sub : subsystem) (h : list occ) (m : alive_map),
  (forall e, m e = true) ->
  history_ok h (snd (run_history all_off sub m h)) = true /\ forall e, fst (run_history all_off sub m h) e = true.
Proof. exact history_contained. Qed.
Print Assumptions C18_contained.

Theorem C18_contained_instance : forall e, all_alive e = true.
Proof. exact all_alive_alive. Qed.
Print Assumptions C18_contained_instance.

(* one occurrence in detail: the wrapper ends with no pending exception, exactly one record on the script's logger iff
   the user code raised, the serving loop alive, nothing escaped *)
Theorem C18_contained_site : forall sub e o, run_site all_off sub e o = clean_result o.
Proof. exact site_contained. Qed.
Print Assumptions C18_contained_site.

(* all deviation switches on: the same for every exception that is an Exception, at every entry point except the
   default subsystem's trigger function (D180) *)
Theorem C18_contained_today : forall sub e o,
  o <> ORaise KBase -> (sub, e) <> (Dm, ETrigFunc) -> run_site as_is sub e o = clean_result o.
Proof. exact site_contained_today. Qed.
Print Assumptions C18_contained_today.

(* whatever the switches: an occurrence at one entry kind leaves the serving state of every other one untouched *)
Theorem C18_others_undisturbed : forall dv sub m oc e',
  (match oc with OUser e _ => e <> e' | OCallbacks _ => True | OReload => False | OLate _ _ => False end) ->
  fst (occ_step dv sub m oc) e' = m e'.
Proof. exact others_undisturbed. Qed.
Print Assumptions C18_others_undisturbed.

(* done-callbacks: all run, one record per raising callback, nothing escapes - for every list of outcomes *)
Theorem C18_callbacks_all_run : forall outs,
  run_callbacks all_off outs = mkCb (map (fun _ => true) outs) (map (fun _ => LScript) (filter raises outs)) SkNone.
Proof. exact callbacks_all_off. Qed.
Print Assumptions C18_callbacks_all_run.

(* (3) script load, every list of files with every outcome: a failing file is reported once and stays unloaded, every
   other file loads, nothing reaches Home Assistant *)
Theorem C18_load_isolated : forall files, load_ok files (load_scripts all_off files) = true.
Proof. exact load_isolated. Qed.
Print Assumptions C18_load_isolated.

Theorem C18_load_isolated_today : forall files,
  Forall (fun o => o <> ORaise KBase) files -> load_ok files (load_scripts as_is files) = true.
Proof. exact load_isolated_today. Qed.
Print Assumptions C18_load_isolated_today.

Theorem C18_load_isolated_today_instance : Forall (fun o => o <> ORaise KBase) [ORet; ORaise KExc; ORet].
Proof. exact today_instance. Qed.
Print Assumptions C18_load_isolated_today_instance.

(* each deviation switch on a witness, over [today_classes]: a fixed table of except classes (all Exception, none
   around the default subsystem's trigger call), so that these statements do not depend on the source; the theorems above
   use the table re-read from the source on every run *)
Theorem C18_contained_refuted_D181 :
  let h := [OUser EExprEvent (ORaise KBase); OUser EExprEvent ORet] in
  history_ok h (snd (run_history_c today_classes only_base Legacy all_alive h)) = false /\
  map ob_served (snd (run_history_c today_classes only_base Legacy all_alive h)) = [true; false].
Proof. exact refuted_D181. Qed.
Print Assumptions C18_contained_refuted_D181.

Theorem C18_contained_refuted_D181_service : forall sub, o_sink (run_site_c today_classes only_base sub EService (ORaise KBase)) = SkHA.
Proof. exact refuted_D181_service. Qed.
Print Assumptions C18_contained_refuted_D181_service.

Theorem C18_contained_refuted_D180 : o_logs (run_site_c today_classes only_nowrap Dm ETrigFunc (ORaise KExc)) = [LOther].
Proof. exact refuted_D180. Qed.
Print Assumptions C18_contained_refuted_D180.

Theorem C18_contained_refuted_D22 : cb_ran (run_callbacks_c today_classes only_break [ORaise KExc; ORet]) = [true; false].
Proof. exact refuted_D22. Qed.
Print Assumptions C18_contained_refuted_D22.

Theorem C18_load_refuted_D188 :
  l_sink (load_scripts_c today_classes only_base [ORet; ORaise KBase; ORet]) = SkHA /\
  l_loaded (load_scripts_c today_classes only_base [ORet; ORaise KBase; ORet]) = [true; false; false].
Proof. exact refuted_D188. Qed.
Print Assumptions C18_load_refuted_D188.

(* the source has the shape the attribution model mirrors (replace rule on filename and name, cause and context) *)
Theorem C18_formatter_shape : fmt_replace_on_filename = true /\ fmt_replace_on_name = true
  /\ fmt_chains_cause = true /\ fmt_chains_context = true.
Proof. exact InterpFrames.formatter_shape. Qed.
Print Assumptions C18_formatter_shape.
End Containment.
