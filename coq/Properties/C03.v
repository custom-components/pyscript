(* Properties/C03.v — property theorems only; every proof is [exact] of a lemma of Proofs/InterpBind.v,
   Proofs/InterpScope.v or Proofs/InterpClosure.v, or of an instance of one.  C03 is claimed as *partial*: argument binding
   and the static local/global/nonlocal analysis are proved about Gallina models tied to eval.py on every run; closures at
   run time are proved in part (core 3 below); classes, bound methods, decorators and @pyscript_compile are covered only
   by the differential stream "funcs" (search, no proof). *)
From Coq Require Import String.
From PV Require Import Common.Util Gen.BindConsts.
From PV Require Import Interp.Bind Interp.BindCheck Proofs.InterpBind.
From PV Require Import Interp.Scope Interp.ScopeCheck Proofs.InterpScope.
From PV Require Import Interp.Closure Interp.ClosureCheck Proofs.InterpClosure.
(* the *Check file is imported although no statement below names it: a check of this property builds the cone of this
   file only, and its correspondence streams load the *Check file, which must be rebuilt whenever Gen/ changes *)

(* Core 1 — argument binding.
   For every signature CPython accepts (distinct parameter names; any number of positional-only, normal and keyword-only
   parameters, any number of defaults, with or without *args / **kwargs) and every call (any number of positional and
   keyword arguments, any * and ** unpacking): EvalFunc.call with D11 and D30 repaired binds exactly what the Language
   Reference (§6.3.4, PEP 570) prescribes — same locals, or TypeError for TypeError — except that keyword arguments that
   name no parameter of a function without **kwargs and are spelled like one of pyscript's reserved trigger keywords
   (the set regenerated from eval.py on every run) are dropped first.  This is the property's only intended deviation. *)
Theorem C03_bind : forall cfg s items,
  Bind.all_off cfg -> sig_wf_b s = true ->
  call_ps cfg TRIGGER_KWARGS s items = call_spec TRIGGER_KWARGS s items.
Proof. exact (fun cfg s items Hc Hs => call_equiv cfg TRIGGER_KWARGS s items Hc (proj1 (sig_wf_b_wf s Hs))). Qed.
Print Assumptions C03_bind.

(* from the `def` statement: a parameter has a default iff a default expression is written, whatever it evaluates to
   (EvalFunc.eval_defaults derives the keyword-only flag from the AST node, never from the value) *)
Theorem C03_bind_def : forall cfg f items,
  Bind.all_off cfg -> sig_wf_b (py_sig_of_def f) = true ->
  call_ps cfg TRIGGER_KWARGS (ps_sig_of_def f) items = call_spec TRIGGER_KWARGS (py_sig_of_def f) items.
Proof. exact (fun cfg f items Hc Hs => call_equiv_def cfg TRIGGER_KWARGS f items Hc (proj1 (sig_wf_b_wf _ Hs))). Qed.
Print Assumptions C03_bind_def.

(* the same after unpacking: positional values [args] and a keyword dictionary [kw] (distinct keys) *)
Theorem C03_bind_unpacked : forall cfg s args kw,
  Bind.all_off cfg -> sig_wf s -> NoDup (keys kw) ->
  bind_ps cfg TRIGGER_KWARGS s args kw = bind_py s args (drop_trigger_kwargs TRIGGER_KWARGS s kw).
Proof. exact (fun cfg s args kw Hc Hs => bind_equiv cfg TRIGGER_KWARGS s args kw Hc (proj1 Hs)). Qed.
Print Assumptions C03_bind_unpacked.

(* with D11 on: def g(a=0, /, **kw); g(a=1) raises TypeError *)
Theorem C03_refuted_D11 : exists trig s items,
  sig_wf_b s = true /\ call_ps only_D11 trig s items <> call_spec trig s items.
Proof. exact bind_refuted_D11. Qed.
Print Assumptions C03_refuted_D11.

(* with D30 on: f(a=1, **{'a': 2}) binds a=2 instead of raising TypeError *)
Theorem C03_refuted_D30 : exists trig s items,
  sig_wf_b s = true /\ call_ps only_D30 trig s items <> call_spec trig s items.
Proof. exact bind_refuted_D30. Qed.
Print Assumptions C03_refuted_D30.

(* whatever the conformant Model reproduces of the implementation satisfies the Spec the correspondence evaluates *)
Theorem C03_bind_model_implies_spec : forall c, bcase_model_ok Bind.dev_off c = true -> bcase_spec_ok c = true.
Proof. exact bcase_model_implies_spec. Qed.
Print Assumptions C03_bind_model_implies_spec.

(* Core 2 — static scope analysis.
   For every function body (a list of `ast` statement trees of any size and nesting depth, [wf_top]: shaped as
   ast.parse shapes them) built from the binder forms both sides implement ([supported]: everything except match,
   except*, type statements, list-display targets and `del (a, b)`), with D12, D31-D34 repaired: get_names_set +
   resolve_nonlocals classify a name as local exactly when CPython's symbol table does (parameter or bound by
   assignment, augmented/annotated assignment, for, with, import, def/class, except-as, del, or := anywhere outside a
   nested scope — and not declared global or nonlocal). *)
Theorem C03_locals : forall cfg params body x,
  s_all_off cfg -> forallb wf_top body = true -> forallb supported body = true ->
  ps_is_local cfg params body x = py_is_local params body x.
Proof. exact locals_equiv. Qed.
Print Assumptions C03_locals.

(* with any single switch on the statement fails: one witness per missing/extra binder *)
Theorem C03_locals_refuted_D12 : refutes (sw true false false false false).      (* x: int = 1 *)
Proof. exact locals_refuted_D12. Qed.
Print Assumptions C03_locals_refuted_D12.
Theorem C03_locals_refuted_D31 : refutes (sw false true false false false).      (* q = [x for x in it] *)
Proof. exact locals_refuted_D31. Qed.
Print Assumptions C03_locals_refuted_D31.
Theorem C03_locals_refuted_D32 : refutes (sw false false true false false).      (* import x *)
Proof. exact locals_refuted_D32. Qed.
Print Assumptions C03_locals_refuted_D32.
Theorem C03_locals_refuted_D33 : refutes (sw false false false true false).      (* q = lambda: (x := 1) *)
Proof. exact locals_refuted_D33. Qed.
Print Assumptions C03_locals_refuted_D33.
Theorem C03_locals_refuted_D34 : refutes (sw false false false false true).      (* def q(a=(x := 1)): ... *)
Proof. exact locals_refuted_D34. Qed.
Print Assumptions C03_locals_refuted_D34.

Theorem C03_scope_model_implies_spec : forall c,
  scase_model_ok sdev_off c = true -> sc_same c = true -> scase_spec_ok c = true.
Proof. exact scase_model_implies_spec. Qed.
Print Assumptions C03_scope_model_implies_spec.

(* Core 3 — closures at run time (partial).
   Mini language of nested definitions (Interp/Closure.v): assignments, reads, +, tr(), conditional expressions, calls
   (also of the builtins abs/max/min: the fourth scope of LEGB), return, def with global/nonlocal header, and compound
   statements whose body runs once in place (if / while / for / try-finally / except handler / try-else), through which the
   static pre-pass (get_names_set, check_for_closure) has to look.  One evaluator skeleton, two scoping policies: pyscript's layout
   (resolve_nonlocals searching the run-time symbol-table stack for EvalLocalVar cells at `def` time, EvalFunc.call sharing
   captured cells and creating own cells at call time, ast_name / recurse_assign lookup order) against flat lexical closures
   with static name classification.

   FULL STATEMENT (not proved): for every program of the fragment — declarations first, every variable assigned before
   the first nested def of its function, names of module globals never used as function locals, nonlocal names bound in the
   immediately enclosing function or mentioned by it, no enclosing variable named like a parameter of a nested function —
   and all fuel: the same trace of tracer calls, the same result / exception class, the same final globals as Python.
   PROVED: the same conclusion for every program (no syntactic restriction) and all fuel whose *strict* pyscript run does not
   stop with an anomaly; the strict run stops exactly at the events where the layouts part: a cell found only further up
   the call stack (D300), a captured cell still unassigned when the inner function is called (D301), var_names differing
   from the free variables on a visible name (D38b, and the harmless extra capture of a variable named like a nested
   function's parameter), a name declared global that only the builtins define (D302), an unassigned plain local named like a builtin (D303), the two static analyses or internal consistency checks failing (never observed).
   MISSING for the full statement: (1) that the syntactic fragment implies "no anomaly" (a store invariant: every cell
   reachable from a closure is assigned when the closure is called); (2) that the strict run equals the loose run, which
   is what mirrors the code when no event occurs; (3) an equivalence up to unused captured cells.  (2) is evaluated on
   every generated case by the correspondence (stream closure), (1) holds on all generated fragment programs.  The
   evaluation skeleton (order of evaluation, call protocol) is shared by both sides here; it is C01's subject. *)
Theorem C03_closure_equiv_partial : forall cfg fuel prog,
  (forall k, ps_run cfg true false fuel prog <> Anomaly k) ->
  py_run fuel prog = ps_run cfg true false fuel prog.
Proof. exact closure_equiv. Qed.
Print Assumptions C03_closure_equiv_partial.

Theorem C03_closure_observed_partial : forall cfg fuel prog,
  (forall k, ps_run cfg true false fuel prog <> Anomaly k) ->
  observe (py_run fuel prog) = observe (ps_run cfg true false fuel prog).
Proof. exact closure_equiv_observed. Qed.
Print Assumptions C03_closure_observed_partial.

(* the static pass both policies start from is the one of C03_locals *)
Theorem C03_closure_locals_bridge : forall cfg d,
  s_all_off cfg -> forallb wf_top (nodes_of d) = true -> forallb supported (nodes_of d) = true ->
  ps_locals_list cfg d = py_locals_list d.
Proof. exact locals_bridge. Qed.
Print Assumptions C03_closure_locals_bridge.

(* today's code parts from Python at exactly those events (loose run vs reference; witnesses replayed on the real code) *)
Theorem C03_closure_refuted_D300 :
  observe (ps_run sdev_off false false 50 prog_D300) <> observe (py_run 50 prog_D300) /\ ps_run sdev_off true false 50 prog_D300 = Anomaly 1.
Proof. exact closure_refuted_D300. Qed.
Print Assumptions C03_closure_refuted_D300.
Theorem C03_closure_refuted_D301 :
  observe (ps_run sdev_off false false 50 prog_D301) <> observe (py_run 50 prog_D301) /\ ps_run sdev_off true false 50 prog_D301 = Anomaly 2.
Proof. exact closure_refuted_D301. Qed.
Print Assumptions C03_closure_refuted_D301.

Theorem C03_closure_refuted_D302 :
  observe (ps_run sdev_off false false 50 prog_D302) <> observe (py_run 50 prog_D302) /\ ps_run sdev_off true false 50 prog_D302 = Anomaly 4.
Proof. exact closure_refuted_D302. Qed.
Print Assumptions C03_closure_refuted_D302.

Theorem C03_closure_refuted_D303 :
  observe (ps_run sdev_off false false 50 prog_D303) <> observe (py_run 50 prog_D303) /\ ps_run sdev_off true false 50 prog_D303 = Anomaly 5.
Proof. exact closure_refuted_D303. Qed.
Print Assumptions C03_closure_refuted_D303.

(* NOT modelled: defaults/decorators evaluated once, user decorators, classes and bound methods, native compilation
   (@pyscript_compile, lambda), calls across files: stream "funcs" compares the real AstEval with CPython on generated
   programs (search only); it refutes "like Python" there already: findings D13, D35-D39 (notes/C03.md). *)
