(* Properties/C09.v — property theorems only; every proof is [exact] of a lemma of Proofs/LifeLedger*.v or of an
   instance or a conjunction of such lemmas.
   C09: triggers live exactly as long as their function and leave nothing behind.
   Model: Life/Ledger.v (resource ledger + life-cycle operations); [all_off cfg] = the conformant code (every
   deviation switch off); each deviation switch is refuted below on a witness. *)
From PV Require Import Common.Util Gen.LedgerConsts Life.Ledger Life.LedgerCheck.
(* the *Check file is imported although no statement below names it: a check of this property builds the cone of this
   file only, and its correspondence streams load the *Check file, which must be rebuilt whenever Gen/ changes *)
From PV Require Import Proofs.LifeLedger Proofs.LifeLedgerSys Proofs.LifeLedgerDoes Proofs.LifeLedgerRuns Proofs.LifeLedgerOnce.
Local Open Scope N_scope.

(* Scope (the seeded changes C09-1 and C09-3 lie in it): a service name may be declared by several functions and
   contexts (reference count, refusal of a registration from another context, handler reached by a call), and
   DecoratorManager.start of the new subsystem is NOT atomic: it starts the decorators in front of @service, registers
   the service, is suspended in `await State.get_service_params()` ([w_starting]) and continues with [OResume] - every
   operation (stop, reload, unload, occurrences) may come in between.  All theorems below quantify over these
   interleavings. *)

(* "Deactivation releases every subscription, bus listener, timer and service registration it created":
   for every ledger, every trigger (any set of watched names, in ANY iteration order - the order is the list order of
   [u_state]), starting it (task creation + subscription prologue) and stopping it (TrigInfo.stop + the reaper's cancel
   step / Decorator.stop) gives back the very same ledger.  Hypotheses: the trigger's queue/task/listener objects are
   new (their id occurs nowhere in the ledger) and the ledger is well formed (the shared legacy bus listener of an event
   type exists iff Event.notify has a queue for it; nothing is waiting for the reaper). *)
Theorem C09_stop_start_inverse : forall cfg, all_off cfg -> forall (L : ledger) (u : unit_),
  id_fresh (u_id u) L ->
  (ledger_wf L -> leg_cycle cfg u L = L) /\ dec_cycle cfg u L = L.
Proof. exact cycle_inverse. Qed.
Print Assumptions C09_stop_start_inverse.

(* the hypotheses are inhabited by a non-trivial ledger, and on it start really changes the ledger *)
Theorem C09_stop_start_inverse_example :
  (id_fresh 5 ex_ledger /\ ledger_wf ex_ledger) /\
  leg_cycle cfg_off (w_unit [w_ab; w_ab_old; w_cd]) ex_ledger = ex_ledger /\
  fst (leg_prologue (w_unit [w_ab; w_ab_old; w_cd]) (leg_start (w_unit [w_ab; w_ab_old; w_cd]) ex_ledger)) <> ex_ledger.
Proof. exact (conj ex_inverse_hyps ex_inverse_instance). Qed.
Print Assumptions C09_stop_start_inverse_example.

(* "after everything is unloaded Home Assistant is back to its baseline": for EVERY sequence of operations (define /
   last reference dropped / context start, stop, delete / scheduler steps / occurrences / unload) from the initial world,
   unloading everything leaves the empty ledger. *)
Theorem C09_unload_baseline : forall cfg, all_off cfg -> forall ops : list op,
  w_led (unload cfg (run_ops cfg ops world0)) = ledger0.
Proof. exact (fun cfg AO ops => unload_empty cfg _ (all_off_leak_free cfg AO) (run_ops_inv cfg ops world0 (all_off_leak_free cfg AO) Inv0)). Qed.
Print Assumptions C09_unload_baseline.

(* "after which no occurrence runs the old function": in every reachable world, once generation g is stopped (not in
   the active set) and the reaper has processed its tasks ([Dead]), no later operation sequence - occurrences of any
   kind, definitions, reloads, unload - appends a run of g to the log. *)
Theorem C09_no_run_after_stop : forall cfg, all_off cfg -> forall (ops0 ops : list op) (g : N),
  let W := run_ops cfg ops0 world0 in
  Dead g W ->
  exists rs, w_log (run_ops cfg ops W) = w_log W ++ rs /\ forall r, In r rs -> r_gen r <> g.
Proof.
  exact (fun cfg AO ops0 ops g => no_run_after_stop cfg (all_off_leak_free cfg AO) (all_off_d21 cfg AO) ops _ g
                                  (run_ops_inv cfg ops0 world0 (all_off_leak_free cfg AO) Inv0)).
Qed.
Print Assumptions C09_no_run_after_stop.

(* [Dead] is reached by "stop, then let the event loop settle", and is inhabited by a reachable world in which the dead
   generation did run before and another generation still runs afterwards *)
Theorem C09_dead_after_settle : forall (W : world) (g : N), ~ In g (w_active W) -> g < w_next W -> Dead g (settle W).
Proof. exact dead_after_settle. Qed.
Print Assumptions C09_dead_after_settle.
Theorem C09_no_run_after_stop_example : Dead 1 (run_ops cfg_off ex_ops0 world0) /\
  map r_gen (w_log (run_ops cfg_off (ex_ops0 ++ [OState 1; OEvent 1]) world0)) = [1; 3; 1; 3; 1; 3; 3].
Proof. exact ex_dead. Qed.
Print Assumptions C09_no_run_after_stop_example.

(* "startup/shutdown time triggers have run exactly once per definition/removal": in every reachable world, for every
   trigger unit: at most one startup run and at most one shutdown run are in the log; a started unit with the startup
   flag (and no dispatch fault) has exactly one startup run; no shutdown run while its function is active; a stopped
   legacy trigger with the shutdown flag has exactly one. *)
Theorem C09_startup_shutdown_once : forall cfg, all_off cfg -> forall (ops : list op),
  let W := run_ops cfg ops world0 in
  forall f u, In f (w_funcs W) -> In u (f_units f) ->
    (count_run RStartup (u_id u) (w_log W) <= 1)%nat /\ (count_run RShutdown (u_id u) (w_log W) <= 1)%nat /\
    (In (u_id u) (w_running W) -> u_startup u = true -> u_crash u = false -> count_run RStartup (u_id u) (w_log W) = 1%nat) /\
    (In (f_gen f) (w_active W) -> count_run RShutdown (u_id u) (w_log W) = 0%nat) /\
    (f_new f = false -> ~ In (f_gen f) (w_active W) -> u_shutdown u = true -> count_run RShutdown (u_id u) (w_log W) = 1%nat).
Proof. exact (fun cfg AO => startup_shutdown_once cfg world0 (all_off_leak_free cfg AO) (all_off_d21 cfg AO) Inv0 Once0). Qed.
Print Assumptions C09_startup_shutdown_once.

(* The deviations of the findings D16, D90, D91, D21, D92, D93, each on a witness with only its switch on, and the
   conformant model on the scenarios of seeded changes. *)
(* D16, the three-name witness {a.b, a.b.old, c.d}: with State.notify_del's early `return`, stop(start(L)) <> L when
   c.d is iterated last, for the legacy trigger and for the new @state_trigger decorator alike; for other iteration
   orders of the same set nothing leaks (hash-seed dependence). *)
Theorem C09_refuted_D16 :
  (leg_cycle cfg_only16 (w_unit [w_ab; w_ab_old; w_cd]) ledger0 <> ledger0 /\
   dec_cycle cfg_only16 (w_unit [w_ab; w_ab_old; w_cd]) ledger0 <> ledger0) /\
  (leg_cycle cfg_only16 (w_unit [w_cd; w_ab; w_ab_old]) ledger0 = ledger0 /\
   leg_cycle cfg_only16 (w_unit [w_ab; w_cd; w_ab_old]) ledger0 = ledger0) /\
  w_led (unload cfg_only16 (run_ops cfg_only16
     [OCtxAuto 0 false; ODefine 0 false (wit_spec [w_ab; w_ab_old; w_cd]); OCtxStart 0 []; OSettle; ODropped 1; OSettle] world0)) <> ledger0.
Proof. exact (conj refuted_D16_cycle (conj D16_order_dependent refuted_D16_baseline)). Qed.
Print Assumptions C09_refuted_D16.

(* D90 (new subsystem): a function redefined inside the cell/file that defined it is started anyway and runs *)
Theorem C09_refuted_D90 :
  existsb (fun r => N.eqb (r_gen r) 1 && N.eqb (rkind_code (r_kind r)) 0) (w_log (run_ops cfg_only90 ops_D90 world0)) = true /\
  existsb (fun r => N.eqb (r_gen r) 1 && N.eqb (rkind_code (r_kind r)) 0) (w_log (run_ops cfg_off ops_D90 world0)) = false.
Proof. exact refuted_D90. Qed.
Print Assumptions C09_refuted_D90.

(* D91 (legacy): a trigger stopped before its task ran subscribes afterwards; the entries survive even unload *)
Theorem C09_refuted_D91 :
  w_led (unload cfg_only91 (run_ops cfg_only91 ops_D91 world0)) <> ledger0 /\
  w_led (unload cfg_off (run_ops cfg_off ops_D91 world0)) = ledger0.
Proof. exact refuted_D91. Qed.
Print Assumptions C09_refuted_D91.

(* D21: a service name shared by two live functions of one context: after the newer one is dropped a call still runs it *)
Theorem C09_refuted_D21 :
  map r_gen (w_log (run_ops cfg_only21 ops_D21 world0)) = [2] /\ map r_gen (w_log (run_ops cfg_off ops_D21 world0)) = [1].
Proof. exact refuted_D21. Qed.
Print Assumptions C09_refuted_D21.

(* the conformant model on the scenarios of the seeded changes: (C09-1) a registration refused for another context
   leaves the owner's count untouched, so stopping the owner's context removes the service and nothing runs any more,
   in both subsystems; (C09-3) a context stopped while start() is suspended behind the service registration: for every
   position of @service among the triggers the ledger is empty afterwards and later occurrences run nothing *)
Theorem C09_examples_refused_and_overtaken :
  (forall newsys, let W := run_ops cfg_off (ops_refused newsys) world0 in
     w_led W = ledger0 /\ svc_count W 7 = 0%nat /\
     filter (fun r => N.eqb (rkind_code (r_kind r)) 5) (w_log W) = [{| r_gen := 1; r_kind := RService; r_unit := 1 |}]) /\
  map (fun pos => let W := run_ops cfg_off (ops_overtake pos) world0 in
                  (ledger_eqb_empty (w_led W), map (fun r => rkind_code (r_kind r)) (w_log W))) [0%nat; 1%nat; 2%nat; 3%nat] =
  [(true, []); (true, []); (true, [1]); (true, [3; 1; 4])].
Proof. exact (conj ex_refused ex_overtake). Qed.
Print Assumptions C09_examples_refused_and_overtaken.

(* D92: a module imported inside a Jupyter cell is loaded with auto_start off and nobody starts its context: its
   functions run for nothing until the next pyscript.reload (both subsystems) *)
Theorem C09_refuted_D92 : forall newsys,
  map r_gen (w_log (run_ops cfg_only92 (ops_D92 newsys) world0)) = [] /\
  map r_gen (w_log (run_ops cfg_off (ops_D92 newsys) world0)) = [1; 1; 1].
Proof. exact refuted_D92. Qed.
Print Assumptions C09_refuted_D92.

(* D93 (new subsystem): a function defined in a started context whose startup dispatch raises is never finalised (the
   exception kept by the eagerly started, finished task pins the frames of its definition): dropping it stops nothing *)
Theorem C09_refuted_D93 :
  l_state (w_led (run_ops cfg_only93 ops_D93 world0)) = [(1, 2)] /\ w_led (run_ops cfg_off ops_D93 world0) = ledger0.
Proof. exact refuted_D93. Qed.
Print Assumptions C09_refuted_D93.

(* fault point "every dispatch of the function raises" (e.g. @time_active with an impossible date): the watchers die
   at the first occurrence, the function never runs through a trigger, stopping the context leaves the empty ledger *)
Theorem C09_example_dispatch_fault : forall newsys, let W := run_ops cfg_off (ops_crash newsys) world0 in
  w_led W = ledger0 /\ map (fun r => rkind_code (r_kind r)) (w_log W) = (if newsys then [5] else [5; 4]).
Proof. exact ex_crash. Qed.
Print Assumptions C09_example_dispatch_fault.
