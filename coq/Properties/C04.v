(* Properties/C04.v — property theorems only; every proof is [exact] of a lemma of Proofs/TrigStateTrig.v or of an instance
   of one.

   C04: "Once a @state_trigger function has been started, for every later sequence of entity value and attribute changes
   the function is run once for each change of a watched variable or attribute at which the trigger expression - evaluated
   on that event's values, with NAME.old bound to the changed variable's previous value and undefined variables or
   attributes read as None - is truthy, or which matches an any-change form, and for no other event.  Runs of a function
   start in event order, none is lost or duplicated even in rapid bursts, and each receives trigger_type, var_name, value
   and old_value of its own event, overridden by the decorator's kwargs."

   Model: Trig/Notify.v (State.notify / notify_var_last / State.update / notify_var_get, state_changed) and Trig/StateTrig.v
   (argument classification, ident_any_values_changed, ident_values_changed, expression evaluation with pyscript's name
   resolution, the trigger loop of both subsystems, kwargs merge, run order after a burst).  [sdev_off] = all deviation
   switches off (conformant code); [sdev_code] = every switch on (D40-D44). *)
From Coq Require Import NArith List Sorted.
From PV Require Import Common.Util Gen.StateTrigConsts Trig.Notify Trig.StateTrig Trig.StateTrigCheck Proofs.TrigStateTrig.
Import ListNotations.

(* First sentence.  For every script (list of decorators [s_trigs s], any argument forms, watch=, kwargs=, several decorators
   per function), under the legacy and the default subsystem ([s_legacy s] arbitrary), every initial hass.states [h0] and every
   history [hist] of bursts of create / change / attribute-only / re-set / delete writes: the runs caused by decorator [T] are
   exactly one run per event that qualifies ([spec_trig_runs]: any-change form matches, or watched change with truthy
   expression), in event order, with that event's kwargs. *)
Theorem C04_runs : forall (s : sys) (T : trig) (h0 : hass) (hist : list (list op)),
  NoDup (map t_id (s_trigs s)) -> In T (s_trigs s) ->
  trig_runs sdev_off s (t_id T) h0 hist = spec_trig_runs T h0 hist.
Proof. exact trig_runs_spec. Qed.
Print Assumptions C04_runs.

(* The same for any setting of the deviation switches under which the decorator is not affected by them ([benign]: no watch=
   or D41/D44 off; D42 off or legacy or no "d.e.old" form) and D40 off or every burst has at most one write. *)
Theorem C04_runs_general : forall (cfg : sdev) (s : sys) (T : trig) (h0 : hass) (hist : list (list op)),
  NoDup (map t_id (s_trigs s)) -> In T (s_trigs s) -> benign cfg (s_legacy s) T ->
  (d_late_read cfg = false \/ settled hist) ->
  trig_runs cfg s (t_id T) h0 hist = spec_trig_runs T h0 hist.
Proof. exact trig_runs_general. Qed.
Print Assumptions C04_runs_general.

(* What holds with every switch on: decorators without watch= (and without a "d.e.old" any-change form) over histories
   settled one write at a time. *)
Theorem C04_runs_code_settled : forall (s : sys) (T : trig) (h0 : hass) (hist : list (list op)),
  NoDup (map t_id (s_trigs s)) -> In T (s_trigs s) ->
  t_watch T = None -> no_aold T -> settled hist ->
  trig_runs sdev_code s (t_id T) h0 hist = spec_trig_runs T h0 hist.
Proof. exact trig_runs_code_settled. Qed.
Print Assumptions C04_runs_code_settled.

(* Second sentence, order / no loss / no duplication: the event numbers of a decorator's runs are the qualifying events of
   the history, each once, strictly increasing - bursts included. *)
Theorem C04_no_loss_no_dup : forall (T : trig) (h0 : hass) (hist : list (list op)),
  map r_ev (spec_trig_runs T h0 hist)
  = map evid (filter (fun p => qualifies T (fst p) (snd p)) (hist_events h0 1 (concat hist))).
Proof. exact (fun T h0 hist => spec_part_ids T (hist_events h0 1 (concat hist))). Qed.
Print Assumptions C04_no_loss_no_dup.

Theorem C04_trig_order : forall (s : sys) (T : trig) (h0 : hass) (hist : list (list op)),
  NoDup (map t_id (s_trigs s)) -> In T (s_trigs s) ->
  StronglySorted N.lt (map r_ev (trig_runs sdev_off s (t_id T) h0 hist)).
Proof. exact trig_runs_sorted. Qed.
Print Assumptions C04_trig_order.

(* Runs of a function (all its decorators together): event by event in history order the runs of its qualifying decorators. *)
Theorem C04_fn_runs : forall (s : sys) (fn : N) (h0 : hass) (hist : list (list op)),
  fn_runs sdev_off s fn h0 hist = spec_fn_runs s fn h0 hist.
Proof. exact fn_runs_spec. Qed.
Print Assumptions C04_fn_runs.

Theorem C04_fn_order : forall (s : sys) (fn : N) (h0 : hass) (hist : list (list op)),
  StronglySorted N.le (map r_ev (fn_runs sdev_off s fn h0 hist)).
Proof. exact fn_runs_sorted. Qed.
Print Assumptions C04_fn_order.

(* Second sentence, kwargs: a run is the run of one qualifying event; its kwargs are the decorator's kwargs where given and
   otherwise trigger_type="state", var_name, value, old_value, context of that event. *)
Theorem C04_run_of_event : forall (s : sys) (T : trig) (h0 : hass) (hist : list (list op)) (r : run),
  NoDup (map t_id (s_trigs s)) -> In T (s_trigs s) ->
  In r (trig_runs sdev_off s (t_id T) h0 hist) ->
  exists ev S, In (ev, S) (hist_events h0 1 (concat hist)) /\ qualifies T ev S = true /\ r = mk_run T ev.
Proof. exact trig_runs_of_event. Qed.
Print Assumptions C04_run_of_event.

Theorem C04_kwargs : forall (T : trig) (ev : event) (k : N),
  assoc k (r_kw (mk_run T ev)) = match assoc k (t_kwargs T) with Some u => Some u | None => assoc k (std_kw ev) end.
Proof. exact (fun T ev => merge_kw_lookup (std_kw ev) (t_kwargs T)). Qed.
Print Assumptions C04_kwargs.

Theorem C04_event_kwargs : forall ev : event,
  assoc key_trigger_type (std_kw ev) = Some KTypeState
  /\ assoc key_var_name (std_kw ev) = Some (KEnt (ev_ent ev))
  /\ assoc key_value (std_kw ev) = Some (match ev_new ev with Some s => KSv s | None => KNone end)
  /\ assoc key_old_value (std_kw ev) = Some (match ev_old ev with Some s => KSv s | None => KNone end)
  /\ assoc key_context (std_kw ev) = Some (KCtx (ev_id ev)).
Proof. exact std_kw_values. Qed.
Print Assumptions C04_event_kwargs.

(* Each deviation alone violates the property, on the witness the check replays on the real code. *)
Theorem C04_refuted_D40 : exists s T h0 hist,
  NoDup (map t_id (s_trigs s)) /\ In T (s_trigs s) /\ trig_runs only_D40 s (t_id T) h0 hist <> spec_trig_runs T h0 hist.
Proof. exact (refutes_runs_unless only_D40 eq_refl). Qed.
Print Assumptions C04_refuted_D40.
Theorem C04_refuted_D41 : exists s T h0 hist,
  NoDup (map t_id (s_trigs s)) /\ In T (s_trigs s) /\ trig_runs only_D41 s (t_id T) h0 hist <> spec_trig_runs T h0 hist.
Proof. exact (refutes_runs_unless only_D41 eq_refl). Qed.
Print Assumptions C04_refuted_D41.
Theorem C04_refuted_D42 : exists s T h0 hist,
  NoDup (map t_id (s_trigs s)) /\ In T (s_trigs s) /\ trig_runs only_D42 s (t_id T) h0 hist <> spec_trig_runs T h0 hist.
Proof. exact (refutes_runs_unless only_D42 eq_refl). Qed.
Print Assumptions C04_refuted_D42.
Theorem C04_refuted_D43 : exists s fn h0 hist,
  NoDup (map t_id (s_trigs s)) /\ fn_runs only_D43 s fn h0 hist <> spec_fn_runs s fn h0 hist
  /\ ~ StronglySorted N.le (map r_ev (fn_runs only_D43 s fn h0 hist)).
Proof. exact (grouped_order_refutes only_D43 eq_refl). Qed.
Print Assumptions C04_refuted_D43.
Theorem C04_refuted_D44 : exists s T h0 hist,
  NoDup (map t_id (s_trigs s)) /\ In T (s_trigs s) /\ trig_runs only_D44 s (t_id T) h0 hist <> spec_trig_runs T h0 hist.
Proof. exact (refutes_runs_unless only_D44 eq_refl). Qed.
Print Assumptions C04_refuted_D44.

(* The check's two sides are tied by the theorems: on a well-formed case (distinct decorator numbers, no decorator overrides
   "context") an observation that the conformant Model reproduces passes the Spec side of the correspondence. *)
Theorem C04_model_implies_spec : forall c : scase,
  case_wf c -> scase_model_ok sdev_off c = true -> scase_spec_ok c = true.
Proof. exact scase_model_implies_spec. Qed.
Print Assumptions C04_model_implies_spec.
