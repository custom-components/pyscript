(* Shared by every model and proof file; stdlib only, no axioms.  Executable helpers of the models and of the generated
   correspondence files cases_k.v, then lemmas: tests that decide equality ([Section Eqb]), [filter], folds, [NoDup],
   association lists ([Section GetSet], [Section Alist]), lists of records found by a key field ([Section Keyed]). *)
From Coq Require Export List NArith ZArith Bool Lia.
From Coq Require Import Sorted.
Export ListNotations.

(* 0-based; lets Coq itself report which cases of cases_k.v disagree *)
Fixpoint filter_idx_from {A} (f : A -> bool) (i : nat) (l : list A) : list nat :=
  match l with
  | [] => []
  | x :: r => if f x then i :: filter_idx_from f (S i) r else filter_idx_from f (S i) r
  end.
Definition filter_idx {A} (f : A -> bool) (l : list A) : list nat := filter_idx_from f 0 l.

Lemma filter_idx_from_nil {A} (f : A -> bool) l :
  forall i, filter_idx_from f i l = [] <-> forallb (fun x => negb (f x)) l = true.
Proof.
  induction l as [|x r IH]; intros i; cbn; [tauto|].
  destruct (f x); cbn; [split; discriminate|apply IH].
Qed.

(* comparison operators as read from the source by the translator *)
Inductive cmpop := CmpLe | CmpLt | CmpGe | CmpGt | CmpEq | CmpNe.

(* the harness ships long frames as (value, count) runs *)
Definition rle_expand (r : list (N * N)) : list N :=
  concat (map (fun '(b, n) => N.iter n (cons b) []) r).

Fixpoint list_eqb {A} (eqb : A -> A -> bool) (a b : list A) : bool :=
  match a, b with
  | [], [] => true
  | x :: a', y :: b' => eqb x y && list_eqb eqb a' b'
  | _, _ => false
  end.

Definition bytes_eqb := list_eqb N.eqb.
Definition frames_eqb := list_eqb bytes_eqb.

Definition option_eqb {A} (eqb : A -> A -> bool) (a b : option A) : bool :=
  match a, b with
  | Some x, Some y => eqb x y
  | None, None => true
  | _, _ => false
  end.

Fixpoint fold_left_opt {S L} (step : S -> L -> option S) (ls : list L) (s : S) : option S :=
  match ls with
  | [] => Some s
  | l :: r => match step s l with Some s' => fold_left_opt step r s' | None => None end
  end.

Lemma list_eqb_eq {A} (eqb : A -> A -> bool) :
  (forall x y, eqb x y = true <-> x = y) ->
  forall a b, list_eqb eqb a b = true <-> a = b.
Proof.
  intros H a; induction a as [|x a IH]; intros [|y b]; cbn; try (split; (reflexivity || discriminate)).
  rewrite andb_true_iff, H, IH. split; [intros [-> ->]; reflexivity| intros E; inversion E; auto].
Qed.

Lemma bytes_eqb_eq a b : bytes_eqb a b = true <-> a = b.
Proof. apply list_eqb_eq. intros; apply N.eqb_eq. Qed.
Lemma frames_eqb_eq a b : frames_eqb a b = true <-> a = b.
Proof. apply list_eqb_eq. apply bytes_eqb_eq. Qed.

Lemma option_eqb_eq {A} (eqb : A -> A -> bool) : (forall x y, eqb x y = true <-> x = y) ->
  forall a b, option_eqb eqb a b = true <-> a = b.
Proof. intros E [x|] [y|]; cbn; rewrite ?E; split; congruence. Qed.

Lemma prod_eqb_eq {A B} (ea : A -> A -> bool) (eb : B -> B -> bool) :
  (forall x y, ea x y = true <-> x = y) -> (forall x y, eb x y = true <-> x = y) ->
  forall a b : A * B, ea (fst a) (fst b) && eb (snd a) (snd b) = true <-> a = b.
Proof.
  intros Ha Hb [a1 a2] [b1 b2]; cbn [fst snd]. rewrite andb_true_iff, Ha, Hb.
  split; [intros [-> ->]; reflexivity|intros [= -> ->]; auto].
Qed.

Section Eqb.
  Context {A : Type} (eqb : A -> A -> bool) (eqb_eq : forall x y, eqb x y = true <-> x = y).

  Lemma eqb_spec_of x y : reflect (x = y) (eqb x y).
  Proof. apply iff_reflect. symmetry. apply eqb_eq. Qed.
  Lemma eqb_refl_of x : eqb x x = true.
  Proof. apply eqb_eq. reflexivity. Qed.
  Lemma eqb_neq_of x y : eqb x y = false <-> x <> y.
  Proof. destruct (eqb_spec_of x y); split; congruence. Qed.
  Lemma eqb_sym_of x y : eqb x y = eqb y x.
  Proof. destruct (eqb_spec_of x y), (eqb_spec_of y x); congruence. Qed.
  Lemma eqb_flip_eq x y : eqb y x = true <-> x = y.
  Proof. rewrite eqb_eq. split; congruence. Qed.

  Lemma existsb_eqb_In x l : existsb (eqb x) l = true <-> In x l.
  Proof.
    rewrite existsb_exists. split; [intros (y & Hy & E); apply eqb_eq in E; subst; exact Hy|].
    intros H. exists x. split; [exact H|apply eqb_refl_of].
  Qed.
  Lemma existsb_eqb_notin x l : existsb (eqb x) l = false <-> ~ In x l.
  Proof. rewrite <- existsb_eqb_In. destruct (existsb (eqb x) l); split; congruence. Qed.

  (* Lists as sets: [if existsb (eqb a) l then l else l ++ [a]] is the models' add-if-absent, [filter (fun y => negb (eqb
     (key y) a))] their removal.  For a test written the other way round: [fun a b => eqb b a] and [eqb_flip_eq]. *)
  Lemma existsb_eqb_filter (p : A -> bool) x l : existsb (eqb x) (filter p l) = existsb (eqb x) l && p x.
  Proof. apply eq_iff_eq_true. rewrite andb_true_iff, !existsb_eqb_In, filter_In. reflexivity. Qed.

  Lemma In_add_eqb a x l : In x (if existsb (eqb a) l then l else l ++ [a]) <-> In x l \/ x = a.
  Proof.
    destruct (existsb (eqb a) l) eqn:E.
    - apply existsb_eqb_In in E. split; [auto|intros [H| ->]; assumption].
    - rewrite in_app_iff. cbn. intuition auto.
  Qed.

  Lemma In_remove_key {B} (key : B -> A) a x l : In x (filter (fun y => negb (eqb (key y) a)) l) <-> In x l /\ key x <> a.
  Proof. rewrite filter_In, negb_true_iff, eqb_neq_of. reflexivity. Qed.
End Eqb.

(* for a test that is only known to be sound *)
Lemma existsb_eqb_sound {A} (eqb : A -> A -> bool) : (forall x y, eqb x y = true -> x = y) ->
  forall x l, existsb (eqb x) l = true -> In x l.
Proof. intros S x l H. apply existsb_exists in H. destruct H as (y & Hy & E). apply S in E. subst. exact Hy. Qed.

(* the two cases of an induction on [l] under [exists x, In x l /\ _] *)
Lemma ex_In_nil {A} (P : A -> Prop) : (exists x, In x [] /\ P x) <-> False.
Proof. split; [intros (x & [] & _)|intros []]. Qed.
Lemma ex_In_cons {A} (P : A -> Prop) a l : (exists x, In x (a :: l) /\ P x) <-> P a \/ exists x, In x l /\ P x.
Proof.
  split.
  - intros (x & [<-|Hx] & H); [left; exact H|right; exists x; auto].
  - intros [H|(x & Hx & H)]; [exists a|exists x]; cbn; auto.
Qed.

Lemma filter_filter {A} (f g : A -> bool) l : filter f (filter g l) = filter (fun x => g x && f x) l.
Proof.
  induction l as [|x r IH]; cbn; [reflexivity|].
  destruct (g x); cbn; [destruct (f x); rewrite IH; reflexivity|exact IH].
Qed.

Lemma filter_all {A} (f : A -> bool) l : (forall x, In x l -> f x = true) -> filter f l = l.
Proof.
  induction l as [|a l IH]; intros H; cbn; [reflexivity|].
  rewrite (H a (or_introl eq_refl)). f_equal. apply IH. intros x Hx. apply H. right; exact Hx.
Qed.

Lemma filter_none {A} (f : A -> bool) l : (forall x, In x l -> f x = false) -> filter f l = [].
Proof.
  induction l as [|a l IH]; intros H; cbn; [reflexivity|].
  rewrite (H a (or_introl eq_refl)). apply IH. intros x Hx. apply H. right; exact Hx.
Qed.

Lemma sorted_map_filter {A} (f : A -> N) (g : A -> bool) l :
  StronglySorted N.lt (map f l) -> StronglySorted N.lt (map f (filter g l)).
Proof.
  induction l as [|a r IH]; cbn; intros H; [constructor|]. inversion H as [|? ? Hs Hf]; subst.
  destruct (g a); [|apply IH; exact Hs]. cbn [map]. constructor; [apply IH; exact Hs|].
  rewrite Forall_map, Forall_forall in *. intros x Hx. apply filter_In in Hx. apply Hf, Hx.
Qed.

Lemma NoDup_map_filter {A B} (f : A -> B) (p : A -> bool) l : NoDup (map f l) -> NoDup (map f (filter p l)).
Proof.
  induction l as [|x l IH]; cbn; [auto|]. intros H. inversion_clear H as [|? ? Hnot H'].
  destruct (p x); cbn; [|apply IH; exact H'].
  constructor; [|apply IH; exact H']. intros HI. apply Hnot. apply in_map_iff in HI. destruct HI as (y & E & HI).
  apply filter_In in HI. rewrite <- E. apply in_map, HI.
Qed.

Lemma NoDup_map_inj {A B} (f : A -> B) l x y : NoDup (map f l) -> In x l -> In y l -> f x = f y -> x = y.
Proof.
  induction l as [|a l IH]; intros Hnd Hx Hy E; [contradiction|].
  cbn in Hnd. inversion Hnd as [|? ? Hnot Hnd']; subst.
  destruct Hx as [->|Hx], Hy as [->|Hy]; auto; exfalso; apply Hnot; [rewrite E|rewrite <- E]; apply in_map; assumption.
Qed.

Lemma fold_left_inv {A B} (P : A -> Prop) (f : A -> B -> A) l :
  (forall a b, In b l -> P a -> P (f a b)) -> forall a, P a -> P (fold_left f l a).
Proof.
  induction l as [|b l IH]; intros Hf a Ha; cbn [fold_left]; [assumption|].
  apply IH; [intros a' b' Hb'; apply Hf; right; assumption|]. apply Hf; [left; reflexivity|assumption].
Qed.

Lemma fold_left_opt_inv {S L} (P : S -> Prop) (f : S -> L -> option S) :
  (forall s l s', P s -> f s l = Some s' -> P s') ->
  forall ls s s', P s -> fold_left_opt f ls s = Some s' -> P s'.
Proof.
  intros Step. induction ls as [|l ls IH]; intros s s' I H; cbn in H; [inversion H; subst; assumption|].
  destruct (f s l) as [s1|] eqn:E; [|discriminate]. eauto.
Qed.

Lemma fold_left_opt_app {S L} (f : S -> L -> option S) a : forall b s,
  fold_left_opt f (a ++ b) s = match fold_left_opt f a s with Some s' => fold_left_opt f b s' | None => None end.
Proof.
  induction a as [|x a IH]; intros b s; cbn; [reflexivity|]. destruct (f s x); [apply IH|reflexivity].
Qed.

(* Each model table has its own lookup and in-place set; any pair obeying the four equations below (they hold by
   computation) satisfies read-after-write. *)
Section GetSet.
  Context {K V R : Type} (eqb : K -> K -> bool) (eqb_eq : forall x y, eqb x y = true <-> x = y).
  Context (none : R) (some : V -> R) (get : K -> list (K * V) -> R) (set : K -> V -> list (K * V) -> list (K * V)).
  Hypothesis get_nil : forall k, get k [] = none.
  Hypothesis get_cons : forall k k' v r, get k ((k', v) :: r) = if eqb k k' then some v else get k r.
  Hypothesis set_nil : forall k v, set k v [] = [(k, v)].
  Hypothesis set_cons : forall k v k' v' r, set k v ((k', v') :: r) = if eqb k k' then (k', v) :: r else (k', v') :: set k v r.

  Lemma get_set_eqs k k' v l : get k' (set k v l) = if eqb k' k then some v else get k' l.
  Proof.
    induction l as [|[k0 v0] r IH]; [rewrite set_nil, get_cons, !get_nil; reflexivity|].
    rewrite set_cons, (get_cons k' k0 v0). destruct (eqb_spec_of eqb eqb_eq k k0) as [->|Hk]; rewrite get_cons; [destruct (eqb k' k0); reflexivity|].
    rewrite IH. destruct (eqb_spec_of eqb eqb_eq k' k0) as [->|]; [|reflexivity].
    rewrite (proj2 (eqb_neq_of eqb eqb_eq k0 k)) by congruence. reflexivity.
  Qed.
End GetSet.

(* Association lists, first binding wins.  A model's lookup fixpoint that is monomorphic, takes the key first and tests
   [eqb k k'] is convertible with [al_get eqb] (lemmas apply by [exact]); one testing [eqb k' k], with
   [al_get (fun a b => eqb b a)] ([eqb_flip_eq]).  One that binds its value type inside the [fix] or takes the list first is
   not: prove its equation by induction, or its four equations for [get_set_eqs]. *)
Section Alist.
  Context {K V : Type} (eqb : K -> K -> bool) (eqb_eq : forall x y, eqb x y = true <-> x = y).

  Fixpoint al_get (k : K) (l : list (K * V)) : option V :=
    match l with
    | [] => None
    | (k', v) :: r => if eqb k k' then Some v else al_get k r
    end.
  Fixpoint al_set (k : K) (v : V) (l : list (K * V)) : list (K * V) :=
    match l with
    | [] => [(k, v)]
    | (k', v') :: r => if eqb k k' then (k', v) :: r else (k', v') :: al_set k v r
    end.

  Lemma al_get_app k a b : al_get k (a ++ b) = match al_get k a with Some v => Some v | None => al_get k b end.
  Proof. induction a as [|[k' v] r IH]; cbn; [reflexivity|]. destruct (eqb k k'); [reflexivity|exact IH]. Qed.

  Lemma al_get_filter (g : K -> bool) k l :
    al_get k (filter (fun p => g (fst p)) l) = if g k then al_get k l else None.
  Proof.
    induction l as [|[k' v] r IH]; cbn [filter al_get fst]; [destruct (g k); reflexivity|].
    destruct (eqb_spec_of eqb eqb_eq k k') as [<-|Hne].
    - destruct (g k); [cbn [al_get]; rewrite (eqb_refl_of eqb eqb_eq); reflexivity|exact IH].
    - destruct (g k'); [cbn [al_get]; rewrite (proj2 (eqb_neq_of eqb eqb_eq k k') Hne)|]; exact IH.
  Qed.

  Lemma al_get_set k k' v l : al_get k' (al_set k v l) = if eqb k' k then Some v else al_get k' l.
  Proof. apply (get_set_eqs eqb eqb_eq None Some al_get al_set); reflexivity. Qed.

  Lemma al_get_map (f : K -> V -> V) k l :
    al_get k (map (fun p => (fst p, f (fst p) (snd p))) l) = option_map (f k) (al_get k l).
  Proof.
    induction l as [|[k' v] r IH]; cbn [map al_get fst snd]; [reflexivity|].
    destruct (eqb_spec_of eqb eqb_eq k k') as [->|_]; [reflexivity|exact IH].
  Qed.

  Lemma al_get_keys k l : existsb (eqb k) (map fst l) = match al_get k l with Some _ => true | None => false end.
  Proof. induction l as [|[k' v] r IH]; cbn; [reflexivity|]. destruct (eqb k k'); [reflexivity|exact IH]. Qed.

  Lemma al_get_In k v l : al_get k l = Some v -> In (k, v) l.
  Proof.
    induction l as [|[k0 v0] r IH]; cbn [al_get]; [discriminate|].
    destruct (eqb_spec_of eqb eqb_eq k k0) as [->|_]; [intros [= ->]; left; reflexivity|right; auto].
  Qed.

  Lemma al_get_None k l : al_get k l = None <-> ~ In k (map fst l).
  Proof.
    rewrite <- (existsb_eqb_In eqb eqb_eq), al_get_keys. destruct (al_get k l); split; congruence.
  Qed.

  Lemma al_In_get k v l : NoDup (map fst l) -> In (k, v) l -> al_get k l = Some v.
  Proof.
    induction l as [|[k0 v0] r IH]; cbn [al_get map fst]; intros ND Hin; [destruct Hin|].
    inversion ND as [|? ? Hn ND']; subst. destruct Hin as [[= -> ->]|Hin]; [rewrite (eqb_refl_of eqb eqb_eq); reflexivity|].
    destruct (eqb_spec_of eqb eqb_eq k k0) as [->|_]; [|exact (IH ND' Hin)].
    destruct Hn. exact (in_map fst _ _ Hin).
  Qed.

  Lemma al_set_keys k v l k' : In k' (map fst (al_set k v l)) -> k' = k \/ In k' (map fst l).
  Proof.
    induction l as [|[k0 v0] r IH]; cbn [al_set map fst In]; [intuition congruence|].
    destruct (eqb k k0); cbn [map fst In]; tauto.
  Qed.

  Lemma al_set_NoDup k v l : NoDup (map fst l) -> NoDup (map fst (al_set k v l)).
  Proof.
    induction l as [|[k0 v0] r IH]; cbn [al_set map fst]; intros ND; [constructor; [intros []|constructor]|].
    inversion ND as [|? ? Hn ND']; subst. destruct (eqb_spec_of eqb eqb_eq k k0) as [->|Hk]; cbn [map fst]; [exact ND|].
    constructor; [|exact (IH ND')]. intros H. apply al_set_keys in H as [H|H]; [congruence|contradiction].
  Qed.
End Alist.

Section Keyed.
  Context {A K : Type} (eqb : K -> K -> bool) (eqb_eq : forall x y, eqb x y = true <-> x = y) (key : A -> K).

  Lemma find_key_Some l n x : find (fun y => eqb (key y) n) l = Some x -> In x l /\ key x = n.
  Proof. intros H. apply find_some in H. rewrite eqb_eq in H. exact H. Qed.

  Lemma find_key_None l n : find (fun y => eqb (key y) n) l = None <-> ~ In n (map key l).
  Proof.
    induction l as [|y l IH]; cbn; [tauto|].
    destruct (eqb_spec_of eqb eqb_eq (key y) n); [split; [discriminate|tauto]|rewrite IH; tauto].
  Qed.

  Lemma existsb_key_In l n : existsb (fun y => eqb (key y) n) l = true <-> In n (map key l).
  Proof.
    rewrite existsb_exists, in_map_iff. split; intros (y & H1 & H2); exists y.
    - apply eqb_eq in H2. auto.
    - split; [exact H2|apply eqb_eq; exact H1].
  Qed.

  Lemma find_key_uniq l x : NoDup (map key l) -> In x l -> find (fun y => eqb (key y) (key x)) l = Some x.
  Proof.
    induction l as [|y l IH]; cbn; intros Hu Hx; [destruct Hx|]. inversion_clear Hu as [|? ? Hn Hu'].
    destruct Hx as [->|Hx]; [rewrite (eqb_refl_of eqb eqb_eq); reflexivity|].
    destruct (eqb_spec_of eqb eqb_eq (key y) (key x)) as [E|_]; [|apply IH; assumption].
    destruct Hn. rewrite E. apply in_map, Hx.
  Qed.

  Lemma filter_key_uniq l x : NoDup (map key l) -> In x l -> filter (fun y => eqb (key y) (key x)) l = [x].
  Proof.
    induction l as [|y r IH]; cbn [map filter]; intros Hnd Hin; [destruct Hin|].
    apply NoDup_cons_iff in Hnd. destruct Hnd as [Hy Hr]. destruct Hin as [->|Hin].
    - rewrite (eqb_refl_of eqb eqb_eq). f_equal. apply filter_none. intros z Hz. apply (eqb_neq_of eqb eqb_eq). intros E.
      apply Hy. rewrite <- E. apply in_map. exact Hz.
    - destruct (eqb_spec_of eqb eqb_eq (key y) (key x)) as [E|_]; [|apply IH; assumption].
      destruct Hy. rewrite E. apply in_map. exact Hin.
  Qed.
End Keyed.
