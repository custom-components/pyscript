(* The hub of the C10 proofs: one reload as a whole, then every step of every history.
   First, for every deviation setting, where each context of the new table comes from and which files are executed
   (instances of Section ExecInv of LifeUntouched); then the conformant reload against the sets of Life/ReloadPlanSpec.v. *)
From PV Require Import Common.Util Life.ReloadBase Gen.ReloadConsts Life.Modules Life.Reload Life.ReloadPlanSpec
  Proofs.LifeReloadBase Proofs.LifeClosure Proofs.LifePlan Proofs.LifeUntouched Proofs.LifeDiscover.

(* a module context entered by this reload: the tree's file at the path of a candidate that some import statement
   lists, under that candidate's name *)
Definition fresh_mod (dv : deviations) (t : tree) (born : N) (c : gctx) : Prop :=
  c_born c = born /\ c_cnt c = 0%N /\ c_ismod c = true /\ c_cfg c = None /\
  exists sn sr i cs cnd f, candidates dv sn sr i = Some cs /\ In cnd cs /\ tree_get t (cd_path cnd) = Some f /\
    c_name c = cd_name cnd /\ c_gen c = f_gen f /\ c_mtime c = f_mtime f /\ c_rel c = cd_rel cnd.

Definition origin (dv : deviations) (t : tree) (born : N) (old : state) (loads : list sfile) (c : gctx) : Prop :=
  In c old \/ fresh_mod dv t born c \/ exists s imps, In s loads /\ c = auto_ctx born s imps.

Definition all_Q (Q : gctx -> Prop) (st : state) : Prop := uniq_ctx st /\ forall c, In c st -> Q c.
Lemma all_Q_del Q st n : all_Q Q st -> all_Q Q (st_del st n).
Proof. intros [Hu Hq]. split; [apply uniq_st_del, Hu|]. intros c Hc. apply st_del_In in Hc. apply Hq, Hc. Qed.
Lemma all_Q_set Q st c : all_Q Q st -> Q c -> all_Q Q (st_set st c).
Proof.
  intros [Hu Hq] Hc. split; [apply uniq_st_set, Hu|]. intros x Hx. apply st_set_In in Hx.
  destruct Hx as [->|[Hx _]]; [exact Hc|apply Hq, Hx].
Qed.

Theorem reload_origin dv born st t k a : uniq_ctx st ->
  let pl := plan dv st (discover t k) a in
  let r := reload dv born st t k a in
  uniq_ctx (r_st r) /\
  forall c', In c' (r_st r) -> exists c, (c' = c \/ c' = set_started c) /\
     origin dv t born (delete_phase st (p_del pl)) (load_list (p_files pl)) c.
Proof.
  intros Hu pl r. set (Q := origin dv t born (delete_phase st (p_del pl)) (load_list (p_files pl))).
  destruct (reload_inv dv t born (fun st _ => all_Q Q st)) with (st := st) (k := k) (a := a) as (st1 & E & Hu1 & HQ).
  - (* mod_ok: the new context is a [fresh_mod] *)
    intros cnd f st0 ev (sn & sr & i & cs & Ec & Hin & _ & Hf) H0. split; [apply all_Q_del, H0|].
    intros started st2 ev2 imps H2. apply all_Q_set; [exact H2|]. right; left.
    repeat (split; [reflexivity|]). exists sn, sr, i, cs, cnd, f. cbn. repeat split; assumption.
  - (* delete phase *)
    split; [apply delete_phase_uniq, Hu|]. intros c Hc. left. exact Hc.
  - (* auto_ok *)
    intros s Hs st0 ev H0. split; [apply all_Q_del, H0|].
    intros st2 ev2 imps H2. apply all_Q_set; [exact H2|]. right; right. exists s, imps. auto.
  - (* start_global_contexts *)
    subst r. rewrite E. split; [apply start_phase_uniq, Hu1|].
    intros c' Hc'. apply start_phase_In in Hc'. destruct Hc' as (c & Hc & Ec). exists c. auto.
Qed.

(* "re-executes those of them that are auto-loaded": every auto-loaded file the plan forces has its load event, with
   its current source generation, among the events of the reload *)
Theorem reload_reexecutes dv born st t k a s :
  let pl := plan dv st (discover t k) a in
  p_ok pl = true -> In s (load_list (p_files pl)) -> In (sf_name s, sf_gen s) (r_ev (reload dv born st t k a)).
Proof.
  intros pl Hok Hs. unfold reload. fold pl. rewrite Hok. cbn [negb r_ev].
  (* loading [s] records the event, and once recorded an event stays *)
  apply in_split in Hs. destruct Hs as (l1 & l2 & ->). rewrite fold_left_app. cbn [fold_left].
  set (Inv := fun (_ : state) (ev : list event) => In (sf_name s, sf_gen s) ev).
  assert (Hmod : forall cnd f, mod_ok dv t born Inv cnd f).
  { intros cnd f st0 ev _ H. split; [apply in_or_app; auto|auto]. }
  apply (load_fold_inv dv t born Inv Hmod).
  - intros x _ st0 ev H. split; [apply in_or_app; auto|auto].
  - apply (load_one_inv dv t born Inv Hmod); [apply in_or_app; cbn; auto|auto].
Qed.

(* the converse: whatever a reload executes is an auto-loaded file the plan forces, or a file that some import
   statement can resolve to *)
Definition lazily_imported (dv : deviations) (t : tree) (e : event) : Prop :=
  exists sn sr i cs cnd f, candidates dv sn sr i = Some cs /\ In cnd cs /\ tree_get t (cd_path cnd) = Some f /\ e = (cd_name cnd, f_gen f).

Theorem reload_events_origin dv born st t k a e :
  In e (r_ev (reload dv born st t k a)) ->
  (exists s, In s (load_list (p_files (plan dv st (discover t k) a))) /\ e = (sf_name s, sf_gen s)) \/ lazily_imported dv t e.
Proof.
  set (L := load_list (p_files (plan dv st (discover t k) a))).
  set (E := fun e : event => (exists s, In s L /\ e = (sf_name s, sf_gen s)) \/ lazily_imported dv t e).
  destruct (reload_inv dv t born (fun _ ev => forall e, In e ev -> E e)) with (st := st) (k := k) (a := a) as (_ & _ & H).
  - (* mod_ok *)
    intros cnd f st0 ev (sn & sr & i & cs & Ec & Hin & _ & Hf) H. split; [|auto].
    intros x Hx. apply in_app_or in Hx. destruct Hx as [Hx|[<-|[]]]; [apply H, Hx|]. right. exists sn, sr, i, cs, cnd, f. auto.
  - intros x [].
  - (* auto_ok *)
    intros s Hs st0 ev H. split; [|auto].
    intros x Hx. apply in_app_or in Hx. destruct Hx as [Hx|[<-|[]]]; [apply H, Hx|]. left. exists s. auto.
  - apply H.
Qed.

Lemma plan_ok_unless_named dv st fs a : (forall n, a <> RName n) -> p_ok (plan dv st fs a) = true.
Proof.
  intros Ha. unfold plan. destruct (plan_changed dv (ctx_all st) fs a) as [ps1|] eqn:E.
  - destruct (plan_imports dv st (ctx_all st) ps1). reflexivity.
  - destruct a as [| |n]; [discriminate E|discriminate E|destruct (Ha n eq_refl)].
Qed.

Lemma plan_discover st t k a : uniq_ctx st -> acyclic st ->
  let fs := discover t k in let pl := plan all_off st fs a in
  p_ok pl = true -> plan_is fs (Discard st fs a) (Forced st fs a) {| ps_del := p_del pl; ps_files := p_files pl |}.
Proof.
  intros Hu Hac fs pl Hok. apply plan_normal; [exact Hac|apply discover_fresh|apply discover_uniq|apply ctx_all_uniq, Hu|exact Hok].
Qed.

(* whether or not the plan is carried out *)
Lemma plan_sound st t k a : uniq_ctx st -> acyclic st ->
  let fs := discover t k in let pl := plan all_off st fs a in
  (forall n, In n (p_del pl) -> Discard st fs a n) /\ (forall s', In s' (load_list (p_files pl)) -> Forced st fs a s').
Proof.
  intros Hu Hac fs pl. destruct (p_ok pl) eqn:Eok.
  - destruct (plan_discover st t k a Hu Hac Eok) as (b & Eb & Hb & Hd). cbn [ps_del ps_files] in Eb, Hd. split; [intros n; apply Hd|].
    intros s' Hs'. unfold pl, fs in Hs'. rewrite Eb in Hs'. apply load_list_flags in Hs'. destruct Hs' as (s & Hs & _ & Ebs & ->). apply (Hb s Hs), Ebs.
  - destruct (plan_not_ok _ _ _ _ Eok) as [Ed Ef]. fold pl in Ed, Ef. rewrite Ed, Ef. split; [intros n []|].
    intros s' Hs'. apply load_list_In in Hs'. destruct Hs' as (A & _ & C). rewrite (discover_fresh t k s' A) in C. discriminate.
Qed.

(* "leaves all other contexts untouched": [reload_untouched] with the plan's own sets replaced by the declarative ones *)
Theorem untouched_outside_Discard born st t k a c :
  uniq_ctx st -> acyclic st -> In c st -> in_ctx_roots (c_name c) = true ->
  (c_ismod c = true \/ safe_name all_off t (c_name c)) ->
  ~ Discard st (discover t k) a (c_name c) -> ~ Forced0 st (discover t k) a (c_name c) ->
  let st' := r_st (reload all_off born st t k a) in
  In c st' \/ In (set_started c) st'.
Proof.
  intros Hu Hac Hc Hr Hsafe Hnd Hnf. destruct (plan_sound st t k a Hu Hac) as [Hd HF].
  apply reload_untouched; try assumption.
  - intros H. apply Hnd, Hd, H.
  - intros HI. apply in_map_iff in HI. destruct HI as (s' & En & Hs'). rewrite <- En in Hnd, Hnf.
    destruct (Forced_loaded _ _ _ _ (HF s' Hs')) as [H|H]; [|tauto|tauto].
    rewrite En. apply loaded_of_In; assumption.
Qed.

(* [c] runs the current source of an existing file: it is unchanged with respect to the discovered file of its name
   (a survivor, or a re-executed auto-loaded file), or a module of this reload *)
Definition current_ctx (t : tree) (k : apps_config) (born : N) (c : gctx) : Prop :=
  (exists s, sf_find (discover t k) (c_name c) = Some s /\ changed all_off s c = false)
  \/ fresh_mod all_off t born c.

Lemma changed_started dv s c : changed dv s (set_started c) = changed dv s c.
Proof. reflexivity. Qed.

Lemma auto_ctx_unchanged b born s imps : changed all_off s (auto_ctx born (sf_set_force b s) imps) = false.
Proof.
  unfold changed. cbn [auto_ctx sf_set_force c_gen c_mtime c_cfg sf_gen sf_mtime sf_cfg]. rewrite !N.eqb_refl.
  unfold cfg_same. cbn [d_null_cfg all_off].
  assert (Ho : option_eqb N.eqb (sf_cfg s) (sf_cfg s) = true) by (destruct (sf_cfg s); cbn; [apply N.eqb_refl|reflexivity]).
  rewrite Ho. cbn [negb]. rewrite !andb_false_r. reflexivity.
Qed.

Lemma survivor_unchanged st t k a c : uniq_ctx st -> acyclic st -> (forall n, a <> RName n) ->
  In c (delete_phase st (p_del (plan all_off st (discover t k) a))) -> in_ctx_roots (c_name c) = true ->
  In c st /\ loaded st (c_name c) /\ ~ Discard st (discover t k) a (c_name c).
Proof.
  intros Hu Hac Ha Hold Hroot.
  destruct (plan_discover st t k a Hu Hac (plan_ok_unless_named _ _ _ _ Ha)) as (_ & _ & _ & Hd). cbn [ps_del] in Hd.
  apply delete_phase_In in Hold. destruct Hold as [Hc Hn].
  assert (Hl : loaded st (c_name c)) by (apply loaded_of_In; assumption).
  rewrite Hd in Hn. tauto.
Qed.

Theorem post_state_current born st t k a :
  uniq_ctx st -> acyclic st -> (forall n, a <> RName n) ->
  let st' := r_st (reload all_off born st t k a) in
  uniq_ctx st' /\ forall c', In c' st' -> exists c, (c' = c \/ c' = set_started c) /\
                                           (in_ctx_roots (c_name c) = true -> current_ctx t k born c).
Proof.
  intros Hu Hac Ha st'.
  destruct (reload_origin all_off born st t k a Hu) as [Hu' Horig]. split; [exact Hu'|].
  intros c' Hc'. destruct (Horig c' Hc') as (c & E & Ho). exists c. split; [exact E|]. intros Hroot.
  destruct Ho as [Hold|[Hm|Hauto]]; [left|right; exact Hm|left].
  - (* a survivor: not deleted, hence not Changed *)
    destruct (survivor_unchanged st t k a c Hu Hac Ha Hold Hroot) as (Hc & Hl & Hn).
    assert (Hnc : ~ Changed st (discover t k) a (c_name c)) by (intros H; apply Hn; left; left; exact H).
    destruct a as [| |n]; [| |exfalso; apply (Ha n); reflexivity]; unfold Changed in Hnc; [|tauto].
    destruct (sf_find (discover t k) (c_name c)) as [s|] eqn:Fs.
    + exists s. split; [reflexivity|]. destruct (changed all_off s c) eqn:Ec; [|reflexivity].
      exfalso. apply Hnc. split; [exact Hl|]. right. exists c, s.
      split; [apply ctx_all_In; split; assumption|]. split; [reflexivity|]. split; [reflexivity|exact Ec].
    + exfalso. apply Hnc. split; [exact Hl|]. left. unfold on_disk. intros H. apply sf_find_has in H. destruct H as (s & H). congruence.
  - (* a re-executed auto-loaded file *)
    destruct (plan_discover st t k a Hu Hac (plan_ok_unless_named _ _ _ _ Ha)) as (b & Eb & _). cbn [ps_files] in Eb.
    destruct Hauto as (s' & imps & Hs' & ->).
    rewrite Eb in Hs'. apply load_list_flags in Hs'. destruct Hs' as (s & Hs & _ & _ & ->). exists s.
    split; [apply (sf_find_uniq _ s); [apply discover_uniq|exact Hs]|apply auto_ctx_unchanged].
Qed.

Theorem star_discards_all born st t k c' :
  uniq_ctx st -> acyclic st ->
  In c' (r_st (reload all_off born st t k RAll)) ->
  exists c, (c' = c \/ c' = set_started c) /\ (in_ctx_roots (c_name c) = true -> c_born c = born).
Proof.
  intros Hu Hac Hc'.
  destruct (reload_origin all_off born st t k RAll Hu) as [_ Horig]. destruct (Horig c' Hc') as (c & E & Ho). exists c. split; [exact E|]. intros Hroot.
  destruct Ho as [Hold|[Hm|(s & imps & _ & ->)]]; [|apply Hm|reflexivity].
  destruct (survivor_unchanged st t k RAll c Hu Hac) as (_ & Hl & Hn); [discriminate|exact Hold|exact Hroot|].
  destruct Hn. left. left. exact Hl.
Qed.

(* an auto-loaded file the plan leaves unforced belongs to a loaded context outside the discard set: it is the root
   file of its package (widening would force it), so neither widened nor an importer nor changed nor new *)
Lemma autoload_cases st t k a s :
  uniq_ctx st -> acyclic st -> (forall n, a <> RName n) -> In s (discover t k) -> sf_auto s = true ->
  In (sf_set_force true s) (load_list (p_files (plan all_off st (discover t k) a)))
  \/ (exists c, In c st /\ c_name c = sf_name s /\ in_ctx_roots (c_name c) = true
        /\ ~ Discard st (discover t k) a (sf_name s) /\ ~ Forced0 st (discover t k) a (sf_name s)).
Proof.
  intros Hu Hac Ha Hs Hau. set (fs := discover t k) in *. set (n := sf_name s).
  destruct (plan_discover st t k a Hu Hac (plan_ok_unless_named _ _ _ _ Ha)) as (b & Eb & Hb & Hd). cbn [ps_files ps_del] in Eb, Hd. fold fs in Eb.
  destruct (b s) eqn:Ebs.
  - left. rewrite Eb. apply load_list_flags. eauto.
  - right. assert (HnF : ~ Forced st fs a s).
    { intros H. apply (Hb s Hs) in H. congruence. }
    assert (Hroot : InWidened st fs a n -> False).
    { intros HW. apply HnF. left. split; [exact HW|]. apply InWidened_iff in HW. destruct HW as [HW _].
      apply (auto_root_file t k s Hs Hau HW). }
    assert (HnF1 : ~ Forced1 st fs a n) by (intros H; apply HnF; right; split; [exact Hroot|exact H]).
    assert (HnF0 : ~ Forced0 st fs a n) by (intros H; apply HnF1; left; exact H).
    assert (Hdisk : sf_has fs n = true) by (apply sf_has_In; apply in_map; exact Hs).
    assert (Hfind : sf_find fs n = Some s) by (apply sf_find_uniq; [apply discover_uniq|exact Hs]).
    destruct (in_dec (list_eq_dec N.eq_dec) n (map c_name (ctx_all st))) as [Hl|Hnl].
    + pose proof Hl as Hc. apply in_map_iff in Hc. destruct Hc as (c & En & Hc). apply ctx_all_In in Hc. destruct Hc as [Hc Hr].
      exists c. split; [exact Hc|]. split; [exact En|]. split; [exact Hr|]. split; [|exact HnF0].
      intros [[Hch|Himp]|[HW _]]; [|apply HnF1; right; split; [exact Himp|exact Hdisk]|exact (Hroot HW)].
      apply HnF0, (Changed_Forced0 st fs a n Ha Hl Hdisk), Hch.
    + exfalso. apply HnF0. destruct a as [| |m]; [| |exfalso; apply (Ha m); reflexivity]; unfold Forced0.
      * exists s. split; [exact Hfind|]. right. split; [exact Hnl|exact Hau].
      * exact Hdisk.
Qed.

Theorem autoload_complete born st t k a s :
  uniq_ctx st -> acyclic st -> (forall n, a <> RName n) -> In s (discover t k) -> sf_auto s = true ->
  In (sf_name s, sf_gen s) (r_ev (reload all_off born st t k a))
  \/ (exists c, In c st /\ c_name c = sf_name s /\ in_ctx_roots (c_name c) = true
        /\ ~ Discard st (discover t k) a (sf_name s) /\ ~ Forced0 st (discover t k) a (sf_name s)).
Proof.
  intros Hu Hac Ha Hs Hau. destruct (autoload_cases st t k a s Hu Hac Ha Hs Hau) as [H|H]; [left|right; exact H].
  apply (reload_reexecutes all_off born st t k a (sf_set_force true s) (plan_ok_unless_named all_off st (discover t k) a Ha) H).
Qed.

(* [P] at every step of the run of the conformant model: the recursion of [run_from all_off] (Life/Reload.v) *)
Fixpoint hist_all (P : N -> state -> rstep -> rarg -> Prop) (born : N) (old : option N) (st : state) (steps : list rstep) : Prop :=
  match steps with
  | [] => True
  | s :: rest =>
      let a := eff_arg old s in       (* '*' when the global options changed since the previous reload *)
      P born st s a /\
      hist_all P (born + 1)%N (next_old born s) (ping (r_st (reload all_off born st (rs_tree s) (rs_cfg s) a))) rest
  end.

(* the table stays duplicate-free along a history, so a per-reload theorem about such tables holds at every step *)
Lemma hist_all_impl (P Q : N -> state -> rstep -> rarg -> Prop) :
  (forall born st s a, uniq_ctx st -> P born st s a -> Q born st s a) ->
  forall steps born old st, uniq_ctx st -> hist_all P born old st steps -> hist_all Q born old st steps.
Proof.
  intros HPQ. induction steps as [|s rest IH]; intros born old st Hu H; cbn [hist_all] in *; [exact I|].
  destruct H as [H Hrest]. split; [apply HPQ; assumption|].
  apply IH; [|exact Hrest]. apply ping_uniq. apply (reload_origin all_off born st (rs_tree s) (rs_cfg s) _ Hu).
Qed.

Definition step_thms (born : N) (st : state) (s : rstep) (a : rarg) : Prop :=
  let t := rs_tree s in let k := rs_cfg s in
  let fs := discover t k in
  let pl := plan all_off st fs a in
  let r := reload all_off born st t k a in
  uniq_ctx st
  /\ (p_ok pl = true -> p_fuel_ok pl = true /\ same_files fs (p_files pl)
        /\ (forall n, In n (p_del pl) <-> Discard st fs a n)
        /\ (forall s', In s' (load_list (p_files pl)) <-> In s' (p_files pl) /\ sf_auto s' = true /\ Forced st fs a s')
        /\ (forall s', In s' (load_list (p_files pl)) -> In (sf_name s', sf_gen s') (r_ev r)))
  /\ (forall c, In c st -> in_ctx_roots (c_name c) = true -> (c_ismod c = true \/ safe_name all_off t (c_name c)) ->
        ~ Discard st fs a (c_name c) -> ~ Forced0 st fs a (c_name c) -> In c (r_st r) \/ In (set_started c) (r_st r))
  /\ ((forall n, a <> RName n) -> forall c', In c' (r_st r) ->
        exists c, (c' = c \/ c' = set_started c) /\ (in_ctx_roots (c_name c) = true -> current_ctx t k born c)).

Theorem history_thms : forall steps born old st, uniq_ctx st ->
  hist_all (fun _ st _ _ => acyclic st) born old st steps -> hist_all step_thms born old st steps.
Proof.
  apply hist_all_impl. intros born st s a Hu Hac. unfold step_thms. split; [exact Hu|]. split; [|split].
  - intros Hok. destruct (plan_exact st (discover (rs_tree s) (rs_cfg s)) a Hac (discover_fresh _ _) (discover_uniq _ _) (ctx_all_uniq st Hu) Hok) as (H1 & H2 & H3 & H4).
    split; [exact H1|]. split; [exact H2|]. split; [exact H3|]. split.
    + intros s'. rewrite load_list_In. split; intros (A & B & C); (split; [exact A|split; [exact B|]]); apply (H4 s' A); exact C.
    + intros s' Hs'. apply reload_reexecutes; assumption.
  - intros c Hc Hr Hs Hd Hf. apply untouched_outside_Discard; assumption.
  - intros Ha c' Hc'. apply (post_state_current born st (rs_tree s) (rs_cfg s) a Hu Hac Ha). exact Hc'.
Qed.
