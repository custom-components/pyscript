(* The four deviation switches D100-D103, each violating the Spec on a concrete history
   (the witness is replayed on the code by the check) while the conformant Model satisfies it, alone and in every
   combination ([refuted_unless_off]); then [ex_*]: a concrete tree, table and history that inhabit the hypotheses of
   the C10 theorems. *)
From PV Require Import Common.Util Life.ReloadBase Gen.ReloadConsts Life.Modules Life.Reload Life.ReloadPlanSpec Life.ReloadSpec
  Life.ReloadCheck Proofs.LifeReloadBase Proofs.LifeClosure Proofs.LifePlan Proofs.LifeUntouched Proofs.LifeDiscover
  Proofs.LifeDiscoverDoc Proofs.LifeReloadThms.
From Coq Require Import Lia.

Definition only (k : nat) : deviations :=
  {| d_deleted_no_propagate := Nat.eqb k 100; d_sibling_rel_name := Nat.eqb k 101; d_null_cfg := Nat.eqb k 102;
     d_named_start := Nat.eqb k 103 |}.

Definition fl (g m : N) (imps : list imp) : file := {| f_gen := g; f_mtime := m; f_imps := imps |}.
Definition spec_of_model (dv : deviations) (steps : list rstep) : bool :=
  rcase_spec_ok {| rc_legacy := false; rc_steps := steps; rc_obs := model_obs dv {| rc_legacy := false; rc_steps := steps; rc_obs := [] |} |}.

(* D100: a.py imports modules/m.py; m.py is deleted; default reload *)
Definition w100 : list rstep :=
  [ {| rs_tree := [([3; 60], fl 2 2 []); ([10], fl 1 1 [ImpAbs [60]])]; rs_cfg := []; rs_arg := RNone; rs_opts := 0 |};
    {| rs_tree := [([10], fl 1 1 [ImpAbs [60]])]; rs_cfg := []; rs_arg := RNone; rs_opts := 0 |} ]%N.
(* D101: package m with siblings x -> y imported relatively; a no-change reload *)
Definition t101 : tree :=
  [([3; 60; 0], fl 2 2 [ImpRel [70]]); ([3; 60; 70], fl 3 3 [ImpRel [71]]); ([3; 60; 71], fl 4 4 []); ([10], fl 1 1 [ImpAbs [60]])]%N.
Definition w101 : list rstep :=
  [ {| rs_tree := t101; rs_cfg := []; rs_arg := RNone; rs_opts := 0 |}; {| rs_tree := t101; rs_cfg := []; rs_arg := RNone; rs_opts := 0 |} ].
(* D102: app package configured with a null entry, then the entry is removed *)
Definition w102 : list rstep :=
  [ {| rs_tree := [([1; 40; 0], fl 1 1 [])]; rs_cfg := [(40, 0)]; rs_arg := RNone; rs_opts := 0 |};
    {| rs_tree := [([1; 40; 0], fl 1 1 [])]; rs_cfg := []; rs_arg := RNone; rs_opts := 0 |} ]%N.
(* D103: reload of a module by name *)
Definition t103 : tree := [([3; 60], fl 2 2 []); ([10], fl 1 1 [ImpAbs [60]])]%N.
Definition w103 : list rstep :=
  [ {| rs_tree := t103; rs_cfg := []; rs_arg := RNone; rs_opts := 0 |}; {| rs_tree := t103; rs_cfg := []; rs_arg := RName [3; 60]%N; rs_opts := 0 |} ].

(* every switch matters whatever the others are set to: the history for the first one that is on violates the Spec
   under each setting of the later ones *)
Theorem refuted_unless_off dv : dv <> all_off ->
  exists steps, spec_of_model dv steps = false /\ spec_of_model all_off steps = true.
Proof.
  destruct dv as [a b c d]. intros Hon.
  destruct a. { exists w100. split; [destruct b, c, d|]; vm_compute; reflexivity. }
  destruct b. { exists w101. split; [destruct c, d|]; vm_compute; reflexivity. }
  destruct c. { exists w102. split; [destruct d|]; vm_compute; reflexivity. }
  destruct d; [|destruct Hon; reflexivity]. exists w103. split; vm_compute; reflexivity.
Qed.

Lemma refuted_D100 : exists steps, spec_of_model (only 100) steps = false /\ spec_of_model all_off steps = true.
Proof. apply refuted_unless_off. discriminate. Qed.
Lemma refuted_D101 : exists steps, spec_of_model (only 101) steps = false /\ spec_of_model all_off steps = true.
Proof. apply refuted_unless_off. discriminate. Qed.
Lemma refuted_D102 : exists steps, spec_of_model (only 102) steps = false /\ spec_of_model all_off steps = true.
Proof. apply refuted_unless_off. discriminate. Qed.
Lemma refuted_D103 : exists steps, spec_of_model (only 103) steps = false /\ spec_of_model all_off steps = true.
Proof. apply refuted_unless_off. discriminate. Qed.

(* an instance of the theorems' hypotheses: a diamond a -> m1, m2 -> m3, an app package with a sibling importing a
   module, a script in a sub-directory, a '#'-commented file *)
Definition ex_tree : tree :=
  [([1; 40; 0], fl 5 5 [ImpRel [50]]); ([1; 40; 50], fl 6 6 [ImpAbs [62]]);
   ([3; 60], fl 2 2 [ImpAbs [62]]); ([3; 61], fl 3 3 [ImpAbs [62]]); ([3; 62], fl 4 4 []);
   ([4; 30; 21], fl 7 7 []); ([10], fl 1 1 [ImpAbs [60]; ImpAbs [61]]); ([1011], fl 8 8 [])]%N.
Definition ex_cfg : apps_config := [(40, 1)]%N.
Definition ex_state : state := r_st (reload all_off 0 [] ex_tree ex_cfg RNone).

Definition rank_by_table (tbl : list (cname * nat)) (n : cname) : nat :=
  match find (fun kv => nl_eqb (fst kv) n) tbl with Some kv => snd kv | None => 0%nat end.
Definition ex_rank_tbl : list (cname * nat) :=
  [([2; 10]%N, 2%nat); ([3; 60]%N, 1%nat); ([3; 61]%N, 1%nat); ([3; 62]%N, 0%nat); ([1; 40]%N, 2%nat); ([1; 40; 50]%N, 1%nat); ([4; 30; 21]%N, 0%nat)].

Example ex_state_loaded :
  map c_name (sort_by c_name ex_state) =
  [[1; 40]; [1; 40; 50]; [2; 10]; [3; 60]; [3; 61]; [3; 62]; [4; 30; 21]]%N.
Proof. vm_compute. reflexivity. Qed.

Example ex_acyclic : acyclic ex_state.
Proof. apply (acyclic_rank _ (rank_by_table ex_rank_tbl)). vm_compute. reflexivity. Qed.

Example ex_uniq : uniq_ctx ex_state.
Proof. apply nodup_names_NoDup. vm_compute. reflexivity. Qed.

Example ex_tree_ok : tree_ok ex_tree.
Proof.
  split.
  - apply nodup_names_NoDup. vm_compute. reflexivity.
  - intros p f H Hi.
    assert (E : forallb (fun pf => negb (ends_slash_init (fst pf)) || (2 <? length (fst pf))%nat) ex_tree = true) by reflexivity.
    rewrite forallb_forall in E. specialize (E _ H). cbn [fst] in E. rewrite Hi in E. apply Nat.ltb_lt, E.
Qed.

(* file.x010: nothing an import statement could load *)
Example ex_safe : safe_name all_off ex_tree [2; 10]%N.
Proof.
  intros sn sr i cs cnd Hc Hin En. destruct i as [m|m]; cbn in Hc.
  - (* an absolute import names apps.* or modules.* *)
    inversion Hc; subst cs. unfold abs_cands in Hin. cbn in Hin.
    destruct (rel_under_apps sr); cbn in Hin;
      repeat (destruct Hin as [<-|Hin]; [cbn in En; discriminate|]); destruct Hin.
  - (* a relative import looks at file/x010[/__init__]: the tree has none *)
    destruct sr as [rp|]; [|discriminate]. inversion Hc; subst cs. cbn in Hin.
    destruct Hin as [<-|[<-|[]]]; cbn [cd_name cd_path] in En |- *.
    + rewrite app_assoc, En. reflexivity.
    + rewrite En. reflexivity.
Qed.

(* a two-step history (start-up, then modules/x062.py touched) whose intermediate tables are acyclic *)
Definition ex_tree2 : tree :=
  [([1; 40; 0], fl 5 5 [ImpRel [50]]); ([1; 40; 50], fl 6 6 [ImpAbs [62]]);
   ([3; 60], fl 2 2 [ImpAbs [62]]); ([3; 61], fl 3 3 [ImpAbs [62]]); ([3; 62], fl 4 9 []);
   ([4; 30; 21], fl 7 7 []); ([10], fl 1 1 [ImpAbs [60]; ImpAbs [61]]); ([1011], fl 8 8 [])]%N.
Definition ex_steps : list rstep :=
  [ {| rs_tree := ex_tree; rs_cfg := ex_cfg; rs_arg := RNone; rs_opts := 0 |}; {| rs_tree := ex_tree2; rs_cfg := ex_cfg; rs_arg := RNone; rs_opts := 0 |} ].

Example ex_history : hist_all (fun _ st _ _ => acyclic st) 0%N None [] ex_steps.
Proof.
  cbn [hist_all ex_steps]. split; [apply acyclic_nil|split; [|exact I]].
  apply (acyclic_rank _ (rank_by_table ex_rank_tbl)). vm_compute. reflexivity.
Qed.

(* the touch of the shared module re-executes exactly the diamond and the app that reaches it *)
Example ex_history_events :
  map r_ev (run all_off ex_steps) =
  [ [([1; 40], 5); ([1; 40; 50], 6); ([3; 62], 4); ([2; 10], 1); ([3; 60], 2); ([3; 61], 3); ([4; 30; 21], 7)];
    [([1; 40], 5); ([1; 40; 50], 6); ([3; 62], 4); ([2; 10], 1); ([3; 60], 2); ([3; 61], 3)] ]%N.
Proof. vm_compute. reflexivity. Qed.
