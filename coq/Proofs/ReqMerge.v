(* Highest-pin selection, order independence and ignored lines for the model of process_all_requirements (C20, first
   sentence).  Version order: any total preorder on valid strings.  The table is a fold over the requirements the lines make
   ([merge_lines_reqs]); selection and order independence both come from one invariant of that fold ([good_table]).  Before
   the section, about strings alone: [spec_line_parse], REQUIREMENTS_PATHS ([discover_counts]), [strip] is idempotent. *)
From PV Require Import Common.Util Gen.ReqConsts Req.Merge Req.Install Req.Spec.
From Coq Require Import Lia Permutation.

Lemma str_eqb_eq a b : str_eqb a b = true <-> a = b.
Proof. exact (bytes_eqb_eq a b). Qed.
Lemma str_eqb_spec a b : reflect (a = b) (str_eqb a b).
Proof. exact (eqb_spec_of _ str_eqb_eq a b). Qed.
Lemma str_eqb_refl a : str_eqb a a = true.
Proof. exact (eqb_refl_of _ str_eqb_eq a). Qed.
Lemma str_eqb_neq a b : a <> b -> str_eqb a b = false.
Proof. exact (proj2 (eqb_neq_of _ str_eqb_eq a b)). Qed.
Lemma str_eqb_sym a b : str_eqb a b = str_eqb b a.
Proof. exact (eqb_sym_of _ str_eqb_eq a b). Qed.

Definition str_dec : forall a b : str, {a = b} + {a <> b} := list_eq_dec N.eq_dec.

(* [tlookup]/[tset] (Req/Merge.v) and [alookup]/[aset] (Req/Install.v) are [al_get str_eqb]/[al_set str_eqb] up to
   conversion, so the lemmas of Util's Section Alist apply to them as they stand; restated under the lookup's own name are
   the equations the proofs rewrite with *)
Lemma tlookup_tset k k' e t : tlookup k' (tset k e t) = if str_eqb k' k then Some e else tlookup k' t.
Proof. exact (al_get_set _ str_eqb_eq k k' e t). Qed.
Lemma tlookup_notin k t : ~ In k (map fst t) -> tlookup k t = None.
Proof. exact (proj2 (al_get_None _ str_eqb_eq k t)). Qed.

Lemma reject_chars_spec s :
  existsb (fun c => contains c s) req_reject_chars = contains 44 s || contains 60 s || contains 62 s.
Proof. cbn [req_reject_chars existsb]. destruct (contains 44 s), (contains 60 s), (contains 62 s); reflexivity. Qed.

(* the property reads a line exactly as the conformant model (both sides of "==" stripped) does *)
Lemma spec_line_parse l : spec_line l = match parse_line true l with PReq n v => Some (n, v) | _ => None end.
Proof.
  unfold spec_line, parse_line. change req_comment_char with 35%N. change req_sep with [61; 61]%N.
  destruct (strip (cut_at 35 l)) as [|c s]; [reflexivity|].
  rewrite reject_chars_spec.
  destruct (contains 44 (c :: s) || contains 60 (c :: s) || contains 62 (c :: s)); [rewrite orb_true_r; reflexivity|].
  rewrite orb_false_r.
  destruct (split [61; 61]%N (c :: s)) as [|a [|b [|x r]]]; try reflexivity.
  replace (req_max_parts <? _)%N with true; [reflexivity|].
  symmetry. apply N.ltb_lt. change req_max_parts with 2%N. cbn [length]. lia.
Qed.

Lemma parse_line_req sp l n v : parse_line sp l = PReq n v -> exists n' v', parse_line true l = PReq n' v'.
Proof.
  unfold parse_line. destruct (strip (cut_at req_comment_char l)) as [|c s]; [discriminate|].
  destruct (_ || _); [discriminate|]. destruct (split req_sep (c :: s)) as [|a [|b r]]; [discriminate| |]; eauto.
Qed.

Lemma spec_line_none sp l : spec_line l = None -> forall n v, parse_line sp l <> PReq n v.
Proof.
  intros H n v Hp. apply parse_line_req in Hp as (n' & v' & Hp). rewrite spec_line_parse, Hp in H. discriminate.
Qed.

(* REQUIREMENTS_PATHS finds exactly the files at the places the property counts *)
Lemma discover_counts dir : existsb (fun pat => dir_match pat dir) req_paths = spec_counts dir.
Proof.
  unfold req_paths, spec_counts. cbn [existsb].
  destruct dir as [|top [|sub [|x r]]].
  - reflexivity.
  - cbn [dir_match]. rewrite !andb_false_r. reflexivity.
  - cbn [dir_match comp_match]. rewrite !andb_true_r. rewrite orb_false_r.
    fold s_apps. fold s_modules. fold s_scripts.
    rewrite (str_eqb_sym s_apps top), (str_eqb_sym s_modules top), (str_eqb_sym s_scripts top).
    set (visible := match sub with [] => false | x :: _ => negb (x =? 46)%N end).
    destruct (str_eqb top s_apps), (str_eqb top s_modules), (str_eqb top s_scripts), visible; reflexivity.
  - cbn [dir_match]. rewrite !andb_false_r. reflexivity.
Qed.

Lemma lstrip_head s : lstrip s = [] \/ exists c r, lstrip s = c :: r /\ is_ws c = false.
Proof.
  induction s as [|c r IH]; [left; reflexivity|]. cbn [lstrip].
  destruct (is_ws c) eqn:E; [exact IH|]. right. exists c, r. split; [reflexivity|exact E].
Qed.

Lemma lstrip_idem s : lstrip (lstrip s) = lstrip s.
Proof.
  destruct (lstrip_head s) as [H|(c & r & H & E)]; rewrite H; [reflexivity|]. cbn [lstrip]. rewrite E. reflexivity.
Qed.

Lemma lstrip_snoc b c : is_ws c = false -> lstrip (b ++ [c]) = lstrip b ++ [c].
Proof.
  intros E. induction b as [|x b IH]; cbn [app lstrip]; [rewrite E; reflexivity|].
  destruct (is_ws x); [exact IH|reflexivity].
Qed.

Lemma lstrip_rstrip_lstrip s : lstrip (rstrip (lstrip s)) = rstrip (lstrip s).
Proof.
  destruct (lstrip_head s) as [H|(c & r & H & E)]; rewrite H; [reflexivity|].
  unfold rstrip. cbn [rev]. rewrite (lstrip_snoc (rev r) c E), rev_app_distr. cbn [rev app lstrip]. rewrite E. reflexivity.
Qed.

Lemma strip_idem s : strip (strip s) = strip s.
Proof.
  unfold strip. rewrite lstrip_rstrip_lstrip. unfold rstrip. rewrite rev_involutive, lstrip_idem. reflexivity.
Qed.

Lemma split_go_nonempty sep s : forall skip cur, split_go sep skip cur s <> [].
Proof.
  induction s as [|c r IH]; intros skip cur; cbn [split_go]; [discriminate|].
  destruct skip; [|apply IH]. destruct (is_prefix sep (c :: r)); [discriminate|apply IH].
Qed.

Lemma split_go_single sep s : forall cur x, split_go sep 0 cur s = [x] -> x = rev cur ++ s.
Proof.
  induction s as [|c r IH]; intros cur x; cbn [split_go].
  - intros [= <-]. rewrite app_nil_r. reflexivity.
  - destruct (is_prefix sep (c :: r)).
    + intros [= _ H]. exfalso. exact (split_go_nonempty sep r _ _ H).
    + intros H. rewrite (IH _ _ H). cbn [rev]. rewrite <- app_assoc. reflexivity.
Qed.

Lemma parse_name_stripped l n v : parse_line true l = PReq n v -> strip n = n.
Proof.
  unfold parse_line. destruct (strip (cut_at req_comment_char l)) as [|c s] eqn:Es; [discriminate|].
  destruct (_ || _); [discriminate|].
  destruct (split req_sep (c :: s)) as [|a [|b r]] eqn:Ep; [discriminate| |]; intros [= <- _].
  - apply split_go_single in Ep. cbn [rev app] in Ep. rewrite Ep, <- Es. apply strip_idem.
  - apply strip_idem.
Qed.

Section MergeProofs.
  Variable vvalid : str -> bool.
  Variable vle : str -> str -> bool.
  Variable installed : str -> option str.
  Hypothesis vle_total : forall a b, vvalid a = true -> vvalid b = true -> vle a b = true \/ vle b a = true.
  Hypothesis vle_trans : forall a b c, vvalid a = true -> vvalid b = true -> vvalid c = true ->
    vle a b = true -> vle b c = true -> vle a c = true.
  (* needed only because the code takes a recorded '' for "nothing recorded" ([ver_falsy]); used in [top_sel] *)
  Hypothesis vvalid_nil : vvalid [] = false.
  Hypothesis vvalid_marker : vvalid unpinned_version = false.

  Lemma vle_refl a : vvalid a = true -> vle a a = true.
  Proof. intros H. destruct (vle_total a a H H); assumption. Qed.

  Local Notation merge_req := (merge_req vvalid vle installed).
  Local Notation merge_core := (merge_core vvalid vle installed).
  Local Notation merge_line := (merge_line vvalid vle installed).
  Local Notation merge_lines := (merge_lines vvalid vle installed).
  Local Notation veq := (veq vle).
  Local Notation vlt := (vlt vle).

  Definition recorded (oe : option entry) : option str := match oe with Some e => e_ver e | None => None end.

  (* the version under a key after one more requirement [nv], [co] being recorded there *)
  Definition sel (co nv : option str) : option str :=
    match co, nv with
    | None, _ | Some [], _ => nv
    | Some _, None => co
    | Some c, Some v => if vvalid c && vvalid v && vlt c v then nv else co
    end.

  (* the cascade, opened once: an entry with the selected version is written under the key, or the one that is there has it
     and the table is left alone *)
  Lemma merge_core_cases t f n nv : exists e',
    (merge_core t f n nv = tset n e' t \/ merge_core t f n nv = t /\ tlookup n t = Some e')
    /\ e_ver e' = sel (recorded (tlookup n t)) nv
    /\ (e_inst e' = installed n \/ exists e, tlookup n t = Some e /\ e_inst e' = e_inst e).
  Proof.
    unfold Merge.merge_core, sel, Merge.veq, Merge.vlt.
    destruct (tlookup n t) as [e|]; cbn [recorded]; [destruct (e_ver e) as [[|x c]|] eqn:Ev; cbn [ver_falsy]|].
    - (* '' recorded: fresh entry *)
      eexists. split; [left; reflexivity|]. split; [reflexivity|left; reflexivity].
    - (* c recorded *)
      assert (Kept : exists e', (t = tset n e' t \/ t = t /\ Some e = Some e') /\ e_ver e' = Some (x :: c)
                /\ (e_inst e' = installed n \/ exists e0, Some e = Some e0 /\ e_inst e' = e_inst e0)).
      { exists e. split; [right; split; reflexivity|]. split; [exact Ev|right; exists e; split; reflexivity]. }
      destruct nv as [v|]; [|exact Kept].
      destruct (vvalid (x :: c)), (vvalid v); cbn [negb orb andb]; [|exact Kept..].
      destruct (vle (x :: c) v), (vle v (x :: c)); cbn [negb andb].
      + (* c = v *)
        exists (add_src e f). split; [left; reflexivity|]. split; [exact Ev|right; exists e; split; reflexivity].
      + (* c < v: version v, installed version of the entry *)
        eexists. split; [left; reflexivity|]. split; [reflexivity|right; exists e; split; reflexivity].
      + (* v < c *) exact Kept.
      + (* neither c <= v nor v <= c *) exact Kept.
    - (* unpinned recorded *)
      destruct nv as [v|].
      + (* a pin: fresh entry *)
        eexists. split; [left; reflexivity|]. split; [reflexivity|left; reflexivity].
      + (* unpinned again *)
        exists (add_src e f). split; [left; reflexivity|]. split; [exact Ev|right; exists e; split; reflexivity].
    - (* nothing recorded: fresh entry *)
      eexists. split; [left; reflexivity|]. split; [reflexivity|left; reflexivity].
  Qed.

  Lemma merge_req_shape d t f n nv : merge_req d t f n nv = t \/ exists e, merge_req d t f n nv = tset n e t.
  Proof.
    unfold Merge.merge_req. destruct (_ && _); [left; reflexivity|].
    destruct (merge_core_cases t f n (norm_ver nv)) as (e & [H|[H _]] & _); eauto.
  Qed.

  Lemma merge_req_other d t f n nv p : p <> n -> tlookup p (merge_req d t f n nv) = tlookup p t.
  Proof.
    intros H. destruct (merge_req_shape d t f n nv) as [->|[e ->]]; [reflexivity|].
    rewrite tlookup_tset, (str_eqb_neq p n H). reflexivity.
  Qed.

  Lemma merge_req_NoDup d t f n nv : NoDup (map fst t) -> NoDup (map fst (merge_req d t f n nv)).
  Proof. intros H. destruct (merge_req_shape d t f n nv) as [->|[e ->]]; [exact H|apply (al_set_NoDup _ str_eqb_eq); exact H]. Qed.

  Lemma merge_req_keys d t f n nv k : In k (map fst (merge_req d t f n nv)) -> k = n \/ In k (map fst t).
  Proof. destruct (merge_req_shape d t f n nv) as [->|[e ->]]; [tauto|apply (al_set_keys str_eqb)]. Qed.

  Definition ov_ok (ov : option str) : bool := match ov with Some v => vvalid v | None => true end.

  Lemma merge_req_valid d24 t f n nv : ov_ok nv = true -> merge_req d24 t f n nv = merge_core t f n nv.
  Proof.
    unfold Merge.merge_req. destruct nv as [v|]; cbn [ov_ok norm_ver]; [intros Vv|intros _].
    - rewrite Vv, andb_false_r. destruct (str_eqb_spec v unpinned_version) as [->|_]; [|reflexivity].
      rewrite vvalid_marker in Vv. discriminate.
    - rewrite andb_false_r. reflexivity.
  Qed.

  Lemma merge_req_invalid t f n v : vvalid v = false -> merge_req false t f n (Some v) = t.
  Proof. intros Vv. unfold Merge.merge_req. rewrite Vv. reflexivity. Qed.

  Definition entry_ok (k : str) (e : entry) : Prop :=
    e_inst e = installed k /\ forall w, e_ver e = Some w -> str_eqb w unpinned_version = false.
  Definition entries_ok (t : table) : Prop := forall k e, tlookup k t = Some e -> entry_ok k e.
  Definition table_wf (t : table) : Prop := NoDup (map fst t) /\ entries_ok t.

  Lemma sel_cases co nv : sel co nv = nv \/ sel co nv = co.
  Proof. destruct co as [[|x c]|], nv as [v|]; cbn [sel]; auto. destruct (_ && _); auto. Qed.

  Lemma merge_core_ok t f n nv :
    (forall w, nv = Some w -> str_eqb w unpinned_version = false) -> entries_ok t -> entries_ok (merge_core t f n nv).
  Proof.
    intros Hnv Ht. destruct (merge_core_cases t f n nv) as (e' & [->|[-> _]] & Hv & Hi); [|exact Ht].
    intros k e. rewrite tlookup_tset. destruct (str_eqb_spec k n) as [->|_]; [intros [= <-]|apply Ht]. split.
    - destruct Hi as [Hi|(e0 & El & Hi)]; [exact Hi|]. rewrite Hi. exact (proj1 (Ht n e0 El)).
    - intros w Hw. rewrite Hv in Hw. destruct (sel_cases (recorded (tlookup n t)) nv) as [E|E]; rewrite E in Hw; [exact (Hnv w Hw)|].
      destruct (tlookup n t) as [e0|] eqn:El; [exact (proj2 (Ht n e0 El) w Hw)|discriminate Hw].
  Qed.

  Lemma merge_req_ok d t f n nv : entries_ok t -> entries_ok (merge_req d t f n nv).
  Proof.
    intros Ht. unfold Merge.merge_req. destruct (_ && _); [exact Ht|]. apply merge_core_ok; [|exact Ht].
    intros w. destruct nv as [v|]; cbn [norm_ver]; [|discriminate].
    destruct (str_eqb v unpinned_version) eqn:E; [discriminate|]. intros [= <-]. exact E.
  Qed.

  Definition req := (N * str * option str)%type.       (* file, package key, version *)
  Definition r_ver (r : req) := snd r.

  Definition parse_reqs (sp : bool) (ls : list (N * str)) : list req :=
    flat_map (fun fl => match parse_line sp (snd fl) with PReq n v => [(fst fl, n, v)] | _ => [] end) ls.

  Definition merge_reqs (d24 : bool) (rs : list req) : table :=
    fold_left (fun t '(f, n, v) => merge_req d24 t f n v) rs [].

  Lemma merge_lines_reqs cfg ls :
    merge_lines cfg ls = merge_reqs (d24_unvalidated cfg) (parse_reqs (negb (d25_no_strip cfg)) ls).
  Proof.
    unfold Merge.merge_lines, merge_reqs, parse_reqs. generalize (@nil (str * entry)).
    induction ls as [|[f l] ls IH]; intros t; [reflexivity|]. cbn [fold_left flat_map]. rewrite fold_left_app, <- IH.
    unfold Merge.merge_line. cbn [fst snd]. destruct (parse_line _ l); reflexivity.
  Qed.

  Lemma merge_reqs_wf d24 rs : table_wf (merge_reqs d24 rs).
  Proof.
    unfold merge_reqs. apply fold_left_inv; [|split; [constructor|intros k e; discriminate]].
    intros t [[f n] v] _ [ND Ht]. split; [apply merge_req_NoDup, ND|apply merge_req_ok, Ht].
  Qed.

  Lemma merge_lines_wf cfg ls : table_wf (merge_lines cfg ls).
  Proof. rewrite merge_lines_reqs. apply merge_reqs_wf. Qed.

  Definition requires (sp : bool) (p : str) (ov : option str) (ls : list (N * str)) : Prop :=
    exists f l, In (f, l) ls /\ parse_line sp l = PReq p ov.

  Lemma requires_reqs sp p ov ls : requires sp p ov ls <-> exists f, In (f, p, ov) (parse_reqs sp ls).
  Proof.
    unfold requires, parse_reqs. split.
    - intros (f & l & Hin & Hp). exists f. apply in_flat_map. exists (f, l). cbn [fst snd]. rewrite Hp.
      split; [exact Hin|left; reflexivity].
    - intros (f & H). apply in_flat_map in H as ([f' l] & Hin & H). cbn [fst snd] in H.
      destruct (parse_line sp l) eqn:Ep; [destruct H|destruct H|]. destruct H as [[= <- <- <-]|[]]. eauto.
  Qed.

  Lemma merge_lines_keys cfg ls k :
    In k (map fst (merge_lines cfg ls)) -> exists ov, requires (negb (d25_no_strip cfg)) k ov ls.
  Proof.
    rewrite merge_lines_reqs. unfold merge_reqs. revert k. apply fold_left_inv; [|intros k []].
    intros t [[f n] v] Hin Ht k Hk.
    apply merge_req_keys in Hk as [->|Hk]; [exists v; apply requires_reqs; eauto|exact (Ht k Hk)].
  Qed.

  Lemma merge_lines_keys_stripped cfg ls k : d25_no_strip cfg = false ->
    In k (map fst (merge_lines cfg ls)) -> strip k = k.
  Proof.
    intros Hd H. apply merge_lines_keys in H as (ov & f & l & _ & Hp). rewrite Hd in Hp.
    exact (parse_name_stripped l k ov Hp).
  Qed.

  Definition is_req (sp : bool) (fl : N * str) : bool := match parse_line sp (snd fl) with PReq _ _ => true | _ => false end.

  Lemma parse_reqs_filter sp ls : parse_reqs sp (filter (is_req sp) ls) = parse_reqs sp ls.
  Proof.
    unfold parse_reqs, is_req. induction ls as [|fl ls IH]; [reflexivity|]. cbn [filter flat_map].
    destruct (parse_line sp (snd fl)) eqn:E; cbn [flat_map app]; rewrite ?E, IH; reflexivity.
  Qed.

  Theorem merge_lines_filter cfg ls : merge_lines cfg (filter (is_req (negb (d25_no_strip cfg))) ls) = merge_lines cfg ls.
  Proof. rewrite !merge_lines_reqs, parse_reqs_filter. reflexivity. Qed.

  Lemma merge_ignored_spec cfg pre post f l : spec_line l = None ->
    merge_lines cfg (pre ++ (f, l) :: post) = merge_lines cfg (pre ++ post).
  Proof.
    intros H. rewrite <- merge_lines_filter, <- (merge_lines_filter cfg (pre ++ post)), !filter_app. cbn [filter]. unfold is_req at 2.
    cbn [snd]. destruct (parse_line _ l) eqn:E; [reflexivity|reflexivity|destruct (spec_line_none _ l H _ _ E)].
  Qed.

  (* the versions asked of package p, in reading order; a pin that is no version is skipped *)
  Definition asks (p : str) (rs : list req) : list (option str) :=
    flat_map (fun '(f, n, ov) => if str_eqb n p && ov_ok ov then [ov] else []) rs.

  Lemma in_asks p rs ov : In ov (asks p rs) <-> (exists f, In (f, p, ov) rs) /\ ov_ok ov = true.
  Proof.
    unfold asks. rewrite in_flat_map. split.
    - intros ([[f n] o] & Hin & H). destruct (str_eqb_spec n p) as [->|_]; [|destruct H].
      destruct (ov_ok o) eqn:Eo; [|destruct H]. destruct H as [<-|[]]. eauto.
    - intros ((f & Hin) & Ho). exists (f, p, ov). split; [exact Hin|]. rewrite str_eqb_refl, Ho. left. reflexivity.
  Qed.

  (* [ov] is what the rule selects from E: a highest pin, unpinned only if E has no pin *)
  Definition top (E : list (option str)) (ov : option str) : Prop :=
    match ov with
    | None => forall v, ~ In (Some v) E
    | Some w => vvalid w = true /\ In (Some w) E /\ forall v, In (Some v) E -> vle v w = true
    end.

  (* the invariant of the fold for one key: E is what was asked of that package so far (installed version and marker:
     [entries_ok]) *)
  Definition good_entry (E : list (option str)) (oe : option entry) : Prop :=
    match oe with
    | None => E = []
    | Some e => (exists ov, In ov E) /\ top E (e_ver e)
    end.

  Lemma top_keep E x c : top E (Some c) -> (forall v, x = Some v -> vle v c = true) -> top (E ++ [x]) (Some c).
  Proof.
    intros (Vc & Hin & Mx) Hx. split; [exact Vc|]. split; [apply in_or_app; left; exact Hin|].
    intros v Hv. apply in_app_or in Hv as [Hv|[Hv|[]]]; [exact (Mx v Hv)|exact (Hx v Hv)].
  Qed.

  Lemma top_new E v : vvalid v = true -> (forall x, In (Some x) E -> vle x v = true) -> top (E ++ [Some v]) (Some v).
  Proof.
    intros Vv Mx. split; [exact Vv|]. split; [apply in_or_app; right; left; reflexivity|].
    intros x Hx. apply in_app_or in Hx as [Hx|[[= <-]|[]]]; [exact (Mx x Hx)|exact (vle_refl v Vv)].
  Qed.

  (* the hypotheses on [vle] are used here and, for reflexivity, in [top_new] only *)
  Lemma top_sel E co nv : ov_ok nv = true -> (forall v, In (Some v) E -> vvalid v = true) ->
    top E co -> top (E ++ [nv]) (sel co nv).
  Proof.
    intros Vn VE T. destruct co as [c|]; cbn [top] in T.
    - pose proof T as (Vc & _ & Mx). destruct c as [|x c]; [rewrite vvalid_nil in Vc; discriminate|].
      destruct nv as [v|]; cbn [sel ov_ok] in *; [|apply top_keep; [exact T|discriminate]].
      rewrite Vc, Vn. cbn [andb]. destruct (vlt (x :: c) v) eqn:Elt.
      + apply top_new; [exact Vn|]. intros y Hy. apply andb_true_iff in Elt as [Hcv _].
        exact (vle_trans y _ v (VE y Hy) Vc Vn (Mx y Hy) Hcv).
      + (* by totality the recorded version is at least as high *)
        apply top_keep; [exact T|]. intros v' [= <-]. destruct (vle_total _ v Vc Vn) as [H|H]; [|exact H].
        unfold Merge.vlt in Elt. rewrite H in Elt. destruct (vle v (x :: c)); [reflexivity|discriminate].
    - cbn [sel]. destruct nv as [v|].
      + apply top_new; [exact Vn|]. intros y Hy. destruct (T y Hy).
      + intros v Hv. apply in_app_or in Hv as [Hv|[Hv|[]]]; [exact (T v Hv)|discriminate].
  Qed.

  Lemma merge_core_good t f n nv E :
    ov_ok nv = true -> (forall v, In (Some v) E -> vvalid v = true) ->
    good_entry E (tlookup n t) -> good_entry (E ++ [nv]) (tlookup n (merge_core t f n nv)).
  Proof.
    intros Vn VE G. destruct (merge_core_cases t f n nv) as (e' & Hm & Hv & _).
    replace (tlookup n (merge_core t f n nv)) with (Some e')
      by (destruct Hm as [->|[-> ->]]; [rewrite tlookup_tset, str_eqb_refl|]; reflexivity).
    split; [exists nv; apply in_or_app; right; left; reflexivity|]. rewrite Hv.
    destruct (tlookup n t) as [e|]; cbn [good_entry recorded] in *.
    - exact (top_sel E _ nv Vn VE (proj2 G)).
    - subst E. apply (top_sel [] None nv Vn VE). intros v [].
  Qed.

  Definition good_table (rs : list req) (t : table) : Prop := forall p, good_entry (asks p rs) (tlookup p t).

  (* under D24 pins are not validated first *)
  Lemma merge_req_good d24 rs t f n nv : (d24 = true -> ov_ok nv = true) ->
    good_table rs t -> good_table (rs ++ [(f, n, nv)]) (merge_req d24 t f n nv).
  Proof.
    intros Hok G p. unfold asks. rewrite flat_map_app. fold (asks p rs). cbn [flat_map]. rewrite app_nil_r.
    destruct (str_eqb_spec n p) as [->|Hn]; cbn [andb].
    2:{ rewrite app_nil_r, merge_req_other by congruence. apply G. }
    destruct (ov_ok nv) eqn:Vn.
    - rewrite (merge_req_valid d24 t f p nv Vn). apply merge_core_good; [exact Vn| |apply G].
      intros v Hv. apply in_asks in Hv. exact (proj2 Hv).
    - destruct d24; [discriminate (Hok eq_refl)|]. destruct nv as [v|]; [|discriminate Vn].
      rewrite (merge_req_invalid t f p v Vn), app_nil_r. apply G.
  Qed.

  Definition pins_valid (rs : list req) : Prop := forall r v, In r rs -> r_ver r = Some v -> vvalid v = true.

  (* when every pin parses, validating first (conformant) and not validating (D24) coincide *)
  Definition cfg_ok (cfg : deviations) (ls : list (N * str)) : Prop :=
    d24_unvalidated cfg = true -> pins_valid (parse_reqs (negb (d25_no_strip cfg)) ls).

  Theorem merge_reqs_good d24 rs : (d24 = true -> pins_valid rs) -> good_table rs (merge_reqs d24 rs).
  Proof.
    induction rs as [|[[f n] nv] rs IH] using rev_ind; intros H; [intros p; reflexivity|].
    unfold merge_reqs. rewrite fold_left_app. apply merge_req_good.
    - intros D. destruct nv as [v|]; [|reflexivity]. apply (H D (f, n, Some v)); [|reflexivity].
      apply in_or_app. right. left. reflexivity.
    - apply IH. intros D r v Hr. apply (H D). apply in_or_app. left. exact Hr.
  Qed.

  (* C20, selection: the entry of p is the highest valid pin; unpinned only if there is no valid pin;
     absent only if nothing (valid) requires p *)
  Theorem merge_max cfg ls p : cfg_ok cfg ls ->
    let sp := negb (d25_no_strip cfg) in
    match tlookup p (merge_lines cfg ls) with
    | None => forall ov, requires sp p ov ls -> exists v, ov = Some v /\ vvalid v = false
    | Some e =>
        e_inst e = installed p /\
        match e_ver e with
        | Some w => vvalid w = true /\ requires sp p (Some w) ls /\
                    forall v, requires sp p (Some v) ls -> vvalid v = true -> vle v w = true
        | None => requires sp p None ls /\ forall v, requires sp p (Some v) ls -> vvalid v = false
        end
    end.
  Proof.
    intros H sp. rewrite merge_lines_reqs. fold sp. pose proof (merge_reqs_good _ _ H p) as G. fold sp in G.
    pose proof (proj2 (merge_reqs_wf (d24_unvalidated cfg) (parse_reqs sp ls)) p) as Hi.
    set (rs := parse_reqs sp ls) in *.
    assert (A : forall ov, requires sp p ov ls -> ov_ok ov = true -> In ov (asks p rs)).
    { intros ov R V. apply in_asks. split; [apply requires_reqs; exact R|exact V]. }
    assert (B : forall ov, In ov (asks p rs) -> requires sp p ov ls).
    { intros ov Hin. apply requires_reqs, in_asks, Hin. }
    destruct (tlookup p (merge_reqs _ rs)) as [e|]; cbn [good_entry] in G.
    - destruct G as ((ov & Hov) & Ht). split; [exact (proj1 (Hi e eq_refl))|].
      destruct (e_ver e) as [w|]; cbn [top] in Ht.
      + destruct Ht as (Vw & Hin & Mx). split; [exact Vw|]. split; [exact (B _ Hin)|].
        intros v Rv Vv. exact (Mx v (A (Some v) Rv Vv)).
      + split.
        * destruct ov as [v|]; [destruct (Ht v Hov)|exact (B _ Hov)].
        * intros v Rv. destruct (vvalid v) eqn:Vv; [|reflexivity]. destruct (Ht v (A (Some v) Rv Vv)).
    - intros ov Rv. destruct (ov_ok ov) eqn:Vo; [apply (A ov Rv) in Vo; rewrite G in Vo; destruct Vo|].
      destruct ov as [v|]; [eauto|discriminate].
  Qed.

  Definition ver_equiv_p (a b : option str) : Prop :=
    match a, b with
    | None, None => True
    | Some x, Some y => vvalid x = true /\ vvalid y = true /\ veq x y = true
    | _, _ => False
    end.
  Definition table_equiv (t1 t2 : table) : Prop :=
    forall p, match tlookup p t1, tlookup p t2 with
              | None, None => True
              | Some e1, Some e2 => e_inst e1 = e_inst e2 /\ ver_equiv_p (e_ver e1) (e_ver e2)
              | _, _ => False
              end.

  Lemma top_unique E E' a b : (forall x, In x E <-> In x E') -> top E a -> top E' b -> ver_equiv_p a b.
  Proof.
    intros HE Ta Tb. destruct a as [a|], b as [b|]; cbn [ver_equiv_p top] in *.
    - destruct Ta as (Va & Ia & Ma), Tb as (Vb & Ib & Mb). split; [exact Va|]. split; [exact Vb|].
      apply andb_true_iff. split; [apply Mb, HE, Ia|apply Ma, HE, Ib].
    - destruct Ta as (_ & Ia & _). apply (Tb a), HE, Ia.
    - destruct Tb as (_ & Ib & _). apply (Ta b), HE, Ib.
    - exact I.
  Qed.

  Lemma good_table_equiv rs rs' t t' : (forall p x, In x (asks p rs) <-> In x (asks p rs')) ->
    entries_ok t -> entries_ok t' -> good_table rs t -> good_table rs' t' -> table_equiv t t'.
  Proof.
    intros HE Hi Hi' G G' p. specialize (HE p). specialize (G p). specialize (G' p). specialize (Hi p). specialize (Hi' p).
    destruct (tlookup p t) as [e|], (tlookup p t') as [e'|]; cbn [good_entry] in G, G'.
    - split; [|exact (top_unique _ _ _ _ HE (proj2 G) (proj2 G'))].
      rewrite (proj1 (Hi e eq_refl)). symmetry. exact (proj1 (Hi' e' eq_refl)).
    - destruct G as ((x & Hx) & _). apply HE in Hx. rewrite G' in Hx. destruct Hx.
    - destruct G' as ((x & Hx) & _). apply HE in Hx. rewrite G in Hx. destruct Hx.
    - exact I.
  Qed.

  (* the table depends only on WHICH (package, version) requirements are made: not on order, multiplicity or file *)
  Theorem merge_reqs_equiv d24 rs rs' : (d24 = true -> pins_valid rs) ->
    (forall p ov, (exists f, In (f, p, ov) rs) <-> (exists f, In (f, p, ov) rs')) ->
    table_equiv (merge_reqs d24 rs) (merge_reqs d24 rs').
  Proof.
    intros H HR.
    assert (H' : d24 = true -> pins_valid rs').
    { intros D [[f n] ov] v Hin [= ->]. destruct (proj2 (HR n (Some v)) (ex_intro _ f Hin)) as (f0 & Hin0).
      exact (H D (f0, n, Some v) v Hin0 eq_refl). }
    refine (good_table_equiv rs rs' _ _ _ (proj2 (merge_reqs_wf _ _)) (proj2 (merge_reqs_wf _ _))
              (merge_reqs_good _ _ H) (merge_reqs_good _ _ H')).
    intros p x. rewrite !in_asks, HR. reflexivity.
  Qed.

  Theorem merge_perm cfg ls ls' : cfg_ok cfg ls -> Permutation ls ls' ->
    table_equiv (merge_lines cfg ls) (merge_lines cfg ls').
  Proof.
    intros H P. rewrite !merge_lines_reqs. apply merge_reqs_equiv; [exact H|].
    intros p ov. split; intros [f Hin]; exists f; revert Hin; apply Permutation_in, Permutation_flat_map.
    - exact P.
    - exact (Permutation_sym P).
  Qed.
End MergeProofs.
