(* [next_one] answers the successor among what one specification of the fragment denotes ([next_one_successor]),
   [next_list] among what a list denotes ([next_list_successor]: the fold keeps a minimum); hence successive answers
   increase and the answer does not change before it is reached. *)
From Coq Require Import ZArith List Bool Lia.
From PV Require Import Common.Civil Proofs.Civil Time.DtExpr Time.Next Gen.TimeConsts
                       Proofs.TimeNext Proofs.TimeNextOnce Proofs.TimeNextPeriod.
Import ListNotations.
Local Open Scope Z_scope.

Lemma denotes_any_cons scale sun lu ul elapsed s rest su now t :
  denotes_any scale sun lu ul elapsed (s :: rest) su now t <->
  denotes scale sun lu ul elapsed s su now t \/ denotes_any scale sun lu ul elapsed rest su now t.
Proof.
  unfold denotes_any. split.
  - intros (s' & [<-|Hin] & H); eauto.
  - intros [H|(s' & Hin & H)]; [exists s|exists s']; split; auto using in_eq, in_cons.
Qed.

Section Main.
  Variable scale : N -> Z.
  Variable sun : Z -> bool -> option Z.
  Variable cron_next : cronx -> Z -> Z.
  Variable lu ul : Z -> Z.
  Variable cfg : deviations.
  Hypothesis Hmd : d_once_md_this_year cfg = false.
  Hypothesis Hsu : d_su_coincidence cfg = false.
  Hypothesis Htz : d_period_wallclock cfg = true \/ tz_const lu ul.

  Let elapsed := negb (d_period_wallclock cfg).
  Notation next1 := (next_one scale sun cron_next lu ul cfg false).
  Notation den := (denotes scale sun lu ul elapsed).

  Lemma once_successor e now su : in_fragment scale (Once e) = true ->
    answers (next1 (Once e) now su) (den (Once e) su now) now su.
  Proof.
    cbn [in_fragment next_one denotes]. rewrite andb_true_iff. intros (OK & MD).
    destruct (is_monthday e) eqn:IM.
    - rewrite andb_true_iff, !Z.leb_le in MD. apply (once_monthday scale sun cfg Hmd e now su OK IM). lia.
    - destruct (fixed_date e) eqn:FX; [apply once_point|apply once_daily]; assumption.
  Qed.

  Lemma period_successor st iv en now su : in_fragment scale (Period st iv en) = true ->
    answers (next1 (Period st iv en) now su) (den (Period st iv en) su now) now su.
  Proof.
    cbn [in_fragment next_one]. destruct (amount_us_exact scale iv) as [P|] eqn:EP.
    2:{ destruct en; rewrite andb_false_r; discriminate. }
    destruct (Z.leb_spec P 0) as [LP|LP].
    { (* "Invalid non-positive period": the specification is skipped, and denotes nothing *)
      intros _ t' _ H.
      assert (exists P', amount_us_exact scale iv = Some P' /\ 0 < P') as (P' & E' & HP').
      { destruct en; cbn [denotes] in H.
        - destruct H as (P' & E' & HP' & _). eauto.
        - destruct H as (P' & _ & E' & HP' & _). eauto. }
      rewrite EP in E'. injection E' as <-. lia. }
    destruct en as [en|].
    - rewrite !andb_true_iff. intros ((OKs & OKe) & FR). apply period_closed_successor; try assumption.
      intros FX. rewrite FX in FR. unfold in_day in FR. rewrite !andb_true_iff, !Z.leb_le, !Z.ltb_lt in FR. exact FR.
    - rewrite andb_true_iff. intros (OK & FR). apply period_open_successor; try assumption.
      intros FX. rewrite FX in FR. cbn [orb] in FR.
      rewrite !andb_true_iff, Z.leb_le, Z.ltb_lt, Z.eqb_eq in FR. tauto.
  Qed.

  Lemma cron_successor c now su : cron_ok cron_next c -> real_now lu now ->
    answers (next1 (Cron c) now su) (den (Cron c) su now) now su.
  Proof.
    intros HC HR. destruct (HC now) as (L & M & MIN). cbv zeta in *. pose proof (HR _ L) as LU.
    cbn [next_one]. change 200%nat with (S 199). generalize 199%nat. intros f. cbn [cron_loop].
    rewrite (proj2 (Z.leb_gt _ _)) by lia.
    apply successor_some; [left; exact L|exact M|]. intros t' L1 X. cbn [denotes] in X.
    destruct (Z.le_gt_cases (cron_next c now) t') as [Le|G]; [exact Le|]. rewrite (MIN t' L1 G) in X. discriminate.
  Qed.

  Lemma next_one_successor s now su : in_fragment scale s = true ->
    (forall c, s = Cron c -> cron_ok cron_next c /\ real_now lu now) ->
    answers (next1 s now su) (den s su now) now su.
  Proof.
    intros FR HC. destruct s as [e|st iv en|c].
    - apply once_successor; exact FR.
    - apply period_successor; exact FR.
    - destruct (HC c eq_refl) as (H1 & H2). apply cron_successor; assumption.
  Qed.

  Lemma successor_unique (D : Z -> Prop) now su r1 r2 : now <> su ->
    successor_of D now su r1 -> successor_of D now su r2 -> option_map fst r1 = option_map fst r2.
  Proof.
    intros NS H1 H2. destruct r1 as [[t1 a1]|]; destruct r2 as [[t2 a2]|]; cbn; try reflexivity.
    - destruct (successor_later D now su t1 a1 NS H1) as (G1 & D1). destruct (successor_later D now su t2 a2 NS H2) as (G2 & D2).
      f_equal. apply Z.le_antisymm; [exact (successor_min D now su t1 a1 t2 H1 G2 D2)|exact (successor_min D now su t2 a2 t1 H2 G1 D1)].
    - destruct (successor_later D now su t1 a1 NS H1) as (G1 & D1). destruct (H2 t1 G1 D1).
    - destruct (successor_later D now su t2 a2 NS H2) as (G2 & D2). destruct (H1 t2 G2 D2).
  Qed.

  Notation nextl := (next_list scale sun cron_next lu ul cfg false).
  Notation denl := (denotes_any scale sun lu ul elapsed).
  Notation okl := (specs_ok scale cron_next lu).

  Lemma next_fold_successor specs now su : forall acc (D : Z -> Prop),
    (forall s, In s specs -> answers (next1 s now su) (den s su now) now su) ->
    successor_of D now su acc ->
    answers (next_fold scale sun cron_next lu ul cfg false specs now su acc) (fun t => D t \/ denl specs su now t) now su.
  Proof.
    induction specs as [|s rest IH]; intros acc D HS HA.
    - eapply successor_ext; [|exact HA]. intros t _. split; [tauto|]. intros [H|(s & [] & _)]. exact H.
    - pose proof (HS s (or_introl eq_refl)) as SR. cbn [next_fold].
      destruct (next1 s now su) as [r| |]; try contradiction. cbn [rbind].
      eapply answers_ext; [|apply (IH (upd acc r) (fun t => D t \/ den s su now t))].
      + intros t _. rewrite denotes_any_cons. tauto.
      + intros s' Hin. apply HS. right. exact Hin.
      + apply successor_upd; assumption.
  Qed.

  Theorem next_list_successor specs now su : okl specs now -> answers (nextl specs now su) (denl specs su now) now su.
  Proof.
    intros (HF & HC). eapply answers_ext; [|apply (next_fold_successor specs now su None (fun _ => False))].
    - intros t _. tauto.
    - intros s Hin. apply next_one_successor; [apply HF; exact Hin|]. intros c ->. apply HC. exact Hin.
    - intros t' _ H. exact H.
  Qed.

  (* [next_list_successor] with [successor_of] and [denotes_any] unfolded, as Properties/C06.v states it *)
  Theorem next_list_successor_full specs now su : okl specs now ->
    exists r, nextl specs now su = ROk r /\
      match r with
      | Some (t, _) =>
          (now < t \/ (t = now /\ now = su)) /\
          (exists s, In s specs /\ den s su now t) /\
          (forall t', now < t' -> t' < t -> forall s, In s specs -> ~ den s su now t')
      | None => forall t', now < t' -> forall s, In s specs -> ~ den s su now t'
      end.
  Proof.
    intros OK. destruct (answers_inv _ _ now su (next_list_successor specs now su OK)) as (r & ER & SR). exists r. split; [exact ER|].
    destruct r as [[t a]|]; cbn [successor_of] in SR.
    - destruct SR as (H1 & H2 & H3). split; [exact H1|]. split; [exact H2|].
      intros t' L1 L2 s Hin H. apply (H3 t' L1 L2). exists s. split; assumption.
    - intros t' L s Hin H. apply (SR t' L). exists s. split; assumption.
  Qed.

  Lemma next_list_later specs now su t a : okl specs now -> now <> su -> nextl specs now su = ROk (Some (t, a)) -> now < t.
  Proof.
    intros OK NS E. pose proof (next_list_successor specs now su OK) as SR. rewrite E in SR.
    apply (successor_later _ now su t a NS SR).
  Qed.

  Theorem next_strictly_increasing specs now now' su t a t' a' : okl specs now' ->
    nextl specs now su = ROk (Some (t, a)) -> t <= now' -> now' <> su ->
    nextl specs now' su = ROk (Some (t', a')) -> t < t'.
  Proof.
    (* of the earlier evaluation only [t <= now'] is used *)
    intros OK _ L NS E'. pose proof (next_list_later specs now' su t' a' OK NS E'). lia.
  Qed.

  (* for specifications whose meaning does not move with now: the successor at now is one at now' too, and it is unique *)
  Theorem next_idempotent_between specs now now' su t a : okl specs now -> okl specs now' ->
    (forall x, denl specs su now x <-> denl specs su now' x) ->
    nextl specs now su = ROk (Some (t, a)) -> now <= now' -> now' < t -> now' <> su ->
    exists a', nextl specs now' su = ROk (Some (t, a')).
  Proof.
    intros OK OK' ST E L1 L2 NS.
    pose proof (next_list_successor specs now su OK) as SR. rewrite E in SR.
    destruct (answers_inv _ _ now' su (next_list_successor specs now' su OK')) as (r' & -> & SR').
    apply (successor_shift _ now now' su t a) in SR; [|exact L1|exact L2].
    apply (successor_ext _ (denl specs su now') now' su _ (fun x _ => ST x)) in SR.
    pose proof (successor_unique _ now' su _ _ NS SR' SR) as U.
    destruct r' as [[t2 a2]|]; cbn in U; [injection U as ->; eauto|discriminate].
  Qed.
End Main.
