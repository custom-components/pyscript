(* With every deviation switch off, pyscript's marker-passing evaluator computes on every supported skeleton, for every
   host oracle and every fuel, what the reference semantics computes.  [matches] lists the pairs of results that
   correspond.  Induction on fuel; one lemma per construct, about evaluators of the sub-statements assumed to satisfy
   [matches]: destructing such a fact about a sub-result puts each corresponding pair in place of the two results in
   the goal.  After [flow_equiv]: the witness skeletons of D8-D202 refuted on the scripted host of Interp/FlowCheck.v
   ([chost]), example runs, and the checker bridge [model_implies_spec]. *)
From PV Require Import Common.Util Interp.Flow Interp.FlowCheck.

Section Equiv.
  Context {H : Type}.
  Variable h : host H.
  Notation state := (state H).

  Definition out_of_val (v : pval) : outcome :=
    match v with VNone => Normal | VBreak => Brk | VContinue => Cont | VReturn x => Ret x end.
  Definition out_of (r : pres) : outcome :=
    match r with PV v => out_of_val v | PX e => Exc e | PFuel => Fuel end.
  Definition cv (p : state * pres) : state * outcome := (fst p, out_of (snd p)).

  Definition is_jump (o : outcome) : bool := match o with Brk | Cont => true | _ => false end.

  Lemma else_block_off (ev : stmt -> state -> state * pres) b : forall st, ps_else_block false ev b st = ps_block ev b st.
  Proof.
    induction b as [|s b IH]; intros st; cbn [ps_else_block ps_block]; [reflexivity|].
    destruct (ev s st) as [st1 [[| | |v]|e|]]; try reflexivity. apply IH.
  Qed.

  Lemma ps_unbind_off name (st : state) : ps_unbind no_dev name st = Some (unbind name st).
  Proof. destruct name; reflexivity. Qed.

  Lemma ps_caught_off e : ps_caught h no_dev e = true.
  Proof. reflexivity. Qed.

  (* the results that correspond.  A break or continue comes out only inside a loop of the function, so the function
     boundary need not look for one *)
  Inductive matches (inl : bool) : state * pres -> state * outcome -> Prop :=
    | m_normal st : matches inl (st, PV VNone) (st, Normal)
    | m_break st : inl = true -> matches inl (st, PV VBreak) (st, Brk)
    | m_continue st : inl = true -> matches inl (st, PV VContinue) (st, Cont)
    | m_return st v : matches inl (st, PV (VReturn v)) (st, Ret v)
    | m_exc st e : matches inl (st, PX e) (st, Exc e)
    | m_fuel st : matches inl (st, PFuel) (st, Fuel).

  Lemma matches_cv inl p q : matches inl p q -> cv p = q.
  Proof. intros []; reflexivity. Qed.

  Lemma matches_safe p q : matches false p q -> is_jump (snd q) = false.
  Proof. intros []; try reflexivity; discriminate. Qed.

  (* the evaluators of the sub-statements, one pair for each exception being handled *)
  Section Constructs.
    Variable rp : option exc -> stmt -> state -> state * pres.
    Variable ry : option exc -> stmt -> state -> state * outcome.
    Hypothesis Hm : forall cur inl s st, supp inl s = true -> matches inl (rp cur s st) (ry cur s st).

    Lemma block_matches cur inl b : forall st, forallb (supp inl) b = true ->
      matches inl (ps_block (rp cur) b st) (py_block (ry cur) b st).
    Proof.
      induction b as [|s b IH]; intros st Hb; cbn [ps_block py_block forallb] in *; [constructor|].
      apply andb_prop in Hb as [Hs Hb]. destruct (Hm cur inl s st Hs); try (constructor; assumption). apply IH, Hb.
    Qed.

    Lemma loop_matches query cur inl body orelse :
      forallb (supp true) body = true -> forallb (supp inl) orelse = true ->
      forall k st, matches inl (ps_loop false query (rp cur) k body orelse st) (py_loop query (ry cur) k body orelse st).
    Proof.
      intros Hb Ho. induction k as [|k IH]; intros st; cbn [ps_loop py_loop]; [constructor|].
      destruct (query st) as [[|] st1].
      - destruct (block_matches cur true body st1 Hb); try constructor; apply IH.
      - rewrite else_block_off. apply block_matches, Ho.
    Qed.

    Lemma handlers_matches cur e inl hs : forallb (fun hd : handler => forallb (supp inl) (snd hd)) hs = true ->
      forall st, matches inl (ps_handlers h no_dev (rp cur) e hs st) (py_handle h (ry cur) e hs st).
    Proof.
      unfold py_handle. induction hs as [|[[m name] hb] hs IH]; intros Hh st;
        cbn [ps_handlers py_find_handler forallb snd] in *; [constructor|].
      apply andb_prop in Hh as [Hb Hh].
      destruct (h_matches h (s_h st) m e); [|apply IH, Hh].
      destruct (block_matches cur inl hb (bind name e st) Hb); rewrite ?ps_unbind_off; constructor; assumption.
    Qed.

    Lemma finally_matches cur inl fb p q : forallb (supp inl) fb = true -> matches inl p q ->
      matches inl (ps_finally rp cur fb p) (py_finally ry cur fb q).
    Proof.
      intros Hf [st2|st2 Hj|st2 Hj|st2 v|st2 e|st2]; cbn [ps_finally py_finally];
        [..|(* the try part ran out of fuel *) constructor].
      1-4: destruct (block_matches cur inl fb st2 Hf); constructor; assumption.
      (* the exception in flight is the one being handled *)
      destruct (block_matches (Some e) inl fb st2 Hf); constructor; assumption.
    Qed.

    Lemma try_matches cur inl body hs orelse finalbody st :
      forallb (supp inl) body = true -> forallb (fun hd : handler => forallb (supp inl) (snd hd)) hs = true ->
      forallb (supp inl) orelse = true -> forallb (supp inl) finalbody = true ->
      matches inl (ps_try h no_dev rp cur body hs orelse finalbody st) (py_try h ry cur body hs orelse finalbody st).
    Proof.
      intros Hb Hh Ho Hf. unfold ps_try, py_try. apply finally_matches; [exact Hf|].
      destruct (block_matches cur inl body st Hb); try (constructor; assumption).
      - apply block_matches, Ho.
      - rewrite ps_caught_off. apply handlers_matches, Hh.
    Qed.

    Lemma with1_matches inl m (ip : state -> state * pres) (iy : state -> state * outcome) :
      (forall st, matches inl (ip st) (iy st)) -> forall st, matches inl (ps_with1 h no_dev m ip st) (py_with1 h m iy st).
    Proof.
      intros Hi st. unfold ps_with1, py_with1.
      destruct (do_enter h m (emit (EvMk m) st)) as [[e|] st2]; [constructor|].
      destruct (Hi st2) as [st3|st3 Hj|st3 Hj|st3 v|st3 e|st3]; cbn [ps_with_finish ps_exits_none ps_exits_exc];
        rewrite ?ps_caught_off; [..|constructor].
      (* no exception came out of the body: its marker stands unless __exit__ raises *)
      1-4: destruct (do_exit h m None st3) as [[b|e'] st4]; constructor; assumption.
      destruct (do_exit h m (Some e) st3) as [[[|]|e'] st4]; constructor.
    Qed.

    Lemma with_matches cur inl body : forallb (supp inl) body = true ->
      forall items st, matches inl (ps_with_nested h no_dev (rp cur) items body st) (py_with h (ry cur) items body st).
    Proof.
      intros Hb. induction items as [|m r IH]; cbn [ps_with_nested py_with]; intros st.
      - apply block_matches, Hb.
      - apply with1_matches, IH.
    Qed.

    (* at a function boundary pyscript looks for the return marker only: sound because no jump gets there *)
    Lemma func_block_agree cur b : forall st, forallb (supp false) b = true ->
      ps_func_block (rp cur) b st = let (st', o) := py_block (ry cur) b st in (st', py_call_result o).
    Proof.
      induction b as [|s b IH]; intros st Hb; cbn [ps_func_block py_block forallb] in *; [reflexivity|].
      apply andb_prop in Hb as [Hs Hb]. destruct (Hm cur false s st Hs); try discriminate; try reflexivity. apply IH, Hb.
    Qed.

    Lemma call_matches cur inl k b st : forallb (supp false) b = true ->
      matches inl (ps_call (rp cur) k b st) (py_call (ry cur) k b st).
    Proof.
      intros Hb. unfold ps_call, py_call. rewrite (func_block_agree cur) by exact Hb.
      destruct (py_block (ry cur) b (set_env [] st)) as [st1 o].
      destruct (py_call_result o); constructor.
    Qed.

    Lemma xcall_agree cur k info x st : forallb (supp false) x = true ->
      ps_xcall (rp cur) k info x st = py_xcall (ry cur) k info x st.
    Proof.
      intros Hx. unfold ps_xcall, py_xcall. rewrite (func_block_agree cur) by exact Hx.
      destruct (py_block (ry cur) x (set_env [] (emit (EvExit k info) st))) as [st1 o].
      destruct (py_call_result o); reflexivity.
    Qed.

    Lemma withS_matches cur inl k x b st : forallb (supp false) x = true -> forallb (supp inl) b = true ->
      matches inl (ps_withS h no_dev rp cur k x b st) (py_withS ry cur k x b st).
    Proof.
      intros Hx Hb. unfold ps_withS, py_withS.
      destruct (block_matches cur inl b (emit (EvEnter k) st) Hb) as [st3|st3 Hj|st3 Hj|st3 v|st3 e|st3];
        rewrite ?ps_caught_off, ?(xcall_agree _ _ _ _ _ Hx); [..|constructor].
      1-4: destruct (py_xcall (ry cur) k None x st3) as [st4 [v'|e'|]]; constructor; assumption.
      destruct (py_xcall (ry (Some e)) k (Some e) x st3) as [st4 [v'|e'|]]; try constructor.
      destruct (truthy v'); constructor.
    Qed.

    Lemma step_matches lf cur inl s st : supp inl s = true ->
      matches inl (ps_step h no_dev rp lf cur s st) (py_step h ry lf cur s st).
    Proof.
      intros Hs.
      destruct s as [n| |k name|k b o|k b o|m k b o| | |v|c cause| |b hs o fb|a items b|k msg|a k b|k|a k x b];
        cbn [ps_step py_step]; cbn [supp] in Hs; rewrite ?andb_true_iff in Hs;
        (* the statements without sub-statements; break and continue are supported only where [inl] is true *)
        try (constructor; assumption).
      - (* SIf *) destruct Hs as [Hb Ho]. destruct (q_cond h k st) as [[|] st1]; apply block_matches; assumption.
      - (* SWhile *) destruct Hs as [Hb Ho]. apply loop_matches; assumption.
      - (* SFor *) destruct Hs as [Hb Ho]. apply loop_matches; assumption.
      - (* STry *) destruct Hs as [[[Hb Hh] Ho] Hf]. apply try_matches; assumption.
      - (* SWith *) apply with_matches, Hs.
      - (* SAssert *) destruct (q_cond h k st) as [[|] st1]; [constructor|]. destruct (assert_fail h msg st1); constructor.
      - (* SFunc *) apply call_matches, Hs.
      - (* SWithS *) destruct Hs as [Hx Hb]. apply withS_matches; assumption.
    Qed.
  End Constructs.

  Lemma stmt_matches : forall f cur inl s st, supp inl s = true ->
    matches inl (ps_stmt h no_dev f cur s st) (py_stmt h f cur s st).
  Proof.
    induction f as [|f IH]; intros cur inl s st Hs; [constructor|]. exact (step_matches _ _ IH _ cur inl s st Hs).
  Qed.

  Lemma stmt_agree f cur inl s st : supp inl s = true -> cv (ps_stmt h no_dev f cur s st) = py_stmt h f cur s st.
  Proof. intros Hs. exact (matches_cv _ _ _ (stmt_matches f cur inl s st Hs)). Qed.

  Lemma py_stmt_safe f cur s st : supp false s = true -> is_jump (snd (py_stmt h f cur s st)) = false.
  Proof. intros Hs. exact (matches_safe _ _ (stmt_matches f cur false s st Hs)). Qed.

  Theorem flow_equiv : forall cfg body, all_off cfg -> supported body = true ->
    forall fuel h0, ps_exec h cfg fuel body h0 = py_exec h fuel body h0.
  Proof.
    intros cfg body -> Hb fuel h0. unfold ps_exec, py_exec.
    rewrite (func_block_agree _ _ (stmt_matches fuel) None) by exact Hb. reflexivity.
  Qed.
End Equiv.

(* class id -> itself and its ancestors.  0-5 are Flow.v's cls_* (BaseException, Exception, RuntimeError,
   AssertionError, KeyError, SyntaxError); the harness' script classes are 6 = EA, 7 = EB (a subclass of EA), 8 = EC,
   9 = BX (derives from BaseException only); 10 = KeyboardInterrupt. *)
Definition w_classes : cls_table :=
  [(0, [0]); (1, [0; 1]); (2, [0; 1; 2]); (3, [0; 1; 3]); (4, [0; 1; 4]); (5, [0; 1; 5]);
   (6, [0; 1; 6]); (7, [0; 1; 6; 7]); (8, [0; 1; 8]); (9, [0; 9]); (10, [0; 10])]%N.
Definition only_d8 := {| d8_else_drops_jump := true; d9_with_flat := false; d10_base_uncaught := false;
                         d200_unbind_keyerror := false; d201_enter_in_try := false; d202_asyncfor_sync := false |}.
Definition only_d9 := {| d8_else_drops_jump := false; d9_with_flat := true; d10_base_uncaught := false;
                         d200_unbind_keyerror := false; d201_enter_in_try := false; d202_asyncfor_sync := false |}.
Definition only_d10 := {| d8_else_drops_jump := false; d9_with_flat := false; d10_base_uncaught := true;
                          d200_unbind_keyerror := false; d201_enter_in_try := false; d202_asyncfor_sync := false |}.
Definition only_d200 := {| d8_else_drops_jump := false; d9_with_flat := false; d10_base_uncaught := false;
                           d200_unbind_keyerror := true; d201_enter_in_try := false; d202_asyncfor_sync := false |}.
Definition only_d201 := {| d8_else_drops_jump := false; d9_with_flat := false; d10_base_uncaught := false;
                           d200_unbind_keyerror := false; d201_enter_in_try := true; d202_asyncfor_sync := false |}.
Definition only_d202 := {| d8_else_drops_jump := false; d9_with_flat := false; d10_base_uncaught := false;
                           d200_unbind_keyerror := false; d201_enter_in_try := false; d202_asyncfor_sync := true |}.

(* for i: t1; (for j: t2; else: t3; continue; t4); t5 *)
Definition w_d8_body : list stmt :=
  [SFor FSync 1 [STrace 1; SFor FSync 2 [STrace 2] [STrace 3; SContinue; STrace 4]; STrace 5] []; STrace 6]%N.
Definition w_d8_scripts : scripts := [(1, [1; 1]); (2, [1])]%N.
(* with M(1), M(2 suppresses): t1; raise EA *)
Definition w_d9_body : list stmt := [SWith false [1; 2] [STrace 1; SRaise 6 None]; STrace 2]%N.
Definition w_d9_mgrs : mgr_table := [(1, (None, XRet false)); (2, (None, XRet true))]%N.
(* try: t1; raise BX  except BaseException: t2 *)
Definition w_d10_body : list stmt := [STry [STrace 1; SRaise 9 None] [(MCls [0], None, [STrace 2])] [] []; STrace 3]%N.
(* try: raise EA except EA as e1: (try: raise EB except EB as e1: t1); probe e1 *)
Definition w_d200_body : list stmt :=
  [STry [SRaise 6 None]
        [(MCls [6], Some 1, [STry [SRaise 7 None] [(MCls [7], Some 1, [STrace 1])] [] []; SProbe 1 1])] [] [];
   STrace 2; SReturn (Some 5)]%N.
(* with M(1: __enter__ raises EA, __exit__ returns True): t1 *)
Definition w_d201_body : list stmt := [SWith false [1] [STrace 1]; STrace 2]%N.
Definition w_d201_mgrs : mgr_table := [(1, (Some (exc_of 6), XRet true))]%N.

(* async for _ in AIt(1): t1   (AIt: a proper asynchronous iterator) *)
Definition w_d202_body : list stmt := [SFor FAsyncOnly 1 [STrace 1] []; STrace 2]%N.
Definition w_d202_scripts : scripts := [(1, [1])]%N.

Definition differs (cfg : deviations) (sc : scripts) (mg : mgr_table) (body : list stmt) : Prop :=
  supported body = true /\
  ps_exec (chost sc mg [] w_classes) cfg 20 body sc <> py_exec (chost sc mg [] w_classes) 20 body sc.

Lemma refuted_D8 : differs only_d8 w_d8_scripts [] w_d8_body.
Proof. split; [reflexivity|]. vm_compute. discriminate. Qed.
Lemma refuted_D9 : differs only_d9 [] w_d9_mgrs w_d9_body.
Proof. split; [reflexivity|]. vm_compute. discriminate. Qed.
Lemma refuted_D10 : differs only_d10 [] [] w_d10_body.
Proof. split; [reflexivity|]. vm_compute. discriminate. Qed.
Lemma refuted_D200 : differs only_d200 [] [] w_d200_body.
Proof. split; [reflexivity|]. vm_compute. discriminate. Qed.
Lemma refuted_D201 : differs only_d201 [] w_d201_mgrs w_d201_body.
Proof. split; [reflexivity|]. vm_compute. discriminate. Qed.
Lemma refuted_D202 : differs only_d202 w_d202_scripts [] w_d202_body.
Proof. split; [reflexivity|]. vm_compute. discriminate. Qed.

(* the reference's run is CPython's result in the finding *)
Example py_d8 : py_exec (chost w_d8_scripts [] [] w_classes) 20 w_d8_body w_d8_scripts =
  ([EvIter 1; EvN 1 true; EvT 1; EvIter 2; EvN 2 true; EvT 2; EvN 2 false; EvT 3;
    EvN 1 true; EvT 1; EvIter 2; EvN 2 true; EvT 2; EvN 2 false; EvT 3; EvN 1 false; EvT 6]%N, CRet None).
Proof. vm_compute. reflexivity. Qed.
Example ps_d8 : ps_exec (chost w_d8_scripts [] [] w_classes) only_d8 20 w_d8_body w_d8_scripts =
  ([EvIter 1; EvN 1 true; EvT 1; EvIter 2; EvN 2 true; EvT 2; EvN 2 false; EvT 3; EvT 4; EvT 5;
    EvN 1 true; EvT 1; EvIter 2; EvN 2 true; EvT 2; EvN 2 false; EvT 3; EvT 4; EvT 5; EvN 1 false; EvT 6]%N, CRet None).
Proof. vm_compute. reflexivity. Qed.

(* an assert's message is evaluated only when the test is false: the passing assert leaves no EvMsg, nor the exception
   its message would raise *)
Definition w_assert_body : list stmt := [SAssert 1 (Some 2); STrace 1; SAssert 3 (Some 4); STrace 2]%N.
Example py_assert_msg :
  py_exec (chost [(1, [1]); (3, [0])]%N [] [(2, Some (exc_of 8)); (4, None)]%N w_classes) 20 w_assert_body [(1, [1]); (3, [0])]%N =
  ([EvC 1 true; EvT 1; EvC 3 false; EvMsg 4]%N, CExc (exc_of cls_AssertionError)).
Proof. vm_compute. reflexivity. Qed.

(* a return pending across a finally clause survives a function call (with its own return) made by that clause,
   and across a script-defined __exit__ that returns *)
Example py_pending_return :
  py_exec (chost [] [] [] w_classes) 20
          [SWithS false 2 [SReturn (Some 0)] [STry [SReturn (Some 5)] [] [] [SFunc false 1 [SReturn (Some 7)]]]]%N [] =
  ([EvEnter 2; EvRet 1 (Some 7); EvExit 2 None]%N, CRet (Some 5)%N).
Proof. vm_compute. reflexivity. Qed.
(* the same try statement executed twice: the scripted host binds HC1 to class 6 the first time (script value 7,
   less one), which the raised class 7 derives from, and to class 8 after sw(1), which it does not *)
Example py_rebound_handler_class :
  py_exec (chost [(1, [7; 9]); (2, [1; 1])]%N [] [] w_classes) 20
          [SFor FSync 2 [STry [SRaise 7 None] [(MVar [] 1, None, [STrace 1])] [] []; SSwitch 1] []]%N [(1, [7; 9]); (2, [1; 1])]%N =
  ([EvIter 2; EvN 2 true; EvT 1; EvSw 1; EvN 2 true]%N, CExc (exc_of 7)).
Proof. vm_compute. reflexivity. Qed.

(* flow_equiv's hypotheses are inhabited: every construct, nested *)
Definition ex_body : list stmt :=
  [STrace 1;
   SFor FSync 1 [STry [SWith false [1; 2] [SIf 2 [SBreak] [SContinue]]]
                [(MCls [6; 8], Some 1, [SProbe 3 1; SReraise]); (MAny, None, [SReturn (Some 3)])]
                [SWhile 4 [SAssert 5 None; SAssert 7 (Some 8)] [SBreak]]
                [STrace 2; SFunc false 6 [SRaise 7 (Some 8)]; SSwitch 9;
                 SWithS false 10 [SReraise; SReturn (Some 1)] [STry [SRaise 7 None] [(MVar [8] 9, None, [SContinue])] [] []]]]
          [SPass];
   SReturn None]%N.
Example ex_supported : supported ex_body = true.
Proof. reflexivity. Qed.
Example ex_all_off : all_off no_dev.
Proof. reflexivity. Qed.

Lemma exc_eqb_eq a b : exc_eqb a b = true <-> a = b.
Proof.
  destruct a as [c1 k1], b as [c2 k2]; unfold exc_eqb; cbn [x_cls x_cause].
  rewrite andb_true_iff, N.eqb_eq, (option_eqb_eq _ N.eqb_eq). intuition congruence.
Qed.

Lemma event_eqb_eq a b : event_eqb a b = true <-> a = b.
Proof.
  destruct a, b; cbn [event_eqb]; try (split; discriminate); unfold oexc_eqb, oN_eqb;
    rewrite ?andb_true_iff, ?N.eqb_eq, ?eqb_true_iff, ?(option_eqb_eq _ exc_eqb_eq), ?(option_eqb_eq _ N.eqb_eq);
    intuition congruence.
Qed.

Lemma cres_eqb_eq a b : cres_eqb a b = true <-> a = b.
Proof.
  destruct a, b; cbn [cres_eqb]; unfold oN_eqb; rewrite ?exc_eqb_eq, ?(option_eqb_eq _ N.eqb_eq); split; congruence.
Qed.

Lemma run_eqb_eq r o : run_eqb r o = true <-> r = (o_log o, o_res o).
Proof.
  destruct r as [l c]. unfold run_eqb; cbn [fst snd].
  rewrite andb_true_iff, (list_eqb_eq event_eqb event_eqb_eq), cres_eqb_eq. intuition congruence.
Qed.

(* both observations equal the one run that the two evaluators share *)
Lemma model_implies_spec : forall ct c, fcase_model_ok no_dev ct c = true -> fcase_spec_ok c = true.
Proof.
  intros ct c Hm. unfold fcase_model_ok in Hm. rewrite !andb_true_iff, !run_eqb_eq in Hm. destruct Hm as [[Hs Hp] Hy].
  change (run_eqb (o_log (fc_ps c), o_res (fc_ps c)) (py_obs c) = true). apply run_eqb_eq.
  rewrite <- Hp, <- Hy. exact (flow_equiv _ no_dev _ eq_refl Hs _ _).
Qed.
