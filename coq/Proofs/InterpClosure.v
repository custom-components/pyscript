(* A strict run of pyscript's closure layout (symbol tables, cells captured by searching the run-time table stack, cells
   shared at call time) that does not stop with an anomaly is, step for step, the run of the reference (flat lexical
   closures, static name classification).  The strict policy [ps_policy cfg true false] stops with [Anomaly] where the
   layouts part.  The run is generic in a [policy] of four operations: two policies that [agrees] relates run every
   program alike ([sim], [sim_run]).  After [closure_equiv]: [locals_bridge] to InterpScope.v, two worked programs, the
   programs of D300-D303. *)
From Coq Require Import String ZArith.
From PV Require Import Common.Util Interp.Scope Interp.Closure Proofs.InterpScope.

(* module level has no frame *)
Definition on_frame (ok : frame -> Prop) (fr : option frame) : Prop :=
  match fr with Some f => ok f | None => True end.

Definition upto {A} (l r : outcome A) : Prop := match l with Anomaly _ => True | _ => r = l end.

Lemma upto_refl {A} (o : outcome A) : upto o o.
Proof. destruct o; reflexivity. Qed.

Lemma upto_exact {A} (l r : outcome A) : upto l r -> (forall k, l <> Anomaly k) -> r = l.
Proof. destruct l as [| | |k]; intros H N; [exact H..|destruct (N k eq_refl)]. Qed.

Lemma upto_bind {A B} (l r : outcome A) (kl kr : A -> state -> outcome B) :
  upto l r -> (forall a st, upto (kl a st) (kr a st)) ->
  upto match l with Ok a st => kl a st | Err e => Err e | Fuel => Fuel | Anomaly k => Anomaly k end
       match r with Ok a st => kr a st | Err e => Err e | Fuel => Fuel | Anomaly k => Anomaly k end.
Proof.
  intros H K. destruct l as [a st|e| |k]; cbn in H; [rewrite H; apply K|rewrite H; reflexivity|rewrite H; reflexivity|exact I].
Qed.

(* [ok]: an invariant of frames that call entry establishes *)
Record agrees (L R : policy) (ok : frame -> Prop) : Prop := {
  lookup_ok : forall fr st x, on_frame ok fr ->
    match p_lookup L fr st x with LkAnom _ => True | r => p_lookup R fr st x = r end;
  assign_ok : forall fr st x v st', on_frame ok fr -> p_assign L fr st x v = Some st' -> p_assign R fr st x v = Some st';
  capture_ok : forall stack fr d st,
    match p_capture L stack fr d st with CapAnom _ => True | r => p_capture R stack fr d st = r end;
  enter_ok : forall d cap args st,
    match p_enter L d cap args st with
    | EntOk fr' st' => p_enter R d cap args st = EntOk fr' st' /\ ok fr'
    | EntErr => p_enter R d cap args st = EntErr
    | EntAnom _ => True
    end
}.

Section Skeleton.
Variables (L R : policy) (ok : frame -> Prop).
Hypothesis A : agrees L R ok.

Lemma sim : forall fuel,
  (forall stack fr e st, on_frame ok fr -> upto (ev L fuel stack fr e st) (ev R fuel stack fr e st))
  /\ (forall stack fr es st, on_frame ok fr -> upto (ev_args L fuel stack fr es st) (ev_args R fuel stack fr es st))
  /\ (forall stack fr ss st, on_frame ok fr -> upto (ex L fuel stack fr ss st) (ex R fuel stack fr ss st)).
Proof.
  induction fuel as [|n (IHe & IHa & IHx)]; [repeat split; reflexivity|].
  assert (Assign : forall stack fr x v r st, on_frame ok fr ->
    upto match p_assign L fr st x v with Some st' => ex L n stack fr r st' | None => Anomaly 0 end
         match p_assign R fr st x v with Some st' => ex R n stack fr r st' | None => Anomaly 0 end).
  { intros stack fr x v r st Hok. destruct (p_assign L fr st x v) as [st'|] eqn:Ea; [|exact I].
    rewrite (assign_ok _ _ _ A _ _ _ _ _ Hok Ea). apply IHx. exact Hok. }
  split; [|split].
  - intros stack fr e st Hok. destruct e as [z|x|a b|a|c a b|f args]; simpl.
    + (* EConst *) reflexivity.
    + (* EVar *) pose proof (lookup_ok _ _ _ A fr st x Hok) as Hl. destruct (p_lookup L fr st x); try rewrite Hl; reflexivity.
    + (* EAdd *) apply upto_bind; [apply IHe, Hok|intros va st1]. apply upto_bind; [apply IHe, Hok|intros vb st2]. apply upto_refl.
    + (* ETr *) apply upto_bind; [apply IHe, Hok|intros v st1]. reflexivity.
    + (* EIfPos *) apply upto_bind; [apply IHe, Hok|intros vc st1]. destruct vc; try reflexivity. destruct (0 <? z)%Z; apply IHe, Hok.
    + (* ECall: the body runs in the frame that [p_enter] made, which satisfies [ok] *)
      apply upto_bind; [apply IHe, Hok|intros vf st1]. apply upto_bind; [apply IHa, Hok|intros vs st2].
      destruct vf as [| |d cap|b]; try apply upto_refl.
      pose proof (enter_ok _ _ _ A d cap vs st2) as He. destruct (p_enter L d cap vs st2) as [fr' st3| |]; [|rewrite He; reflexivity|exact I].
      destruct He as [He Hok']. rewrite He.
      apply (upto_bind _ _ (fun r st4 => match r with Some v => Ok v st4 | None => Ok VNone st4 end)
                           (fun r st4 => match r with Some v => Ok v st4 | None => Ok VNone st4 end));
        [apply IHx, Hok'|intros; apply upto_refl].
  - intros stack fr es st Hok. destruct es as [|e r]; simpl; [reflexivity|].
    apply upto_bind; [apply IHe, Hok|intros v st1]. apply upto_bind; [apply IHa, Hok|intros vs st2]. reflexivity.
  - intros stack fr ss st Hok. destruct ss as [|[x e|e|e|d|w body] r]; simpl.
    + reflexivity.
    + (* SAssign *) apply upto_bind; [apply IHe, Hok|intros v st1]. apply Assign, Hok.
    + (* SExpr *) apply upto_bind; [apply IHe, Hok|intros v st1]. apply IHx, Hok.
    + (* SReturn *) apply upto_bind; [apply IHe, Hok|intros v st1]. reflexivity.
    + (* SDef *)
      pose proof (capture_ok _ _ _ A stack fr d st) as Hc. destruct (p_capture L stack fr d st); try rewrite Hc; try reflexivity.
      apply Assign, Hok.
    + (* SWrap *) destruct w; apply IHx, Hok.
Qed.

Theorem sim_run fuel prog : upto (run_module L fuel prog) (run_module R fuel prog).
Proof. exact (proj2 (proj2 (sim fuel)) [] None prog empty_state I). Qed.
End Skeleton.

Lemma assoc_app {A} x (a b : list (ident * A)) :
  assoc x (a ++ b) = match assoc x a with Some v => Some v | None => assoc x b end.
Proof. induction a as [|[k v] r IH]; cbn; [reflexivity|]. destruct (String.eqb x k); [reflexivity|apply IH]. Qed.

Lemma assoc_keys {A} x (l : list (ident * A)) : is_some_b (assoc x l) = smem x (map fst l).
Proof.
  induction l as [|[k v] r IH]; cbn; [reflexivity|]. unfold smem in *. cbn. destruct (String.eqb x k); [reflexivity|apply IH].
Qed.

Lemma smem_own_names x d locals : smem x (own_names d locals) = smem x (d_params d) || smem x locals.
Proof.
  unfold own_names. rewrite smem_app, smem_filter. destruct (smem x (d_params d)); cbn; [reflexivity|]. apply andb_true_r.
Qed.

Lemma alloc_keys names : forall vals store, map fst (fst (alloc names vals store)) = names.
Proof.
  induction names as [|x r IH]; intros vals store; cbn [alloc]; [reflexivity|].
  specialize (IH (tl vals) (store ++ [match vals with v :: _ => Some v | [] => None end])).
  destruct (alloc r (tl vals) _) as [slots store']. cbn in *. rewrite IH. reflexivity.
Qed.

Section Agree.
Variable cfg : sdeviations.

(* what call entry leaves true of its frame, name by name: the own slots are those [alloc] makes ([alloc_keys]); the rest
   is what the two strict checks of [ps_enter] ([def_consistent], every nonlocal captured) say of the name *)
Definition frame_ok (f : frame) : Prop := forall x,
  let d := fr_def f in
  let own := is_some_b (assoc x (fr_own f)) in
  own = smem x (d_params d) || smem x (py_locals_list d)
  /\ (own = true -> smem x (ps_raw_locals cfg d) = true)
  /\ (smem x (ps_raw_locals cfg d) = true -> smem x (d_globals d) || smem x (d_nonlocals d) || own = true)
  /\ (smem x (d_globals d) || smem x (d_nonlocals d) = true -> own = false)
  /\ (smem x (d_nonlocals d) = true -> is_some_b (assoc x (fr_cap f)) = true).

Lemma consistent_parts d : def_consistent cfg d = true ->
  ps_locals_list cfg d = py_locals_list d
  /\ (forall x, smem x (ps_raw_locals cfg d) = true ->
        smem x (d_globals d) || smem x (d_nonlocals d) || smem x (own_names d (py_locals_list d)) = true)
  /\ (forall x, smem x (d_globals d ++ d_nonlocals d) = true -> smem x (own_names d (py_locals_list d)) = false).
Proof.
  unfold def_consistent. rewrite !andb_true_iff. intros [[H1 H2] H3]. split; [apply (list_eqb_eq String.eqb String.eqb_eq), H1|]. split.
  - intros x Hx. rewrite forallb_forall in H2. apply smem_In in Hx. apply H2. assumption.
  - intros x Hx. rewrite forallb_forall in H3. apply smem_In in Hx. specialize (H3 x Hx). apply negb_true_iff in H3. assumption.
Qed.

Lemma capture_one_agree stack fr d st x :
  match ps_capture_one cfg true false stack fr d st x with
  | CrCell a => py_capture_one fr d x = Some a
  | CrSkip => py_capture_one fr d x = None /\ smem x (d_nonlocals d) = false
  | CrSyntaxErr => py_capture_one fr d x = None /\ smem x (d_nonlocals d) = true
  | CrAnom _ => True
  end.
Proof.
  unfold ps_capture_one, py_capture_one. cbn [negb]. fold (is_local_py d x).
  destruct (Bool.eqb (is_local_ps cfg d x) (is_local_py d x)) eqn:El; cbn [negb]; [|exact I].
  apply eqb_prop in El. rewrite <- El.
  destruct (match fr with Some f => negb (has_closure (fr_def f)) | None => false end) eqn:Ehc; [exact I|].
  set (here := match fr with Some f => assoc x (fr_own f ++ fr_cap f) | None => None end).
  (* every entry of the defining table is a cell, so the search finds [here] first *)
  assert (Hfind : find_cell (match fr with Some f => f :: stack | None => stack end) x
                  = match here with Some a => Some a | None => find_cell stack x end).
  { subst here. destruct fr as [f|]; [|reflexivity]. cbn [find_cell].
    apply negb_false_iff in Ehc. unfold slot_is_cell. rewrite Ehc. destruct (assoc x (fr_own f ++ fr_cap f)); reflexivity. }
  assert (NV : smem x (d_nonlocals d) = true -> smem x (vn_ps d) = true).
  { intros H. unfold vn_ps. rewrite !smem_app, H, !orb_true_r. reflexivity. }
  unfold ps_capture_core. rewrite Hfind.
  destruct (smem x (d_globals d)); [|destruct (is_local_ps cfg d x)]; cbn [negb andb].
  - (* declared global: the reference captures nothing; pyscript skips the name, or stops when it is nonlocal as well *)
    rewrite andb_false_r. destruct (smem x (vn_ps d)); cbn [negb]; (destruct (smem x (d_nonlocals d)); [exact I|split; reflexivity]).
  - (* an own local: the same *)
    rewrite andb_false_r. destruct (smem x (vn_ps d)); cbn [negb]; (destruct (smem x (d_nonlocals d)); [exact I|split; reflexivity]).
  - rewrite !andb_true_r. destruct here as [a|]; cbn [is_some_b negb andb].
    + (* visible where the def executes: captured iff used *)
      destruct (Bool.eqb (smem x (vn_ps d)) (smem x (uses_py d))) eqn:VU; cbn [negb]; [|exact I].
      apply eqb_prop in VU. rewrite <- VU. destruct (smem x (vn_ps d)); cbn [negb andb]; [reflexivity|].
      destruct (smem x (d_nonlocals d)); [discriminate (NV eq_refl)|]. split; reflexivity.
    + (* not visible there: pyscript stops if the stack search finds it; otherwise the name is skipped or, being declared
         nonlocal, is an error for both *)
      replace (if smem x (uses_py d) then None else None) with (@None nat) by (destruct (smem x (uses_py d)); reflexivity).
      destruct (smem x (vn_ps d)); cbn [negb andb].
      * destruct (find_cell stack x); cbn [is_some_b]; [exact I|]. destruct (smem x (d_nonlocals d)); [|split; reflexivity].
        destruct (ps_lookup cfg true fr st x); try exact I; split; reflexivity.
      * destruct (smem x (d_nonlocals d)); [discriminate (NV eq_refl)|]. split; reflexivity.
Qed.

Lemma capture_list_agree stack fr d st xs :
  match ps_capture_list cfg true false stack fr d st xs with
  | CapOk cap => py_capture_list fr d xs = Some cap
  | CapErr => py_capture_list fr d xs = None
  | CapAnom _ => True
  end.
Proof.
  induction xs as [|x r IH]; cbn [ps_capture_list py_capture_list]; [reflexivity|].
  pose proof (capture_one_agree stack fr d st x) as H1.
  destruct (ps_capture_one cfg true false stack fr d st x) as [| a | | k].
  - destruct H1 as [H1 H2]. rewrite H1, H2. exact IH.
  - rewrite H1. destruct (ps_capture_list cfg true false stack fr d st r); [rewrite IH; reflexivity|rewrite IH; reflexivity|exact I].
  - destruct H1 as [H1 H2]. rewrite H1, H2. reflexivity.
  - exact I.
Qed.

Lemma share_strict cap : forall st cap' st', ps_share true cap st = Some (cap', st') -> cap' = cap /\ st' = st.
Proof.
  induction cap as [|[x a] r IH]; intros st cap' st' H; cbn [ps_share] in H.
  - inversion H. split; reflexivity.
  - destruct (cell_get st a); [|discriminate].
    destruct (ps_share true r st) as [[l s]|] eqn:E; [|discriminate]. inversion H; subst.
    destruct (IH _ _ _ E) as [-> ->]. split; reflexivity.
Qed.

Lemma strict_agrees : agrees (ps_policy cfg true false) py_policy frame_ok.
Proof.
  split; cbn [p_lookup p_assign p_capture p_enter ps_policy py_policy].
  - (* lookup_ok, in the order of [ps_lookup]: declared global, own slot, captured cell, then the global table and the
       builtins *)
    intros fr st x.
    destruct fr as [f|].
    + intros Hok. destruct (Hok x) as (K & Raw & Decl & NoOwn & Cap).
      unfold ps_lookup, py_lookup, lk_global, lk_builtin, lk_cell.
      destruct (smem x (d_globals (fr_def f))) eqn:Eg.
      { destruct (assoc x (st_globals st)) as [v|]; [reflexivity|]. cbn [andb]. destruct (smem x builtin_names); [exact I|reflexivity]. }
      rewrite assoc_app, (orb_comm (smem x (py_locals_list (fr_def f)))), <- K.
      destruct (assoc x (fr_own f)) as [a|]; cbn [is_some_b] in *.
      { destruct (cell_get st a); [reflexivity|]. destruct (slot_is_cell f x); [reflexivity|]. rewrite (Raw eq_refl).
        destruct (assoc x (st_globals st)) as [v|]; [reflexivity|]. destruct (smem x builtin_names); [exact I|reflexivity]. }
      destruct (assoc x (fr_cap f)) as [a|] eqn:Ec.
      { unfold slot_is_cell. rewrite Ec. cbn [is_some_b]. rewrite orb_true_r. destruct (cell_get st a); reflexivity. }
      destruct (assoc x (st_globals st)) as [v|]; [|destruct (smem x builtin_names); reflexivity].
      (* neither own nor captured, so not listed by the static pass either *)
      destruct (smem x (ps_raw_locals cfg (fr_def f))); [|reflexivity].
      specialize (Decl eq_refl). rewrite orb_false_r in Decl. cbn [orb] in Decl. discriminate (Cap Decl).
    + intros _. cbn [ps_lookup py_lookup]. unfold lk_global, lk_builtin.
      destruct (assoc x (st_globals st)); [reflexivity|]. destruct (smem x builtin_names); reflexivity.
  - (* assign_ok *) intros fr st x v st'.
    destruct fr as [f|]; [|intros _ H; exact H]. intros Hok. destruct (Hok x) as (_ & _ & _ & NoOwn & _).
    unfold ps_assign, py_assign.
    destruct (smem x (d_globals (fr_def f))); [intros H; exact H|]. cbn [andb orb] in *. rewrite assoc_app.
    destruct (smem x (d_nonlocals (fr_def f))); cbn [negb andb].
    + specialize (NoOwn eq_refl). destruct (assoc x (fr_own f)); [discriminate|]. intros H; exact H.
    + destruct (assoc x (fr_own f)); [intros H; exact H|discriminate].
  - (* capture_ok *) intros stack fr d st.
    unfold ps_capture, py_capture.
    pose proof (capture_list_agree stack fr d st (cand d)) as H.
    destruct (ps_capture_list cfg true false stack fr d st (cand d)); [rewrite H; reflexivity|rewrite H; reflexivity|exact I].
  - (* enter_ok: past the strict checks both allocate the same slots *)
    intros d cap args st.
    unfold ps_enter, py_enter.
    destruct (negb (length args =? length (d_params d))%nat); [reflexivity|]. cbn [andb].
    destruct (def_consistent cfg d) eqn:Hc; cbn [negb]; [|exact I].
    destruct (forallb (fun x => is_some_b (assoc x cap)) (d_nonlocals d)) eqn:Hn; cbn [negb]; [|exact I].
    destruct (consistent_parts _ Hc) as (P1 & P2 & P3). rewrite P1. fold (own_names d (py_locals_list d)).
    pose proof (alloc_keys (own_names d (py_locals_list d)) args (st_store st)) as Hk.
    destruct (alloc (own_names d (py_locals_list d)) args (st_store st)) as [own store'] eqn:Ea. cbn [fst] in Hk.
    destruct (ps_share true cap _) as [[cap' st2]|] eqn:Es; [|exact I].
    destruct (share_strict _ _ _ _ Es) as [-> ->]. split; [reflexivity|].
    (* the new frame is ok *)
    intros x. cbv zeta. cbn [fr_def fr_own fr_cap]. rewrite assoc_keys, Hk.
    split; [apply smem_own_names|]. split; [|split; [apply P2|split]].
    + rewrite smem_own_names. unfold ps_raw_locals. rewrite smem_app. intros H. apply orb_true_iff in H as [->|H]; [reflexivity|].
      rewrite <- P1 in H. unfold ps_locals_list in H. rewrite smem_filter in H. unfold ps_is_local in H.
      rewrite !andb_true_iff in H. apply H.
    + intros H. apply P3. rewrite smem_app. exact H.
    + intros H. rewrite forallb_forall in Hn. apply Hn, smem_In, H.
Qed.

End Agree.

Theorem closure_equiv cfg fuel prog :
  (forall k, ps_run cfg true false fuel prog <> Anomaly k) -> py_run fuel prog = ps_run cfg true false fuel prog.
Proof.
  apply upto_exact, (sim_run _ _ _ (strict_agrees cfg)).
Qed.

(* observed: tracer log, result / exception class, final global table *)
Corollary closure_equiv_observed cfg fuel prog :
  (forall k, ps_run cfg true false fuel prog <> Anomaly k) ->
  observe (py_run fuel prog) = observe (ps_run cfg true false fuel prog).
Proof. intros H. rewrite (closure_equiv cfg fuel prog H). reflexivity. Qed.

Lemma observed_ok_equiv cfg fuel prog tr gl :
  observe (ps_run cfg true false fuel prog) = ObsOk tr gl ->
  observe (py_run fuel prog) = observe (ps_run cfg true false fuel prog).
Proof. intros E. apply closure_equiv_observed. intros k Hk. rewrite Hk in E. discriminate. Qed.

(* the static pass of both policies is that of InterpScope.v *)
Lemma locals_bridge cfg d :
  s_all_off cfg -> forallb wf_top (nodes_of d) = true -> forallb supported (nodes_of d) = true ->
  ps_locals_list cfg d = py_locals_list d.
Proof.
  intros Hoff Hwf Hsup. apply filter_ext. intros x. apply locals_equiv; assumption.
Qed.

Local Open Scope string_scope.
Local Open Scope Z_scope.
Definition v (x : ident) := EVar x.
Definition call0 (f : ident) := ECall (EVar f) [].
(*  g = 0
    def mk(p):  # counter factory: inc and get share the cell of a; g is written through `global`
        a = p
        def inc():
            global g
            nonlocal a
            a = a + 1;  g = g + 1;  return a
        def get():
            return a
        def deep():  # nonlocal two levels up, through a function that only reads a
            def bump():
                nonlocal a
                a = a + 10;  return a
            b = a
            return bump()
        def sum(p):  # recursion through the captured cell of `sum`
            return (p + sum(p + -1)) if p > 0 else 0
        tr(inc()); tr(get()); tr(deep()); tr(sum(3))
        return inc
    c = mk(5);  tr(c());  tr(c());  d = mk(0);  tr(d());  tr(c())  *)
Definition example_prog : list stmt :=
  [SAssign "g" (EConst 0);
   SDef (FDef "mk" ["p"] [] []
     [SAssign "a" (v "p");
      SDef (FDef "inc" [] ["g"] ["a"]
        [SAssign "a" (EAdd (v "a") (EConst 1)); SAssign "g" (EAdd (v "g") (EConst 1)); SReturn (v "a")]);
      SDef (FDef "get" [] [] [] [SReturn (v "a")]);
      SDef (FDef "deep" [] [] []
        [SDef (FDef "bump" [] [] ["a"] [SAssign "a" (EAdd (v "a") (EConst 10)); SReturn (v "a")]);
         SAssign "b" (v "a");
         SReturn (call0 "bump")]);
      SDef (FDef "sum" ["p"] [] []
        [SReturn (EIfPos (v "p") (EAdd (v "p") (ECall (v "sum") [EAdd (v "p") (EConst (-1))])) (EConst 0))]);
      SExpr (ETr (call0 "inc")); SExpr (ETr (call0 "get")); SExpr (ETr (call0 "deep")); SExpr (ETr (ECall (v "sum") [EConst 3]));
      SReturn (v "inc")]);
   SAssign "c" (ECall (v "mk") [EConst 5]); SExpr (ETr (call0 "c")); SExpr (ETr (call0 "c"));
   SAssign "d" (ECall (v "mk") [EConst 0]); SExpr (ETr (call0 "d")); SExpr (ETr (call0 "c"))].

Example closure_instance :
  observe (ps_run sdev_off true false 100 example_prog)
  = ObsOk [Some 6; Some 6; Some 16; Some 6; Some 17; Some 18; Some 1; Some 1; Some 11; Some 6; Some 12; Some 19]
          [("g", OInt 6); ("mk", OFun); ("c", OFun); ("d", OFun)]
  /\ observe (py_run 100 example_prog) = observe (ps_run sdev_off true false 100 example_prog).
Proof.
  eassert (E : observe (ps_run sdev_off true false 100 example_prog) = _) by (vm_compute; reflexivity).
  exact (conj E (observed_ok_equiv _ _ _ _ _ E)).
Qed.

(* the only nested def of a function sits in an except handler and captures a parameter; globals named like builtins *)
Definition prog_wraps : list stmt :=
  [SAssign "abs" (EConst 7);
   SDef (FDef "F1" ["p"] [] []
     [SWrap WHandler [SDef (FDef "f2" [] [] [] [SReturn (EAdd (v "p") (v "abs"))])];
      SWrap WFor [SAssign "a" (ECall (v "max") [v "p"; call0 "f2"])];
      SReturn (ETr (v "a"))]);
   SAssign "k" (ECall (v "F1") [EConst 5])].
Example closure_wraps_instance :
  observe (ps_run sdev_off true false 50 prog_wraps) = ObsOk [Some 12] [("abs", OInt 7); ("F1", OFun); ("k", OInt 12)]
  /\ observe (py_run 50 prog_wraps) = observe (ps_run sdev_off true false 50 prog_wraps).
Proof.
  eassert (E : observe (ps_run sdev_off true false 50 prog_wraps) = _) by (vm_compute; reflexivity).
  exact (conj E (observed_ok_equiv _ _ _ _ _ E)).
Qed.

(* the check replays each witness below on the real code *)
(* g = 1; def F1(): def f2(): return tr(g) ...; def F3(): g = 7; def f4(): return g; return F1();  k = F3() *)
Definition prog_D300 : list stmt :=
  [SAssign "g" (EConst 1);
   SDef (FDef "F1" [] [] [] [SDef (FDef "f2" [] [] [] [SReturn (ETr (v "g"))]); SReturn (call0 "f2")]);
   SDef (FDef "F3" [] [] [] [SAssign "g" (EConst 7); SDef (FDef "f4" [] [] [] [SReturn (v "g")]); SReturn (call0 "F1")]);
   SAssign "k" (call0 "F3")].
Lemma closure_refuted_D300 :
  observe (ps_run sdev_off false false 50 prog_D300) <> observe (py_run 50 prog_D300)
  /\ ps_run sdev_off true false 50 prog_D300 = Anomaly 1.
Proof. split; vm_compute; [discriminate|reflexivity]. Qed.

(* def F1(): def f2(): nonlocal a; a = 5; return 0 ...; f2(); b = tr(a); a = 0; return b;  k = F1() *)
Definition prog_D301 : list stmt :=
  [SDef (FDef "F1" [] [] []
     [SDef (FDef "f2" [] [] ["a"] [SAssign "a" (EConst 5); SReturn (EConst 0)]);
      SExpr (call0 "f2"); SAssign "b" (ETr (v "a")); SAssign "a" (EConst 0); SReturn (v "b")]);
   SAssign "k" (call0 "F1")].
Lemma closure_refuted_D301 :
  observe (ps_run sdev_off false false 50 prog_D301) <> observe (py_run 50 prog_D301)
  /\ ps_run sdev_off true false 50 prog_D301 = Anomaly 2.
Proof. split; vm_compute; [discriminate|reflexivity]. Qed.

(* def F1(): global max; return max(1, 2) ...;  k = F1()   — a declared-global name that only the builtins define *)
Definition prog_D302 : list stmt :=
  [SDef (FDef "F1" [] ["max"] [] [SReturn (ECall (v "max") [EConst 1; EConst 2])]); SAssign "k" (call0 "F1")].
Lemma closure_refuted_D302 :
  observe (ps_run sdev_off false false 50 prog_D302) <> observe (py_run 50 prog_D302)
  /\ ps_run sdev_off true false 50 prog_D302 = Anomaly 4.
Proof. split; vm_compute; [discriminate|reflexivity]. Qed.

(* def F1(): b = tr(min); min = 1; return 0 ...;  k = F1()   — an unassigned local of a function without inner def, named like a builtin *)
Definition prog_D303 : list stmt :=
  [SDef (FDef "F1" [] [] [] [SAssign "b" (ETr (v "min")); SAssign "min" (EConst 1); SReturn (EConst 0)]); SAssign "k" (call0 "F1")].
Lemma closure_refuted_D303 :
  observe (ps_run sdev_off false false 50 prog_D303) <> observe (py_run 50 prog_D303)
  /\ ps_run sdev_off true false 50 prog_D303 = Anomaly 5.
Proof. split; vm_compute; [discriminate|reflexivity]. Qed.
