(* What the branches of timer_trigger_next share: [successor_of] and its minimum over several sets, [answers] (what every
   branch theorem says of its branch), the next multiple of an interval, [scan_successor] for the loops over year shifts and
   day offsets, and [inst_iff]: without sunrise/sunset an expression denotes the values of the model of parse_date_time over
   all day offsets and year shifts. *)
From Coq Require Import ZArith List Bool Lia.
From PV Require Import Common.Civil Proofs.Civil Time.DtExpr Time.Next Gen.TimeConsts.
Import ListNotations.
Local Open Scope Z_scope.

Lemma unit_table_documented : unit_scale_table = doc_scale_table.
Proof. reflexivity. Qed.

Lemma dither_lists : dither_undated = [-1; 0; 1] /\ dither_dated = [0].
Proof. split; reflexivity. Qed.

Lemma successor_some (D : Z -> Prop) now su t a :
  now < t \/ (t = now /\ now = su) -> D t -> (forall t', now < t' -> D t' -> t <= t') -> successor_of D now su (Some (t, a)).
Proof. intros H1 H2 H3. split; [exact H1|]. split; [exact H2|]. intros t' L1 L2 X. specialize (H3 t' L1 X). lia. Qed.

Lemma successor_min (D : Z -> Prop) now su t a t' : successor_of D now su (Some (t, a)) -> now < t' -> D t' -> t <= t'.
Proof.
  intros (_ & _ & H) L X. destruct (Z.le_gt_cases t t') as [LE|G]; [exact LE|]. exfalso. apply (H t'); [exact L|lia|exact X].
Qed.

Lemma successor_later (D : Z -> Prop) now su t a : now <> su -> successor_of D now su (Some (t, a)) -> now < t /\ D t.
Proof. intros NS ([G|(X & Y)] & H & _); [auto|congruence]. Qed.

Lemma successor_shift (D : Z -> Prop) now now' su t a :
  successor_of D now su (Some (t, a)) -> now <= now' -> now' < t -> successor_of D now' su (Some (t, a)).
Proof. intros (_ & H2 & H3) L1 L2. split; [left; exact L2|]. split; [exact H2|]. intros t' A B. apply H3; lia. Qed.

Lemma successor_ext (D1 D2 : Z -> Prop) now su r :
  (forall t, now <= t -> (D1 t <-> D2 t)) -> successor_of D1 now su r -> successor_of D2 now su r.
Proof.
  intros E. unfold successor_of. destruct r as [[t a]|].
  - intros (H1 & H2 & H3). split; [exact H1|]. split; [apply E; [lia|exact H2]|].
    intros t' L1 L2 X. apply (H3 t' L1 L2). apply E; [lia|exact X].
  - intros H t' L X. apply (H t' L). apply E; [lia|exact X].
Qed.

Lemma successor_upd (D1 D2 : Z -> Prop) now su acc c :
  successor_of D1 now su acc -> successor_of D2 now su c ->
  successor_of (fun t => D1 t \/ D2 t) now su (upd acc c).
Proof.
  unfold successor_of, upd.
  destruct c as [[t a]|]; destruct acc as [[t0 a0]|].
  - intros (H1 & H2 & H3) (G1 & G2 & G3).
    destruct (Z.ltb_spec t t0).
    + split; [exact G1|]. split; [right; exact G2|].
      intros t' L1 L2 [X|X]; [apply (H3 t'); [lia|lia|exact X]|apply (G3 t'); auto].
    + split; [exact H1|]. split; [left; exact H2|].
      intros t' L1 L2 [X|X]; [apply (H3 t'); auto|apply (G3 t'); [lia|lia|exact X]].
  - intros H (G1 & G2 & G3). split; [exact G1|]. split; [right; exact G2|].
    intros t' L1 L2 [X|X]; [apply (H t'); auto|apply (G3 t'); auto].
  - intros (H1 & H2 & H3) G. split; [exact H1|]. split; [left; exact H2|].
    intros t' L1 L2 [X|X]; [apply (H3 t'); auto|apply (G t'); auto].
  - intros H G t' L [X|X]; [apply (H t'); auto|apply (G t'); auto].
Qed.

(* the evaluation x returns, and what it returns is the successor in D; on [ROk r] this is [successor_of D now su r] by
   computation, so the lemmas on [successor_of] apply to such a goal or hypothesis as they are *)
Definition answers (x : res cand) (D : Z -> Prop) (now su : Z) : Prop :=
  match x with ROk r => successor_of D now su r | _ => False end.

Lemma answers_ext (D1 D2 : Z -> Prop) now su x :
  (forall t, now <= t -> (D1 t <-> D2 t)) -> answers x D1 now su -> answers x D2 now su.
Proof. intros E. destruct x as [r| |]; [apply successor_ext, E|easy..]. Qed.

Lemma answers_inv x D now su : answers x D now su -> exists r, x = ROk r /\ successor_of D now su r.
Proof. destruct x as [r| |]; [eauto|easy..]. Qed.

(* `if now < t or (now == t and now == startup_time)` *)
Lemma startup_cond now t su : (now <? t) || startup_eq now t su = true <-> now < t \/ (t = now /\ now = su).
Proof. unfold startup_eq. rewrite orb_true_iff, andb_true_iff, Z.ltb_lt, !Z.eqb_eq. lia. Qed.

Lemma fires_cases now t su :
  (fires now t su = Some (t, t) /\ (now < t \/ (t = now /\ now = su))) \/ (fires now t su = None /\ t <= now).
Proof.
  unfold fires. destruct ((now <? t) || startup_eq now t su) eqn:E.
  - left. split; [reflexivity|]. apply startup_cond, E.
  - right. split; [reflexivity|]. rewrite <- not_true_iff_false, startup_cond in E. lia.
Qed.

Lemma fires_point now T su : successor_of (fun t => t = T) now su (fires now T su).
Proof.
  destruct (fires_cases now T su) as [(-> & F)|(-> & F)].
  - apply successor_some; [exact F|reflexivity|]. intros t' _ ->. lia.
  - intros t' L ->. lia.
Qed.

(* every period(...) loop and the day retry of once(...) compute S + P * (1 + floor((now - S) / P)) *)
Lemma next_multiple_gt S P now : 0 < P -> now < S + P * ((now - S) / P + 1).
Proof. intros HP. pose proof (Z.mul_succ_div_gt (now - S) P HP). unfold Z.succ in *. lia. Qed.

Lemma next_multiple_min S P now k : 0 < P -> now < S + P * k -> S + P * ((now - S) / P + 1) <= S + P * k.
Proof.
  intros HP H. pose proof (Z.mul_div_le (now - S) P HP) as L.
  assert ((now - S) / P < k) as Hq by (apply (Z.mul_lt_mono_pos_l P); lia).
  apply Z.add_le_mono_l, Z.mul_le_mono_nonneg_l; lia.
Qed.

Lemma next_multiple_successor (D : Z -> Prop) S P now su : 0 < P -> (forall t, D t -> exists k, t = S + P * k) ->
  let this := S + P * ((now - S) / P + 1) in D this -> successor_of D now su (Some (this, this)).
Proof.
  intros HP Sub this H. apply successor_some; [left; apply next_multiple_gt, HP|exact H|].
  intros t' L X. destruct (Sub t' X) as (k & ->). apply next_multiple_min; assumption.
Qed.

Lemma grid_successor P now su (T : Z -> Z) : 0 < P -> (forall k, T k = T 0 + P * k) ->
  successor_of (fun t => exists k, t = T k) now su (fires now (T ((now - T 0) / P + 1)) su).
Proof.
  intros HP EK. rewrite EK. pose proof (next_multiple_gt (T 0) P now HP) as G.
  destruct (fires_cases now (T 0 + P * ((now - T 0) / P + 1)) su) as [(-> & _)|(_ & F)]; [|lia].
  apply next_multiple_successor; [exact HP|intros t (k & ->); exists k; apply EK|eexists; symmetry; apply EK].
Qed.

(* the loops of timer_trigger_next over year shifts and dither days: the first hit in list order *)
Fixpoint scan (step : Z -> cand) (xs : list Z) : cand :=
  match xs with
  | [] => None
  | x :: rest => match step x with Some c => Some c | None => scan step rest end
  end.

Fixpoint consecutive (a : Z) (l : list Z) : Prop :=
  match l with [] => True | x :: r => x = a /\ consecutive (a + 1) r end.

Theorem scan_successor (D : Z -> Z -> Prop) step now su :
  (forall x, successor_of (D x) now su (step x)) ->
  (forall x x' t t', x < x' -> D x t -> D x' t' -> t <= t') ->
  forall xs a, consecutive a xs ->
  (forall x t, x < a -> D x t -> t <= now) ->
  (exists x0 t0, In x0 xs /\ D x0 t0 /\ now < t0) ->
  successor_of (fun t => exists x, D x t) now su (scan step xs).
Proof.
  intros ST ORD. induction xs as [|x rest IH]; intros a C LO HI.
  - destruct HI as (_ & _ & [] & _).
  - destruct C as (-> & C). cbn [scan]. pose proof (ST a) as Sa. destruct (step a) as [[t b]|].
    + destruct Sa as (S1 & S2 & S3). apply successor_some; [exact S1|exists a; exact S2|].
      intros t' L (x & X). destruct (Z.lt_trichotomy x a) as [Lt|[->|Gt]].
      * specialize (LO x t' Lt X). lia.
      * exact (successor_min _ now su t b t' (conj S1 (conj S2 S3)) L X).
      * exact (ORD a x t t' Gt S2 X).
    + apply (IH (a + 1) C).
      * intros x t Lt X. destruct (Z.eq_dec x a) as [->|NE]; [|apply (LO x t); [lia|exact X]].
        destruct (Z.le_gt_cases t now) as [Le|G]; [exact Le|destruct (Sa t G X)].
      * destruct HI as (x0 & t0 & [<-|Hin] & X0 & L0); [destruct (Sa t0 L0 X0)|eauto].
Qed.

Section Denote.
  Variable scale : N -> Z.
  Variable sun : Z -> bool -> option Z.

  (* [date_day] and the time part of [denote_gen] as total functions on the fragment; [inst_val] is what parse_date_time
     returns for year shift ys and day offset k ([denote_gen_ok]) *)
  Definition day_val (d : dspec) (is_now : bool) (ys k now : Z) : Z :=
    let today := day_of now in
    match d with
    | DFull y m dd => days_from_civil y m dd
    | DMonthDay m dd => days_from_civil (year_of_day today + ys) m dd
    | DDow w => today + (if weekday_sun0 today <=? w then w - weekday_sun0 today else 7 + w - weekday_sun0 today)
    | DToday => today
    | DTomorrow => today + 1
    | DNone => today + (if is_now then 0 else k)
    end.

  Definition at_day (e : dtexpr) (su day : Z) : Z :=
    if uses_now e then su + off_us scale (de_off e) else midnight day + tod_off scale e.

  Definition inst_val (e : dtexpr) (ys k now su : Z) : Z := at_day e su (day_val (de_date e) (uses_now e) ys k now).

  Lemma expr_ok_inv e : expr_ok e = true -> no_sun e = true /\ date_ok (de_date e) = true /\ now_ok e = true.
  Proof. unfold expr_ok. rewrite !andb_true_iff. tauto. Qed.

  Lemma undated_inv e : fixed_date e = false -> de_date e = DNone /\ uses_now e = false /\ is_monthday e = false.
  Proof. unfold fixed_date, is_monthday. destruct (de_date e); try discriminate. auto. Qed.

  Lemma monthday_inv e : is_monthday e = true -> exists m dd, de_date e = DMonthDay m dd /\ fixed_date e = true.
  Proof. unfold is_monthday, fixed_date. destruct (de_date e); try discriminate. eauto. Qed.

  Lemma date_day_ok d is_now ys k now : date_ok d = true -> date_day d is_now ys k now = ROk (day_val d is_now ys k now).
  Proof.
    destruct d as [y m dd|m dd|w| | |]; cbn; intros H; try reflexivity.
    - (* DFull *) rewrite H. reflexivity.
    - (* DMonthDay: [date_ok] tests month and day in 2023, a common year *)
      rewrite (valid_date_common_year 2023 _ m dd eq_refl H). reflexivity.
  Qed.

  Lemma time_on_iff e su day t : no_sun e = true -> time_on scale sun e su day t <-> t = at_day e su day.
  Proof.
    unfold no_sun, time_on, at_day, uses_now, tod_off.
    destruct (de_time e); try discriminate (* sunrise, sunset *); intros _; split; intros H; lia.
  Qed.

  Lemma denote_gen_ok e ys k now su : expr_ok e = true ->
    denote_gen scale sun e ys k now su = ROk (inst_val e ys k now su, fixed_date e).
  Proof.
    intros OK. destruct (expr_ok_inv e OK) as (NS & DO & _).
    unfold denote_gen. rewrite (date_day_ok _ _ _ _ _ DO). cbn [rbind].
    unfold inst_val, at_day, uses_now, tod_off, no_sun in *.
    destruct (de_time e); try discriminate NS; try reflexivity; f_equal; f_equal; lia.
  Qed.

  Lemma denote_dt_ok e k now su : expr_ok e = true ->
    denote_dt scale sun e k now su = ROk (inst_val e 0 k now su, fixed_date e).
  Proof. apply denote_gen_ok. Qed.

  Lemma inst_val_undated e ys k now su : fixed_date e = false ->
    inst_val e ys k now su = midnight (day_of now + k) + tod_off scale e.
  Proof. intros UF. destruct (undated_inv e UF) as (Ed & Un & _). unfold inst_val, at_day. rewrite Ed, Un. reflexivity. Qed.

  Lemma inst_val_fixed e ys k k' now su : fixed_date e = true -> inst_val e ys k now su = inst_val e ys k' now su.
  Proof.
    unfold fixed_date, inst_val. destruct (de_date e); cbn [day_val]; [reflexivity..|]. intros ->. reflexivity.
  Qed.

  Lemma inst_val_year e ys k now su : is_monthday e = false -> inst_val e ys k now su = inst_val e 0 k now su.
  Proof. unfold is_monthday, inst_val. destruct (de_date e); try discriminate; reflexivity. Qed.

  Lemma inst_val_monthday e m dd ys k now su : de_date e = DMonthDay m dd -> now_ok e = true ->
    inst_val e ys k now su = midnight (days_from_civil (year_of_day (day_of now) + ys) m dd) + tod_off scale e.
  Proof.
    intros Ed NO. unfold inst_val, at_day, uses_now. unfold now_ok in NO. rewrite Ed in *.
    destruct (de_time e); try discriminate; reflexivity.
  Qed.

  Lemma day_denoted_iff d yearly now day : date_ok d = true ->
    day_denoted d yearly now day <-> exists ys k, day = day_val d false (if yearly then ys else 0) k now.
  Proof.
    intros OK.
    assert (forall V, day = V <-> exists ys k : Z, day = V) as C
      by (intros V; split; [intros ->; exists 0, 0; reflexivity|intros (_ & _ & ->); reflexivity]).
    destruct d as [y m dd|m dd|w| | |]; cbn [day_denoted day_val date_ok] in *; try apply C (* DToday, DTomorrow *).
    - (* DFull *) rewrite <- C. tauto.
    - (* DMonthDay: ys = y - this year *)
      split.
      + intros (y & _ & -> & Hy). exists (y - year_of_day (day_of now)), 0.
        f_equal. destruct yearly; [|rewrite (Hy eq_refl)]; lia.
      + intros (ys & _ & ->). eexists.
        split; [exact (valid_date_common_year 2023 _ m dd eq_refl OK)|]. split; [reflexivity|]. intros ->. lia.
    - (* DDow *)
      rewrite andb_true_iff, !Z.leb_le in OK. rewrite dow_unique by lia. apply C.
    - (* DNone: every day is today + k *) split; [intros _; exists 0, (day - day_of now); lia|auto].
  Qed.

  Lemma inst_iff e yearly su now t : expr_ok e = true ->
    inst scale sun e yearly su now t <-> exists ys k, t = inst_val e (if yearly then ys else 0) k now su.
  Proof.
    intros OK. destruct (expr_ok_inv e OK) as (NS & DO & _). unfold inst, inst_val.
    setoid_rewrite (time_on_iff e su _ t NS). setoid_rewrite (day_denoted_iff _ yearly now _ DO). unfold at_day. split.
    - intros (day & (ys & k & ->) & ->). exists ys, k. destruct (uses_now e); reflexivity.
    - intros (ys & k & ->). eexists. split; [exists ys, k; reflexivity|]. destruct (uses_now e); reflexivity.
  Qed.

  Lemma inst_on_iff e D su now t : expr_ok e = true ->
    inst_on scale sun e D su now t <-> t = inst_val e 0 (D - day_of now) now su.
  Proof.
    intros OK. destruct (fixed_date e) eqn:FX.
    - transitivity (inst scale sun e false su now t).
      + unfold inst_on, inst, fixed_date in *. destruct (de_date e); try reflexivity.
        cbn [day_denoted]. split; intros (day & _ & H); exists day; auto.
      + rewrite (inst_iff e false su now t OK). split.
        * intros (_ & k & ->). apply inst_val_fixed, FX.
        * intros ->. exists 0, (D - day_of now). reflexivity.
    - destruct (undated_inv e FX) as (Ed & Un & _). destruct (expr_ok_inv e OK) as (NS & _).
      unfold inst_on. setoid_rewrite (time_on_iff e su _ t NS). rewrite Ed, Un, (inst_val_undated e _ _ _ _ FX).
      unfold at_day. rewrite Un. replace (day_of now + (D - day_of now)) with D by lia. split.
      + intros (day & [X| ->] & H); [discriminate|exact H].
      + intros ->. exists D. auto.
  Qed.
End Denote.
