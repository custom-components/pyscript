(* load_scripts' step-by-step plan (changed set, will_reload, import closure, package widening) computes exactly the
   declarative sets of Life/ReloadPlanSpec.v ([plan_normal], conformant model; [plan_exact] is its reading as stated in
   C10).  Every step only sets force flags, so the file list is always [flags b fs] and a step is an equation
   ([flags_map]), described by a set [D] of deleted names and a set [F] of flagged files ([plan_is]). *)
From PV Require Import Common.Util Life.ReloadBase Gen.ReloadConsts Life.Modules Life.Reload Life.ReloadPlanSpec
  Proofs.LifeReloadBase Proofs.LifeClosure.

Lemma Forced0_on_disk st fs a n : Forced0 st fs a n -> sf_has fs n = true.
Proof.
  unfold Forced0, on_disk. destruct a as [| |m].
  - intros (s & Fs & _). apply sf_find_has. eauto.
  - auto.
  - intros [-> H]. exact H.
Qed.

Lemma Forced1_on_disk st fs a n : Forced1 st fs a n -> sf_has fs n = true.
Proof. intros [H|[_ H]]; [apply (Forced0_on_disk st fs a n H)|exact H]. Qed.

Lemma loaded_of_In st c : In c st -> in_ctx_roots (c_name c) = true -> loaded st (c_name c).
Proof. intros Hc Hr. unfold loaded. apply in_map. apply ctx_all_In. auto. Qed.

Lemma Changed_Forced0 st fs a n : (forall m, a <> RName m) -> loaded st n -> on_disk fs n ->
  (Changed st fs a n <-> Forced0 st fs a n).
Proof.
  intros Ha Hl Hd. destruct a as [| |m]; [| |destruct (Ha m eq_refl)]; unfold Changed, Forced0; [|tauto]. split.
  - intros [_ [Hnd|(c & s & Hc & En & Fs & C)]]; [destruct (Hnd Hd)|]. exists s. split; [exact Fs|]. left. exists c. auto.
  - intros (s & Fs & [(c & Hc & En & C)|[Hnl _]]); [|destruct (Hnl Hl)]. split; [exact Hl|]. right. exists c, s. auto.
Qed.

Lemma Forced_loaded st fs a s' : Forced st fs a s' -> loaded st (sf_name s') ->
  Discard st fs a (sf_name s') \/ Forced0 st fs a (sf_name s').
Proof.
  intros [[Hw _]|[_ [H0|[Hi _]]]] Hl.
  - left. right. split; [exact Hw|right; exact Hl].
  - right. exact H0.
  - left. left. right. exact Hi.
Qed.

Lemma Forced_Discard st fs a s' : (forall n, a <> RName n) -> Forced st fs a s' -> loaded st (sf_name s') ->
  Discard st fs a (sf_name s').
Proof.
  intros Ha HF Hl. destruct (Forced_loaded _ _ _ _ HF Hl) as [H|H]; [exact H|]. left. left.
  apply (Changed_Forced0 st fs a _ Ha Hl); [apply (Forced0_on_disk st fs a), H|exact H].
Qed.

Lemma under_roots_shape rs n : under_roots rs n = true -> exists x y rest, n = x :: y :: rest /\ existsb (fun r => (x =? r)%N) rs = true.
Proof.
  unfold under_roots. destruct n as [|x [|y rest]].
  - intros H. exfalso. induction rs; cbn in H; [discriminate|auto].
  - intros H. exfalso. induction rs; cbn in H; [discriminate|auto].
  - intros H. exists x, y, rest. split; [reflexivity|exact H].
Qed.

Lemma prefix_root2 rs n m : under_roots rs n = true ->
  (prefix_of (root2 n) m = true <-> (root2 m = root2 n /\ under_roots rs m = true)).
Proof.
  intros Hn. destruct (under_roots_shape rs n Hn) as (x & y & rest & -> & Hx). cbn [root2 firstn].
  destruct m as [|a [|b m']]; cbn [prefix_of root2 firstn].
  - split; [discriminate|intros [H _]; discriminate].
  - split; [rewrite andb_false_r; discriminate|intros [H _]; discriminate].
  - rewrite andb_true_r. split.
    + intros H. apply andb_true_iff in H. destruct H as [H1 H2]. apply N.eqb_eq in H1, H2. subst. split; [reflexivity|exact Hx].
    + intros [H _]. inversion H; subst. rewrite !N.eqb_refl. reflexivity.
Qed.

Lemma root2_idem n : root2 (root2 n) = root2 n.
Proof. destruct n as [|x [|y r]]; reflexivity. Qed.

Lemma InWidened_iff st fs a n : InWidened st fs a n <-> under_roots widen_roots n = true /\ WidenRoot st fs a (root2 n).
Proof.
  split.
  - intros (r & (n0 & Hu0 & <- & H) & Hp). apply (prefix_root2 widen_roots n0 n Hu0) in Hp. destruct Hp as [E Hu].
    split; [exact Hu|]. exists n0. auto.
  - intros (Hu & n0 & Hu0 & E & H). exists (root2 n0). split; [exists n0; auto|]. apply (prefix_root2 widen_roots n0 n Hu0). auto.
Qed.

Lemma sf_set_force_id s : sf_set_force (sf_force s) s = s.
Proof. destruct s; reflexivity. Qed.
Lemma sf_set_force_twice b b' s : sf_set_force b' (sf_set_force b s) = sf_set_force b' s.
Proof. reflexivity. Qed.

Lemma same_files_find fs fs' n : same_files fs fs' ->
  match sf_find fs n with
  | Some s => exists b, sf_find fs' n = Some (sf_set_force b s)
  | None => sf_find fs' n = None
  end.
Proof.
  induction 1 as [|s s' fs fs' [b ->] H IH]; cbn; [reflexivity|].
  destruct (nl_eqb (sf_name s) n); [eexists; reflexivity|exact IH].
Qed.

Definition flags (b : sfile -> bool) (fs : list sfile) : list sfile := map (fun s => sf_set_force (b s) s) fs.

Lemma flags_In b fs s' : In s' (flags b fs) <-> exists s, In s fs /\ s' = sf_set_force (b s) s.
Proof. unfold flags. rewrite in_map_iff. split; intros (s & A & B); eauto. Qed.

Lemma flags_names b fs : map sf_name (flags b fs) = map sf_name fs.
Proof. unfold flags. rewrite map_map. reflexivity. Qed.

Lemma flags_has b fs n : sf_has (flags b fs) n = sf_has fs n.
Proof. apply eq_true_iff_eq. rewrite !sf_has_In, flags_names. reflexivity. Qed.

Lemma flags_find b fs n : sf_find (flags b fs) n = option_map (fun s => sf_set_force (b s) s) (sf_find fs n).
Proof. induction fs as [|s fs IH]; cbn; [reflexivity|]. destruct (nl_eqb (sf_name s) n); [reflexivity|exact IH]. Qed.

Lemma flags_same b fs : same_files fs (flags b fs).
Proof. induction fs; constructor; [eexists; reflexivity|assumption]. Qed.

Lemma flags_fresh fs : fresh fs -> fs = flags (fun _ => false) fs.
Proof.
  intros H. unfold flags. rewrite <- (map_id fs) at 1. apply map_ext_in. intros s Hs.
  rewrite <- (H s Hs). symmetry. apply sf_set_force_id.
Qed.

(* all the plan does to the file list; neither [p] nor [g] looks at the flag *)
Lemma flags_map (p g : sfile -> bool) b fs :
  (forall s b0, p (sf_set_force b0 s) = p s /\ g (sf_set_force b0 s) = g s) ->
  map (fun s => if p s then sf_set_force (g s) s else s) (flags b fs) = flags (fun s => if p s then g s else b s) fs.
Proof.
  intros Hpg. unfold flags. rewrite map_map. apply map_ext. intros s. destruct (Hpg s (b s)) as [-> ->].
  destruct (p s); reflexivity.
Qed.

Lemma sf_force_name_flags n b fs : sf_force_name n true (flags b fs) = flags (fun s => nl_eqb (sf_name s) n || b s) fs.
Proof. apply (flags_map (fun s => nl_eqb (sf_name s) n) (fun _ => true)). intros; split; reflexivity. Qed.

Lemma load_list_flags b fs s' : In s' (load_list (flags b fs)) <-> exists s, In s fs /\ sf_auto s = true /\ b s = true /\ s' = sf_set_force true s.
Proof.
  rewrite load_list_In, flags_In. split.
  - intros ((s & Hs & ->) & Hau & Hb). cbn in Hau, Hb. exists s. rewrite Hb. auto.
  - intros (s & Hs & Hau & Hb & ->). split; [exists s; rewrite Hb; auto|auto].
Qed.

Definition plan_is (fs : list sfile) (D : cname -> Prop) (F : sfile -> Prop) (ps : pstate) : Prop :=
  exists b, ps_files ps = flags b fs /\ (forall s, In s fs -> (b s = true <-> F s)) /\ forall n, In n (ps_del ps) <-> D n.

Lemma plan_is_iff fs (D D' : cname -> Prop) (F F' : sfile -> Prop) ps :
  plan_is fs D F ps -> (forall n, D n <-> D' n) -> (forall s, In s fs -> (F s <-> F' s)) -> plan_is fs D' F' ps.
Proof.
  intros (b & E & Hb & Hd) HD HF. exists b. split; [exact E|]. split; [intros s Hs; rewrite (Hb s Hs); apply HF, Hs|].
  intros n. rewrite Hd. apply HD.
Qed.

Lemma pi_has fs D F ps n : plan_is fs D F ps -> sf_has (ps_files ps) n = sf_has fs n.
Proof. intros (b & -> & _). apply flags_has. Qed.

Lemma pi_force fs D (F : cname -> Prop) ps : plan_is fs D (fun s => F (sf_name s)) ps ->
  forall s', In s' (ps_files ps) -> (sf_force s' = true <-> F (sf_name s')).
Proof. intros (b & -> & Hb & _) s' Hs'. apply flags_In in Hs'. destruct Hs' as (s & Hs & ->). apply (Hb s Hs). Qed.

Lemma existsb_name_In (all : list gctx) n : existsb (fun c => nl_eqb (c_name c) n) all = true <-> In n (map c_name all).
Proof. apply (existsb_key_In _ nl_eqb_eq). Qed.

Definition ctx_of (all : list gctx) (s : sfile) : option gctx := find (fun c => nl_eqb (c_name c) (sf_name s)) all.
Definition ctx_changed (dv : deviations) (all : list gctx) (s : sfile) : bool :=
  match ctx_of all s with Some c => changed dv s c | None => false end.
(* [Forced0] of a default reload, as a boolean *)
Definition force0 (dv : deviations) (all : list gctx) (s : sfile) : bool :=
  match ctx_of all s with Some c => changed dv s c | None => sf_auto s end.

Lemma changed_fold dv all fs : fresh fs -> forall ps,
  fold_left (changed_step dv all) fs ps =
  {| ps_del := fold_left (fun acc s => if ctx_changed dv all s then nl_add (sf_name s) acc else acc) fs (ps_del ps);
     ps_files := ps_files ps ++ map (fun s => sf_set_force (force0 dv all s) s) fs |}.
Proof.
  induction fs as [|s fs IH]; intros Hfresh ps; cbn [fold_left map].
  - rewrite app_nil_r. destruct ps; reflexivity.
  - rewrite IH by (intros x Hx; apply Hfresh; right; exact Hx). unfold changed_step, ctx_changed, force0, ctx_of.
    destruct (find _ all) as [c|]; [destruct (changed dv s c)|]; cbn [ps_del ps_files]; rewrite <- app_assoc.
    + reflexivity.
    + rewrite <- (Hfresh s (or_introl eq_refl)), sf_set_force_id. reflexivity.
    + reflexivity.
Qed.

Lemma ctx_changed_spec dv all s : NoDup (map c_name all) ->
  (ctx_changed dv all s = true <-> exists c, In c all /\ c_name c = sf_name s /\ changed dv s c = true).
Proof.
  intros Hall. unfold ctx_changed, ctx_of. split.
  - destruct (find _ all) as [c|] eqn:Fc; [|discriminate]. apply (find_key_Some _ nl_eqb_eq) in Fc. intros C. exists c. tauto.
  - intros (c & Hc & En & C). rewrite <- En, (find_key_uniq _ nl_eqb_eq c_name all c Hall Hc). exact C.
Qed.

Lemma force0_spec dv all s :
  force0 dv all s = true <-> ctx_changed dv all s = true \/ (~ In (sf_name s) (map c_name all) /\ sf_auto s = true).
Proof.
  unfold force0, ctx_changed. destruct (ctx_of all s) as [c|] eqn:Fc.
  - apply (find_key_Some _ nl_eqb_eq) in Fc. destruct Fc as [Hc En]. split; [auto|intros [H|[Hn _]]; [exact H|]].
    destruct Hn. rewrite <- En. apply in_map, Hc.
  - apply (find_key_None _ nl_eqb_eq c_name) in Fc. split; [auto|intros [H|[_ H]]; [discriminate|exact H]].
Qed.

Lemma plan_changed_spec st fs a ps : fresh fs -> uniq_files fs -> NoDup (map c_name (ctx_all st)) ->
  plan_changed all_off (ctx_all st) fs a = Some ps ->
  plan_is fs (Changed st fs a) (fun s => Forced0 st fs a (sf_name s)) ps.
Proof.
  intros Hfresh Hu Hall H. set (all := ctx_all st) in *.
  assert (Hfind : forall s, In s fs -> sf_find fs (sf_name s) = Some s) by (intros; apply sf_find_uniq; assumption).
  destruct a as [| |m]; cbn [plan_changed] in H.
  - (* default reload *)
    inversion_clear H. rewrite changed_fold by exact Hfresh. exists (force0 all_off all). split; [reflexivity|]. split; cbn [ps_del].
    + intros s Hs. rewrite force0_spec, (ctx_changed_spec all_off all s Hall). unfold Forced0, loaded. fold all. rewrite (Hfind s Hs).
      split; [intros H; exists s; auto|intros (s2 & [= <-] & H); exact H].
    + intros n. rewrite fold_add_In, in_map_iff. unfold Changed, loaded, on_disk. fold all. split.
      * intros [(c & <- & HI)|(s & Hs & C & <-)].
        -- apply filter_In in HI. destruct HI as [HI Hn]. split; [apply in_map, HI|]. left. apply negb_true_iff in Hn. congruence.
        -- apply (ctx_changed_spec all_off all s Hall) in C. destruct C as (c & Hc & En & C).
           split; [rewrite <- En; apply in_map, Hc|]. right. exists c, s. auto.
      * intros [HL [Hnd|(c & s & Hc & En & Fs & C)]].
        -- left. apply in_map_iff in HL. destruct HL as (c & <- & Hc). exists c. split; [reflexivity|]. apply filter_In. split; [exact Hc|].
           apply negb_true_iff. destruct (sf_has fs (c_name c)); [tauto|reflexivity].
        -- right. apply sf_find_Some in Fs. destruct Fs as [Hs Es]. exists s. split; [exact Hs|]. split; [|exact Es].
           apply (ctx_changed_spec all_off all s Hall). exists c. rewrite Es. auto.
  - (* '*' *)
    inversion_clear H. exists (fun _ => true). split; [reflexivity|]. split; [|intros n; unfold Changed, loaded; tauto].
    intros s Hs. split; [intros _|reflexivity]. apply sf_has_In, in_map, Hs.
  - (* by name *)
    unfold Changed, Forced0, on_disk.
    destruct (negb (existsb (fun c => nl_eqb (c_name c) m) all) && negb (sf_has fs m)) eqn:E1; [discriminate|].
    destruct (sf_has fs m) eqn:E2; cbn [negb] in H; inversion_clear H; cbn [ps_files ps_del].
    + exists (fun s => nl_eqb (sf_name s) m || false). split; [rewrite (flags_fresh fs Hfresh) at 1; apply sf_force_name_flags|].
      split; [|intros n; split; [intros []|intros [_ Hn]; congruence]].
      intros s _. rewrite orb_false_r, nl_eqb_eq. tauto.
    + exists (fun _ => false). split; [apply flags_fresh, Hfresh|]. split; [intros s _; split; [discriminate|intros [_ Hx]; discriminate]|].
      intros n. cbn. split; [intros [<-|[]]; split; [reflexivity|discriminate]|intros [-> _]; auto].
Qed.

Lemma will_reload_spec st fs a ps : plan_is fs (Changed st fs a) (fun s => Forced0 st fs a (sf_name s)) ps ->
  forall r, In r (will_reload all_off ps) <-> ChangedModRoot st fs a r.
Proof.
  intros HP r. pose proof HP as (_ & _ & _ & Hdel).
  assert (Hsel : forall s', In s' (ps_files ps) ->
            (under_roots wr_roots (sf_name s') && (nl_mem (sf_name s') (ps_del ps) || sf_force s') = true
             <-> under_roots wr_roots (sf_name s') = true /\ (Changed st fs a (sf_name s') \/ Forced0 st fs a (sf_name s')))).
  { intros s' Hs'. rewrite andb_true_iff, orb_true_iff, nl_mem_In, Hdel, (pi_force _ _ _ _ HP s' Hs'). reflexivity. }
  unfold will_reload. cbn [d_deleted_no_propagate all_off].
  rewrite fold_nl_add_In. cbn [In]. rewrite in_app_iff, !in_map_iff. unfold ChangedModRoot. split.
  - intros [[]|[(s' & <- & Hs')|(n & <- & Hn)]].
    + apply filter_In in Hs'. destruct Hs' as [Hs' Hc]. apply (Hsel s' Hs') in Hc. exists (sf_name s'). tauto.
    + apply filter_In in Hn. destruct Hn as [Hn Hc]. apply andb_true_iff in Hc. destruct Hc as [Hu _].
      exists n. split; [exact Hu|]. split; [reflexivity|]. left. apply Hdel. exact Hn.
  - intros (n & Hu & <- & Hc). right.
    destruct (sf_has fs n) eqn:Hd.
    + left. rewrite <- (pi_has _ _ _ _ n HP) in Hd. apply sf_has_In, in_map_iff in Hd. destruct Hd as (s' & En & Hs').
      exists s'. split; [rewrite En; reflexivity|].
      apply filter_In. split; [exact Hs'|]. apply (Hsel s' Hs'). rewrite En. auto.
    + destruct Hc as [Hc|Hc]; [|apply Forced0_on_disk in Hc; congruence].
      right. exists n. split; [reflexivity|]. apply filter_In. split; [apply Hdel; exact Hc|].
      rewrite Hu. cbn [andb]. rewrite (pi_has _ _ _ _ n HP), Hd. reflexivity.
Qed.

(* what step 3 does for an importer *)
Definition force_del (ps : pstate) (n : cname) : pstate :=
  {| ps_del := nl_add n (ps_del ps); ps_files := sf_force_name n true (ps_files ps) |}.

Lemma force_del_fold fs N : forall D F ps, plan_is fs D F ps ->
  plan_is fs (fun n => D n \/ In n N) (fun s => F s \/ In (sf_name s) N) (fold_left force_del N ps).
Proof.
  induction N as [|n N IH]; intros D F ps HP; cbn [fold_left].
  - apply (plan_is_iff _ _ _ _ _ _ HP); [intros k|intros s _]; (split; [auto|intros [H|[]]; exact H]).
  - assert (HP1 : plan_is fs (fun k => D k \/ k = n) (fun s => F s \/ sf_name s = n) (force_del ps n)).
    { destruct HP as (b & Eb & Hb & Hd). exists (fun s => nl_eqb (sf_name s) n || b s). cbn [force_del ps_files ps_del].
      split; [rewrite Eb; apply sf_force_name_flags|]. split.
      - intros s Hs. rewrite orb_true_iff, nl_eqb_eq, (Hb s Hs). apply or_comm.
      - intros k. rewrite nl_add_In, Hd. apply or_comm. }
    apply (plan_is_iff _ _ _ _ _ _ (IH _ _ _ HP1)); [intros k|intros s _]; cbn [In];
      (split; [intros [[H| ->]|H]; auto|intros [H|[->|H]]; auto]).
Qed.

Section Step3.
  Variable st : state.
  Variable wr : list cname.
  Hypothesis Hac : acyclic st.
  Definition Hit (n : cname) : Prop := exists d, reach_plus st n d /\ In (root2 d) wr.

  Lemma hit_dec v n : closure_of st n v -> existsb (fun modn => nl_mem (root2 modn) wr) v = true <-> Hit n.
  Proof.
    intros Hv. rewrite existsb_exists. unfold Hit.
    split; intros (d & Hd & Hm); exists d; (split; [apply Hv; exact Hd|apply nl_mem_In; exact Hm]).
  Qed.

  (* the closure comes from the memo or from import_recurse, which keeps [INV] *)
  Lemma imports_step_spec acc c : INV st (is_memo acc) [] [] ->
    let acc' := imports_step st wr acc c in
    INV st (is_memo acc') [] [] /\ is_fuel_ok acc' = is_fuel_ok acc
    /\ exists b, (b = true <-> Hit (c_name c)) /\ is_ps acc' = if b then force_del (is_ps acc) (c_name c) else is_ps acc.
  Proof.
    intros Hinv. unfold imports_step. set (n := c_name c). destruct (memo_get (is_memo acc) n) as [v|] eqn:Em.
    - cbn [is_memo is_fuel_ok is_ps]. split; [exact Hinv|]. split; [apply andb_true_r|]. eexists. split; [|reflexivity].
      apply hit_dec. unfold memo_or_empty. rewrite Em. apply (inv_memo _ _ _ _ Hinv n v Em). intros [].
    - destruct (import_closure st n (is_memo acc) Hac Hinv) as (res & v' & m' & E & _ & Hcl & Hinv').
      rewrite E. cbn [is_memo is_fuel_ok is_ps]. split; [exact Hinv'|]. split; [apply andb_true_r|]. eexists. split; [apply hit_dec, Hcl|reflexivity].
  Qed.

  Lemma imports_fold_names L : forall acc, INV st (is_memo acc) [] [] ->
    exists N, (forall n, In n N <-> In n (map c_name L) /\ Hit n)
      /\ is_ps (fold_left (imports_step st wr) L acc) = fold_left force_del N (is_ps acc)
      /\ is_fuel_ok (fold_left (imports_step st wr) L acc) = is_fuel_ok acc.
  Proof.
    induction L as [|c L IH]; intros acc Hinv; cbn [fold_left].
    - exists []. split; [|auto]. intros n. cbn. tauto.
    - destruct (imports_step_spec acc c Hinv) as (Hinv1 & Ef & b & Hb & Ep).
      destruct (IH _ Hinv1) as (N & HN & -> & ->). rewrite Ef, Ep.
      exists (if b then c_name c :: N else N). split; [|destruct b; auto].
      intros n. assert (Hc : c_name c = n -> (b = true <-> Hit n)) by (intros <-; exact Hb).
      specialize (HN n). clear -Hc HN. destruct b; cbn [map In]; intuition congruence.
  Qed.
End Step3.

Lemma plan_imports_spec st fs a ps : acyclic st -> plan_is fs (Changed st fs a) (fun s => Forced0 st fs a (sf_name s)) ps ->
  exists ps2, plan_imports all_off st (ctx_all st) ps = (ps2, true)
              /\ plan_is fs (Discard1 st fs a) (fun s => Forced1 st fs a (sf_name s)) ps2.
Proof.
  intros Hac HP. pose proof (will_reload_spec st fs a ps HP) as Hwr.
  (* with or without changed module roots, step 3 forces and deletes the importers *)
  assert (H : exists N, (forall n, In n N <-> Importer st fs a n)
                        /\ plan_imports all_off st (ctx_all st) ps = (fold_left force_del N ps, true)).
  { unfold plan_imports. destruct (will_reload all_off ps) as [|r0 wr'] eqn:Ew.
    - exists []. split; [|reflexivity]. intros n. split; [intros []|]. intros (_ & d & _ & Hc). apply Hwr in Hc. destruct Hc.
    - set (wr := r0 :: wr') in *.
      destruct (imports_fold_names st wr Hac (ctx_all st) {| is_ps := ps; is_memo := []; is_fuel_ok := true |} (INV_empty st)) as (N & HN & -> & ->).
      exists N. split; [|reflexivity]. intros n. rewrite HN. apply and_iff_compat_l.
      split; intros (d & Hd & Hm); exists d; (split; [exact Hd|apply Hwr, Hm]). }
  destruct H as (N & Himp & ->). eexists. split; [reflexivity|].
  apply (plan_is_iff _ _ _ _ _ _ (force_del_fold fs N _ _ ps HP)).
  - intros n. rewrite Himp. reflexivity.
  - intros s Hs. cbn. rewrite Himp. unfold Forced1, on_disk.
    assert (sf_has fs (sf_name s) = true) by apply sf_has_In, in_map, Hs. tauto.
Qed.

Section Widen.
  Variable loaded_names : list cname.
  Variable fs : list sfile.
  Variable D2 : cname -> Prop.     (* the names deleted before widening *)
  Variable F1 : cname -> Prop.     (* the files forced before widening *)

  (* at the end [R] lists [WidenRoot] and [F1] is [Forced1]: then [InP R] is [InWidened] and [widened R] is [Forced] *)
  Definition InP (R : list cname) (n : cname) : Prop := under_roots widen_roots n = true /\ In (root2 n) R.
  Definition widened (R : list cname) (s : sfile) : Prop :=
    (InP R (sf_name s) /\ is_root_file s = true) \/ (~ InP R (sf_name s) /\ F1 (sf_name s)).

  (* of a widened package widen_one deletes the names that are files ([del']) and those that are loaded contexts
     ([del'']): the disjunction in the delete set *)
  Definition WInv (w : wstate) : Prop :=
    plan_is fs (fun n => D2 n \/ (InP (w_done w) n /\ (sf_has fs n = true \/ In n loaded_names))) (widened (w_done w))
                {| ps_del := w_del w; ps_files := w_files w |}.

  Lemma widen_one_new w n : WInv w -> under_roots widen_roots n = true -> ~ In (root2 n) (w_done w) ->
    WInv (widen_one all_off loaded_names w n true) /\ w_done (widen_one all_off loaded_names w n true) = root2 n :: w_done w.
  Proof.
    intros (b & Eb & Hb & I4) Hu Hnew. cbn [ps_files ps_del] in Eb, I4. unfold widen_one. rewrite Hu. cbn [negb d_deleted_no_propagate all_off].
    apply nl_mem_false in Hnew. rewrite Hnew. set (root := root2 n). split; [|reflexivity].
    assert (HIn : forall k, InP (root :: w_done w) k <-> InP (w_done w) k \/ prefix_of root k = true).
    { intros k. unfold InP, root. rewrite (prefix_root2 widen_roots n k Hu). cbn [In]. split.
      - intros [Hk [E|H]]; auto.
      - intros [[Hk H]|[E Hk]]; auto. }
    unfold WInv. cbn [w_done w_files w_del].
    eexists. cbn [ps_files ps_del]. split; [rewrite Eb; apply (flags_map (fun s => prefix_of root (sf_name s))
             (fun s => nl_eqb (sf_path s) (root ++ [s_init]) || nl_eqb (sf_path s) root)); intros; split; reflexivity|]. split.
    - intros s Hs. unfold widened. rewrite HIn. destruct (prefix_of root (sf_name s)) eqn:Ep.
      + apply (prefix_root2 widen_roots n _ Hu) in Ep. destruct Ep as [Er _]. unfold is_root_file. rewrite Er. fold root. tauto.
      + assert (E : InP (w_done w) (sf_name s) \/ false = true <-> InP (w_done w) (sf_name s)) by (split; [intros [H|H]; [exact H|discriminate]|auto]).
        rewrite E. apply (Hb s Hs).
    - intros k. rewrite !fold_add_In, I4, HIn.
      assert (Hfiles : (exists s, In s (w_files w) /\ prefix_of root (sf_name s) = true /\ sf_name s = k)
                       <-> prefix_of root k = true /\ sf_has fs k = true).
      { rewrite sf_has_In, <- (flags_names b fs), <- Eb, in_map_iff.
        split; [intros (s & Hs & Hp & <-); eauto|intros (Hp & s & <- & Hs); eauto]. }
      assert (Hld : (exists m, In m loaded_names /\ prefix_of root m = true /\ m = k) <-> prefix_of root k = true /\ In k loaded_names).
      { split; [intros (m & Hm & Hp & <-); auto|intros [Hp Hk]; eauto]. }
      rewrite Hfiles, Hld. clear. tauto.   (* uncleared, [tauto] tries the equivalences above as well *)
  Qed.

  Lemma widen_one_noop w n forced : (forced = false \/ under_roots widen_roots n = false \/ In (root2 n) (w_done w)) ->
    widen_one all_off loaded_names w n forced = w.
  Proof.
    intros H. unfold widen_one. destruct forced; [|reflexivity]. cbn [negb].
    destruct (under_roots widen_roots n) eqn:Hu; [|reflexivity]. cbn [negb].
    destruct H as [H|[H|H]]; try discriminate. apply nl_mem_In in H. rewrite H. reflexivity.
  Qed.

  (* a loop of widening requests; the flag [fb w n] may be read from the state: it counts only while the package of [n]
     is not widened, and then it says [Q n] *)
  Lemma widen_fold (step : wstate -> cname -> wstate) (fb : wstate -> cname -> bool) (Q : cname -> Prop) L :
    (forall w n, step w n = widen_one all_off loaded_names w n (fb w n)) ->
    (forall w n, In n L -> WInv w -> under_roots widen_roots n = true -> ~ In (root2 n) (w_done w) -> (fb w n = true <-> Q n)) ->
    forall w, WInv w ->
    let w' := fold_left step L w in
    WInv w' /\ forall r, In r (w_done w') <-> In r (w_done w) \/ exists n, In n L /\ r = root2 n /\ under_roots widen_roots n = true /\ Q n.
  Proof.
    intros Hstep. induction L as [|n L IH]; intros Hfb w HI; cbn [fold_left].
    - split; [exact HI|]. intros r. rewrite ex_In_nil. clear. tauto.
    - assert (H1 : WInv (step w n) /\ forall r, In r (w_done (step w n)) <-> In r (w_done w) \/ (r = root2 n /\ under_roots widen_roots n = true /\ Q n)).
      { rewrite Hstep.
        destruct (under_roots widen_roots n) eqn:Hu; [destruct (in_dec (list_eq_dec N.eq_dec) (root2 n) (w_done w)) as [Hin|Hnew]|].
        - rewrite widen_one_noop by auto. split; [exact HI|]. intros r. split; [auto|intros [H|(-> & _)]; [exact H|exact Hin]].
        - pose proof (Hfb w n (or_introl eq_refl) HI Hu Hnew) as HQ. destruct (fb w n).
          + destruct (widen_one_new w n HI Hu Hnew) as [HI' ->]. split; [exact HI'|]. intros r. cbn [In].
            split; [intros [<-|H]; [right; repeat split; apply HQ; reflexivity|auto]|intros [H|(-> & _)]; auto].
          + rewrite widen_one_noop by auto. split; [exact HI|]. intros r. split; [auto|intros [H|(_ & _ & H)]; [exact H|]].
            apply HQ in H. discriminate.
        - rewrite widen_one_noop by auto. split; [exact HI|]. intros r. split; [auto|intros [H|(_ & H & _)]; [exact H|discriminate]]. }
      destruct H1 as [HI1 Hd1]. destruct (IH (fun w' m Hm => Hfb w' m (or_intror Hm)) _ HI1) as [HI' Hd']. split; [exact HI'|].
      intros r. rewrite Hd', Hd1, ex_In_cons. apply or_assoc.
  Qed.
End Widen.

Lemma plan_widen_spec st fs a ps2 : plan_is fs (Discard1 st fs a) (fun s => Forced1 st fs a (sf_name s)) ps2 ->
  plan_is fs (Discard st fs a) (Forced st fs a) (plan_widen all_off (map c_name (ctx_all st)) ps2).
Proof.
  intros HP. pose proof HP as (b & Eb & Hb & Hdel). unfold plan_widen. cbn [d_deleted_no_propagate all_off].
  set (ln := map c_name (ctx_all st)). set (F1 := Forced1 st fs a).
  set (w0 := {| w_files := ps_files ps2; w_del := ps_del ps2; w_done := [] |}).
  assert (H0 : WInv ln fs (Discard1 st fs a) F1 w0).
  { destruct ps2. apply (plan_is_iff _ _ _ _ _ _ HP).
    - intros n. split; [auto|intros [H|[[_ []] _]]; exact H].
    - intros s _. unfold widened.
      split; [intros H; right; split; [intros [_ []]|exact H]|intros [[[_ []] _]|[_ H]]; exact H]. }
  pose proof (flags_names b fs) as Hnames. rewrite <- Eb in Hnames. rewrite Hnames.
  (* first loop, over the file names: the flag is read from the state *)
  set (fb1 := fun (w : wstate) n => match sf_find (w_files w) n with Some s => sf_force s | None => false end).
  assert (HS1 : forall w n, widen_file_step all_off ln w n = widen_one all_off ln w n (fb1 w n))
    by (intros w n; unfold widen_file_step, fb1; destruct (sf_find (w_files w) n); reflexivity).
  assert (HF1 : forall w n, In n (map sf_name fs) -> WInv ln fs (Discard1 st fs a) F1 w -> under_roots widen_roots n = true ->
            ~ In (root2 n) (w_done w) -> (fb1 w n = true <-> F1 n)).
  { unfold fb1. intros w n Hn HI Hu Hnew. pose proof HI as (b' & Eb' & Hb' & _). cbn [ps_files] in Eb'.
    destruct (proj1 (sf_find_has fs n)) as (s & Fs); [apply sf_has_In, Hn|].
    rewrite Eb', flags_find, Fs. cbn [option_map sf_force sf_set_force]. apply sf_find_Some in Fs. destruct Fs as [Hs <-].
    rewrite (Hb' s Hs). unfold widened. split; [intros [[HR _]|[_ H]]; [destruct Hnew; apply HR|exact H]|].
    intros H. right. split; [intros HR; apply Hnew, HR|exact H]. }
  destruct (widen_fold ln fs (Discard1 st fs a) F1 _ fb1 F1 (map sf_name fs) HS1 HF1 w0 H0) as [H1 Hd1].
  set (w1 := fold_left (widen_file_step all_off ln) (map sf_name fs) w0) in *.
  (* second loop, over the deleted names: the flag is "no file of that name" *)
  destruct (widen_fold ln fs (Discard1 st fs a) F1 (widen_del_step all_off ln (ps_files ps2))
              (fun _ n => negb (sf_has (ps_files ps2) n)) (fun n => sf_has fs n = false) (ps_del ps2)) with (w := w1) as [H2 Hd2].
  { intros w n. unfold widen_del_step. destruct (sf_has (ps_files ps2) n); reflexivity. }
  { intros w n _ _ _ _. rewrite (pi_has _ _ _ _ n HP). apply negb_true_iff. }
  { exact H1. }
  set (w2 := fold_left (widen_del_step all_off ln (ps_files ps2)) (ps_del ps2) w1) in *.
  assert (HR : forall r, In r (w_done w2) <-> WidenRoot st fs a r).
  { intros r. rewrite Hd2, Hd1. unfold WidenRoot, on_disk. split.
    - intros [[[]|(m & _ & -> & Hu & Hf)]|(m & Hm & -> & Hu & Hd)]; exists m; [auto|].
      split; [exact Hu|]. split; [reflexivity|]. right. split; [apply Hdel; exact Hm|congruence].
    - intros (m & Hu & <- & [Hf|[Hd Hnd]]).
      + left. right. exists m. split; [|auto]. apply sf_has_In, (Forced1_on_disk st fs a m Hf).
      + right. exists m. split; [apply Hdel; exact Hd|]. split; [reflexivity|]. split; [exact Hu|].
        destruct (sf_has fs m); [tauto|reflexivity]. }
  assert (HW : forall n, InP (w_done w2) n <-> InWidened st fs a n).
  { intros n. rewrite InWidened_iff. unfold InP. rewrite HR. reflexivity. }
  apply (plan_is_iff _ _ _ _ _ _ H2).
  - intros n. unfold Discard. rewrite HW. reflexivity.
  - intros s _. unfold widened, Forced. rewrite HW. reflexivity.
Qed.

Theorem plan_normal st fs a : acyclic st -> fresh fs -> uniq_files fs -> NoDup (map c_name (ctx_all st)) ->
  p_ok (plan all_off st fs a) = true ->
  let pl := plan all_off st fs a in
  p_fuel_ok pl = true /\ plan_is fs (Discard st fs a) (Forced st fs a) {| ps_del := p_del pl; ps_files := p_files pl |}.
Proof.
  intros Hac Hfresh Hu Hall Hok. unfold plan in *.
  destruct (plan_changed all_off (ctx_all st) fs a) as [ps1|] eqn:E1; [|cbn in Hok; discriminate].
  destruct (plan_imports_spec st fs a ps1 Hac (plan_changed_spec st fs a ps1 Hfresh Hu Hall E1)) as (ps2 & E2 & HP2).
  rewrite E2. cbn [p_fuel_ok p_files p_del]. split; [reflexivity|].
  pose proof (plan_widen_spec st fs a ps2 HP2) as H. destruct (plan_widen _ _ ps2). exact H.
Qed.

Theorem plan_exact st fs a : acyclic st -> fresh fs -> uniq_files fs -> NoDup (map c_name (ctx_all st)) ->
  p_ok (plan all_off st fs a) = true ->
  let pl := plan all_off st fs a in
  p_fuel_ok pl = true
  /\ same_files fs (p_files pl)
  /\ (forall n, In n (p_del pl) <-> Discard st fs a n)
  /\ (forall s', In s' (p_files pl) -> (sf_force s' = true <-> Forced st fs a s')).
Proof.
  intros Hac Hfresh Hu Hall Hok pl. unfold pl. destruct (plan_normal st fs a Hac Hfresh Hu Hall Hok) as (Hf & b & Eb & Hb & Hd).
  cbn [ps_files ps_del] in Eb, Hd. split; [exact Hf|]. rewrite Eb. split; [apply flags_same|]. split; [exact Hd|].
  intros s' Hs'. apply flags_In in Hs'. destruct Hs' as (s & Hs & ->). apply (Hb s Hs).
Qed.
