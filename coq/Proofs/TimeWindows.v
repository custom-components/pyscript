(* timer_active_check's model agrees with the property's reading of @time_active for every list of
   signed windows, every start-up time, sun table and instant (C07, second clause); then the end points of range() and of
   daily windows, and concrete windows, dates and crontabs by evaluation.
   [lia] here reads boolean comparisons ([ZifyBool]). *)
From PV Require Import Common.Util Gen.GuardConsts Time.Windows.
From Coq Require Import Lia ZifyBool.

Local Open Scope Z_scope.

(* the regenerated constants are those of the Spec *)
Lemma consts_windows :
  (wa_order_cmp = CmpLe /\ wa_in_lo_cmp = CmpLe /\ wa_in_hi_cmp = CmpLe /\ wa_wrap_lo_cmp = CmpGe /\ wa_wrap_hi_cmp = CmpLe /\
   wa_wrap_or = true) /\
  (wa_pos_any = true /\ wa_pos_empty = true /\ wa_neg_all = true /\ wa_comb_and = true).
Proof. repeat split; reflexivity. Qed.

Lemma range_match_spec s e now : range_match s e now = in_range_spec s e now.
Proof.
  unfold range_match, in_range_spec. destruct consts_windows as ((-> & -> & -> & -> & -> & ->) & _). reflexivity.
Qed.

Lemma in_range_spec_iff s e now : in_range_spec s e now = true <-> in_range s e now.
Proof. unfold in_range_spec, in_range. destruct (Z.leb_spec s e); lia. Qed.

Lemma win_match_spec w st sun now : win_match w st sun now = in_window_spec w st sun now.
Proof. destruct w as [a b|c]; cbn [win_match in_window_spec]; [apply range_match_spec|reflexivity]. Qed.

Lemma inl_In x l : inl x l = true <-> In x l.
Proof. exact (existsb_eqb_In _ Z.eqb_eq x l). Qed.

Lemma andb_iff (a b : bool) (A B : Prop) : (a = true <-> A) -> (b = true <-> B) -> (a && b = true <-> A /\ B).
Proof. intros <- <-. apply andb_true_iff. Qed.

Lemma orb_iff (a b : bool) (A B : Prop) : (a = true <-> A) -> (b = true <-> B) -> (a || b = true <-> A \/ B).
Proof. intros <- <-. apply orb_true_iff. Qed.

Lemma cron_match_spec c now : cron_match c now = true <-> cron_spec c now.
Proof.
  unfold cron_match, cron_spec. cbv zeta. rewrite <- !andb_assoc. repeat (apply andb_iff; [apply inl_In|]).
  destruct (c_dom_star c || c_dow_star c); [apply andb_iff|apply orb_iff]; apply inl_In.
Qed.

Lemma in_window_spec_iff w st sun now : in_window_spec w st sun now = true <-> in_window w st sun now.
Proof. destruct w as [a b|c]; cbn [in_window_spec in_window]; [apply in_range_spec_iff|apply cron_match_spec]. Qed.

Lemma collect_spec specs st sun now : forall pos neg,
  collect specs st sun now pos neg =
  (pos ++ map (fun s : sspec => in_window_spec (snd s) st sun now) (filter (fun s => negb (fst s)) specs),
   neg ++ map (fun s : sspec => negb (in_window_spec (snd s) st sun now)) (filter fst specs)).
Proof.
  induction specs as [|[ng w] r IH]; intros pos neg; cbn [collect filter map fst].
  - rewrite !app_nil_r. reflexivity.
  - rewrite win_match_spec. destruct ng; cbn [negb]; rewrite IH; cbn [map snd]; rewrite <- app_assoc; reflexivity.
Qed.

Lemma existsb_map_filter {A} (P f : A -> bool) l :
  existsb (fun b => b) (map f (filter P l)) = existsb (fun x => P x && f x) l.
Proof.
  induction l as [|x r IH]; cbn; [reflexivity|]. destruct (P x); cbn; rewrite IH; reflexivity.
Qed.

Lemma forallb_map_filter {A} (P f : A -> bool) l :
  forallb (fun b => b) (map f (filter P l)) = forallb (fun x => negb (P x) || f x) l.
Proof.
  induction l as [|x r IH]; cbn; [reflexivity|]. destruct (P x); cbn; rewrite IH; reflexivity.
Qed.

Lemma filter_nil_existsb {A} (P : A -> bool) l : filter P l = [] <-> existsb P l = false.
Proof.
  induction l as [|x r IH]; cbn; [tauto|]. destruct (P x); cbn; [split; discriminate|assumption].
Qed.

(* `any(pos) if pos else True` *)
Lemma any_or_empty {A} (P f : A -> bool) l :
  match map f (filter P l) with [] => true | _ :: _ => existsb (fun b => b) (map f (filter P l)) end =
  negb (existsb P l) || existsb (fun x => P x && f x) l.
Proof.
  induction l as [|x r IH]; cbn; [reflexivity|]. destruct (P x); cbn; [rewrite existsb_map_filter; reflexivity|exact IH].
Qed.

Lemma active_check_spec specs st sun now : active_check specs st sun now = active_spec_b specs st sun now.
Proof.
  unfold active_check. rewrite collect_spec. cbn [app]. unfold combine_results, active_spec_b.
  destruct consts_windows as (_ & (-> & -> & -> & ->)). unfold py_any, py_all.
  rewrite forallb_map_filter, any_or_empty. reflexivity.
Qed.

Lemma active_spec_b_iff specs st sun now : active_spec_b specs st sun now = true <-> active_spec specs st sun now.
Proof.
  unfold active_spec_b, active_spec. apply andb_iff; [apply orb_iff|].
  - rewrite negb_true_iff, <- not_true_iff_false, existsb_exists. split.
    + intros N w Hin. apply N. exists (false, w). auto.
    + intros N ([[|] w] & Hin & E); [discriminate|exact (N w Hin)].
  - rewrite existsb_exists. setoid_rewrite <- in_window_spec_iff. split.
    + intros ([[|] w] & Hin & E); [discriminate|eauto].
    + intros (w & Hin & E). exists (false, w). auto.
  - rewrite forallb_forall. setoid_rewrite <- in_window_spec_iff. split.
    + intros H w Hin E. specialize (H _ Hin). cbn in H. rewrite E in H. discriminate.
    + intros H [[|] w] Hin; [|reflexivity]. specialize (H w Hin). cbn. destruct (in_window_spec w st sun now); tauto.
Qed.

Lemma active_check_iff specs st sun now : active_check specs st sun now = true <-> active_spec specs st sun now.
Proof. rewrite active_check_spec. apply active_spec_b_iff. Qed.

Lemma range_inclusive s e : s <= e ->
  range_match s e s = true /\ range_match s e e = true /\
  range_match s e (s - 1) = false /\ range_match s e (e + 1) = false.
Proof.
  intros H. repeat split; rewrite range_match_spec; unfold in_range_spec; rewrite (proj2 (Z.leb_le s e) H); lia.
Qed.

Lemma range_wraps s e now : e < s -> range_match s e now = (s <=? now) || (now <=? e).
Proof. intros H. rewrite range_match_spec. unfold in_range_spec. destruct (Z.leb_spec s e); [lia|reflexivity]. Qed.

Lemma range_wrap_endpoints s e : e < s ->
  range_match s e s = true /\ range_match s e e = true /\
  (e + 1 < s -> range_match s e (e + 1) = false) /\ (e < s - 1 -> range_match s e (s - 1) = false).
Proof. intros H. repeat split; intros; rewrite range_wraps by exact H; lia. Qed.

(* Time/Windows.v has its own DAY, day_of and calendar (Hinnant's formulas); no lemma relates them to those of the same names in
   Common/Civil.v *)
Lemma day_of_add d t : 0 <= t < DAY -> day_of (d * DAY + t) = d.
Proof. intros H. unfold day_of. rewrite Z.add_comm, Z.div_add, Z.div_small by (unfold DAY in *; lia). reflexivity. Qed.

Lemma in_range_spec_shift a s e t : in_range_spec (a + s) (a + e) (a + t) = in_range_spec s e t.
Proof. unfold in_range_spec. destruct (Z.leb_spec s e), (Z.leb_spec (a + s) (a + e)); lia. Qed.

(* daily windows "range(HH:MM:SS, HH:MM:SS)" *)
Lemma daily_match ta tb st sun d t : 0 <= ta < DAY -> 0 <= t < DAY ->
  win_match (daily ta tb) st sun (d * DAY + t) = in_range_spec ta tb t.
Proof.
  intros Ha Ht. unfold daily. cbn [win_match resolve resolve_day].
  rewrite (day_of_add d t Ht), (day_of_add d ta Ha), range_match_spec. apply in_range_spec_shift.
Qed.

Lemma daily_endpoints_inclusive ta tb st sun d : 0 <= ta -> ta <= tb -> tb < DAY ->
  win_match (daily ta tb) st sun (d * DAY + ta) = true /\
  win_match (daily ta tb) st sun (d * DAY + tb) = true /\
  (tb + 1 < DAY -> win_match (daily ta tb) st sun (d * DAY + (tb + 1)) = false) /\
  (0 <= ta - 1 -> win_match (daily ta tb) st sun (d * DAY + (ta - 1)) = false).
Proof.
  intros H0 H1 H2. repeat split; intros; rewrite daily_match by lia; unfold in_range_spec; destruct (Z.leb_spec ta tb); lia.
Qed.

Lemma daily_wrap_midnight ta tb st sun d t : 0 <= tb -> tb < ta -> ta < DAY -> 0 <= t < DAY ->
  win_match (daily ta tb) st sun (d * DAY + t) = (ta <=? t) || (t <=? tb).
Proof.
  intros H0 H1 H2 Ht. rewrite daily_match by lia. unfold in_range_spec. destruct (Z.leb_spec ta tb); [lia|reflexivity].
Qed.

Lemma daily_wrap_overnight ta tb st sun d t : 0 <= tb -> tb < ta -> ta < DAY -> 0 <= t < DAY ->
  win_match (daily ta tb) st sun (d * DAY + t) = true <->
  exists k, k * DAY + ta <= d * DAY + t <= (k + 1) * DAY + tb.
Proof.
  intros H0 H1 H2 Ht. rewrite daily_wrap_midnight by assumption. split.
  - intros H. apply orb_true_iff in H. destruct H as [H|H]; [exists d|exists (d - 1)]; lia.
  - intros (k & Hk1 & Hk2). assert (k = d \/ k = d - 1) as [-> | ->] by nia; lia.
Qed.

(* day 19786 = Monday 2024-03-04 *)
Definition D0 : Z := 19786 * DAY.
Definition hms (h m s : Z) : Z := h * HOUR + m * MINUTE + s * 1000000.

Example range_10_13_end_included : win_match (daily (hms 10 0 0) (hms 13 0 0)) 0 [] (D0 + hms 13 0 0) = true.
Proof. reflexivity. Qed.
Example range_10_13_after_end : win_match (daily (hms 10 0 0) (hms 13 0 0)) 0 [] (D0 + hms 13 0 0 + 1) = false.
Proof. reflexivity. Qed.
Example range_10_13_start_included : win_match (daily (hms 10 0 0) (hms 13 0 0)) 0 [] (D0 + hms 10 0 0) = true.
Proof. reflexivity. Qed.
Example range_10_13_before_start : win_match (daily (hms 10 0 0) (hms 13 0 0)) 0 [] (D0 + hms 10 0 0 - 1) = false.
Proof. reflexivity. Qed.
Example range_22_06_end_included : win_match (daily (hms 22 0 0) (hms 6 0 0)) 0 [] (D0 + hms 6 0 0) = true.
Proof. reflexivity. Qed.
Example range_22_06_after_end : win_match (daily (hms 22 0 0) (hms 6 0 0)) 0 [] (D0 + hms 6 0 0 + 1) = false.
Proof. reflexivity. Qed.
Example range_22_06_before_start : win_match (daily (hms 22 0 0) (hms 6 0 0)) 0 [] (D0 + hms 22 0 0 - 1) = false.
Proof. reflexivity. Qed.
Example range_22_06_start_included : win_match (daily (hms 22 0 0) (hms 6 0 0)) 0 [] (D0 + hms 22 0 0) = true.
Proof. reflexivity. Qed.
Example range_22_06_midnight : win_match (daily (hms 22 0 0) (hms 6 0 0)) 0 [] (D0 + DAY - 1) = true
                               /\ win_match (daily (hms 22 0 0) (hms 6 0 0)) 0 [] (D0 + DAY) = true.
Proof. split; reflexivity. Qed.
Example daily_hyps_inhabited : 0 <= hms 6 0 0 /\ hms 6 0 0 < hms 22 0 0 /\ hms 22 0 0 < DAY /\ hms 10 0 0 <= hms 13 0 0.
Proof. cbv. intuition discriminate. Qed.

Example civil_2024_03_04 : civil_from_days 19786 = (2024, 3, 4) /\ days_from_civil 2024 3 4 = 19786 /\ dow_of_day 19786 = 1.
Proof. repeat split; reflexivity. Qed.
Example civil_leap_day : civil_from_days (days_from_civil 2024 2 28 + 1) = (2024, 2, 29)
                         /\ civil_from_days (days_from_civil 2023 2 28 + 1) = (2023, 3, 1)
                         /\ civil_from_days (days_from_civil 2023 12 31 + 1) = (2024, 1, 1).
Proof. repeat split; reflexivity. Qed.

Definition zr (a n : nat) : list Z := map Z.of_nat (seq a n).
Definition cron_noon : cronspec :=                      (* "0 12 * * *" *)
  {| c_min := [0]; c_hour := [12]; c_dom := zr 1 31; c_mon := zr 1 12; c_dow := zr 0 7; c_dom_star := true; c_dow_star := true |}.
Example cron_noon_minute : cron_match cron_noon (D0 + hms 12 0 0) = true /\ cron_match cron_noon (D0 + hms 12 0 59 + 999999) = true
                           /\ cron_match cron_noon (D0 + hms 12 1 0) = false /\ cron_match cron_noon (D0 + hms 12 0 0 - 1) = false.
Proof. repeat split; reflexivity. Qed.
(* "* * 5 * 1" on Monday the 4th: both day fields restricted, the weekday suffices; "* * 5 * *": it does not *)
Definition cron_5th_or_monday : cronspec :=
  {| c_min := zr 0 60; c_hour := zr 0 24; c_dom := [5]; c_mon := zr 1 12; c_dow := [1]; c_dom_star := false; c_dow_star := false |}.
Definition cron_5th : cronspec :=
  {| c_min := zr 0 60; c_hour := zr 0 24; c_dom := [5]; c_mon := zr 1 12; c_dow := zr 0 7; c_dom_star := false; c_dow_star := true |}.
Example cron_day_rule : cron_match cron_5th_or_monday (D0 + hms 12 0 0) = true /\ cron_match cron_5th (D0 + hms 12 0 0) = false
                        /\ cron_match cron_5th (D0 + DAY + hms 12 0 0) = true.
Proof. repeat split; reflexivity. Qed.
