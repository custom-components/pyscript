(* pyscript's argument binding (with D11, D30 repaired) is the reference binding of the Language Reference, except for
   dropped trigger keywords.  Both are related to one stateless description [decl]: pyscript's loops, which consume the
   keyword dictionary as they go, under every setting of the switches ([call_ps_decl]); the reference's slot filling where
   the switches do not show ([decl_py]).  After [call_equiv]: its converse [bind_refuted_unless_off] (a refuting call for each
   of D11, D30), two worked calls, the signature from a def statement, the checker bridge [bcase_model_implies_spec]. *)
From Coq Require Import String.
From PV Require Import Common.Util Interp.Bind Gen.BindConsts Interp.BindCheck.

Definition keys (kw : kwargs) : list name := map fst kw.

Lemma str_mem_In k l : str_mem k l = true <-> In k l.
Proof. exact (existsb_eqb_In _ String.eqb_eq k l). Qed.
Lemma str_mem_false k l : str_mem k l = false <-> ~ In k l.
Proof. exact (existsb_eqb_notin _ String.eqb_eq k l). Qed.
Lemma str_mem_app k a b : str_mem k (a ++ b) = str_mem k a || str_mem k b.
Proof. unfold str_mem. apply existsb_app. Qed.

Lemma kw_mem_keys k kw : kw_mem k kw = str_mem k (keys kw).
Proof. unfold kw_mem, str_mem, keys. induction kw as [|[k' v] r IH]; cbn; [reflexivity|]. rewrite IH. reflexivity. Qed.
Lemma kw_mem_In k kw : kw_mem k kw = true <-> In k (keys kw).
Proof. rewrite kw_mem_keys. apply str_mem_In. Qed.
Lemma kw_mem_ex k kw : kw_mem k kw = true <-> exists v, In (k, v) kw.
Proof.
  rewrite kw_mem_In. unfold keys. rewrite in_map_iff. split.
  - intros ([k' v] & E & H). cbn in E. subst. exists v. assumption.
  - intros (v & H). exists (k, v). split; [reflexivity|assumption].
Qed.

Lemma has_dup_NoDup l : has_dup l = false <-> NoDup l.
Proof.
  induction l as [|x r IH]; cbn.
  - split; [constructor|reflexivity].
  - rewrite orb_false_iff, IH, str_mem_false, NoDup_cons_iff. reflexivity.
Qed.

Lemma NoDup_app_iff {A} (a b : list A) : NoDup (a ++ b) <-> NoDup a /\ NoDup b /\ forall x, In x a -> ~ In x b.
Proof.
  induction a as [|y r IH]; cbn.
  - split; [intros H|intros (_ & H & _); exact H]. repeat split; [constructor|exact H|intros x []].
  - rewrite !NoDup_cons_iff, IH, in_app_iff. split.
    + intros (Hy & Hr & Hb & D). repeat split; [tauto|assumption|assumption|].
      intros x [<-|Hx]; [tauto|exact (D x Hx)].
    + intros ((Hy & Hr) & Hb & D). repeat split; [|assumption|assumption|intros x Hx; exact (D x (or_intror Hx))].
      intros [Hy'|Hy']; [exact (Hy Hy')|exact (D y (or_introl eq_refl) Hy')].
Qed.

Lemma has_dup_app_mem k a b : In k a -> has_dup (a ++ k :: b) = true.
Proof.
  intros H. apply not_false_iff_true. rewrite has_dup_NoDup, NoDup_app_iff. intros (_ & _ & D).
  apply (D k H). left. reflexivity.
Qed.

Lemma kw_set_new k v kw : kw_mem k kw = false -> kw_set k v kw = kw ++ [(k, v)].
Proof.
  induction kw as [|[k' v'] r IH]; cbn; [reflexivity|].
  unfold kw_mem in *. cbn. intros H. apply orb_false_iff in H as [H1 H2]. rewrite H1, IH by assumption. reflexivity.
Qed.

Lemma kw_get_mem k kw : kw_mem k kw = is_some (kw_get k kw).
Proof. rewrite kw_mem_keys. exact (al_get_keys String.eqb k kw). Qed.

Lemma kw_mem_same k1 k2 p : kw_get p k1 = kw_get p k2 -> kw_mem p k1 = kw_mem p k2.
Proof. rewrite !kw_get_mem. intros ->. reflexivity. Qed.

Lemma existsb_ext_in {A} (f g : A -> bool) l : (forall x, In x l -> f x = g x) -> existsb f l = existsb g l.
Proof.
  induction l as [|x r IH]; cbn; intros H; [reflexivity|].
  rewrite (H x) by (left; reflexivity). rewrite IH by (intros y Hy; apply H; right; assumption). reflexivity.
Qed.

Lemma forallb_ext_in {A} (f g : A -> bool) l : (forall x, In x l -> f x = g x) -> forallb f l = forallb g l.
Proof.
  induction l as [|x r IH]; cbn; intros H; [reflexivity|].
  rewrite (H x) by (left; reflexivity). rewrite IH by (intros y Hy; apply H; right; assumption). reflexivity.
Qed.

(* a [forallb], to be convertible with [forallb (tolerated [] s)] in [bind_py_decl] *)
Local Definition is_nil {A} (l : list A) : bool := forallb (fun _ => false) l.

Lemma existsb_filter {A} (f : A -> bool) l : existsb f l = negb (is_nil (filter f l)).
Proof. induction l as [|x r IH]; [reflexivity|]. cbn [existsb filter]. destruct (f x); [reflexivity|apply IH]. Qed.

Lemma forallb_filter_rest {A} (f g : A -> bool) l :
  forallb f (filter g l) = is_nil (filter g (filter (fun x => negb (f x)) l)).
Proof.
  unfold is_nil. induction l as [|x r IH]; [reflexivity|]. cbn [filter].
  destruct (g x) eqn:Eg, (f x) eqn:Ef; cbn [negb filter forallb]; rewrite ?Eg, ?Ef; cbn [forallb andb]; try exact IH. reflexivity.
Qed.

Lemma kw_get_filter (g : name -> bool) p kw :
  kw_get p (filter (fun kv => g (fst kv)) kw) = if g p then kw_get p kw else None.
Proof. exact (al_get_filter _ String.eqb_eq g p kw). Qed.

Definition not_in (l : list name) (p : name * val) : bool := negb (str_mem (fst p) l).

Lemma not_in_nil kw : filter (not_in []) kw = kw.
Proof. apply filter_all. reflexivity. Qed.

Lemma not_in_app a b kw : filter (not_in b) (filter (not_in a) kw) = filter (not_in (a ++ b)) kw.
Proof.
  rewrite filter_filter. apply filter_ext. intros [k v]. unfold not_in. cbn [fst].
  rewrite str_mem_app, negb_orb. reflexivity.
Qed.

Lemma kw_del_filter k kw : NoDup (keys kw) -> kw_del k kw = filter (fun p => negb (String.eqb k (fst p))) kw.
Proof.
  induction kw as [|[k' v] r IH]; cbn; [reflexivity|]. intros H. inversion H; subst.
  destruct (String.eqb k k') eqn:E; cbn.
  - apply String.eqb_eq in E. subst.
    symmetry. apply filter_all. intros [k2 v2] Hin. cbn. apply negb_true_iff. apply String.eqb_neq.
    intros ->. exact (H2 (in_map fst r (k2, v2) Hin)).
  - rewrite IH by assumption. reflexivity.
Qed.

Lemma kw_del_absent k kw : kw_mem k kw = false -> kw_del k kw = kw.
Proof.
  unfold kw_mem. induction kw as [|[k' v] r IH]; cbn; [reflexivity|]. intros H. apply orb_false_iff in H as [H1 H2].
  rewrite H1, IH by assumption. reflexivity.
Qed.

(* what the loops over the parameters need to know of `del kwargs[k]` *)
Lemma kw_del_facts k kw : NoDup (keys kw) ->
  NoDup (keys (kw_del k kw))
  /\ (forall q, q <> k -> kw_get q (kw_del k kw) = kw_get q kw)
  /\ (forall l, filter (not_in l) (kw_del k kw) = filter (not_in (k :: l)) kw).
Proof.
  intros H. rewrite kw_del_filter by assumption. split; [apply NoDup_map_filter; assumption|]. split.
  - intros q Hq. rewrite (kw_get_filter (fun x => negb (String.eqb k x))).
    replace (String.eqb k q) with false; [reflexivity|]. symmetry. apply String.eqb_neq. congruence.
  - intros l. rewrite filter_filter. apply filter_ext. intros [x v]. unfold not_in. cbn [fst str_mem existsb].
    rewrite (String.eqb_sym x k), negb_orb. reflexivity.
Qed.

(* D30 shows only where a key is repeated *)
Lemma ps_kw_update_off cfg kvs : forall kw, NoDup (keys kw) -> (d_dup_kw cfg = true -> NoDup (keys (kw ++ kvs))) ->
  ps_kw_update cfg kvs kw = if has_dup (keys (kw ++ kvs)) then None else Some (kw ++ kvs).
Proof.
  induction kvs as [|[k v] r IH]; intros kw H H30; cbn [ps_kw_update].
  - rewrite app_nil_r. apply has_dup_NoDup in H. rewrite H. reflexivity.
  - unfold ps_kw_put. destruct (kw_mem k kw) eqn:E.
    + apply kw_mem_In in E. unfold keys in *. rewrite map_app in *. cbn [map fst] in *. rewrite has_dup_app_mem by assumption.
      destruct (d_dup_kw cfg); [|reflexivity]. apply has_dup_NoDup in H30; [|reflexivity]. rewrite has_dup_app_mem in H30 by assumption. discriminate.
    + rewrite andb_false_r, kw_set_new by assumption. rewrite IH, <- app_assoc; [reflexivity| |rewrite <- app_assoc; exact H30].
      unfold keys. rewrite map_app. cbn [map fst]. apply NoDup_app_iff. repeat split; [assumption|repeat constructor; intros []|].
      intros x Hx [<-|[]]. apply kw_mem_In in Hx. congruence.
Qed.

Lemma ps_kw_update_NoDup cfg kvs : forall kw kw', NoDup (keys kw) -> ps_kw_update cfg kvs kw = Some kw' -> NoDup (keys kw').
Proof.
  induction kvs as [|[k v] r IH]; intros kw kw' H; cbn [ps_kw_update]; [intros [= <-]; exact H|].
  unfold ps_kw_put. destruct (_ && _); [discriminate|]. apply IH. exact (al_set_NoDup _ String.eqb_eq k v kw H).
Qed.

Lemma ps_kw_update_app cfg a : forall b kw,
  ps_kw_update cfg (a ++ b) kw = match ps_kw_update cfg a kw with Some kw' => ps_kw_update cfg b kw' | None => None end.
Proof.
  induction a as [|[k v] r IH]; intros b kw; cbn [app ps_kw_update]; [reflexivity|].
  destruct (ps_kw_put cfg k v kw); [apply IH|reflexivity].
Qed.

Lemma assemble_ps_flat cfg items : forall args kw,
  assemble_ps cfg items args kw =
  match ps_kw_update cfg (flat_map item_kw items) kw with
  | Some kw' => Some (args ++ flat_map item_pos items, kw')
  | None => None
  end.
Proof.
  induction items as [|it r IH]; intros args kw; cbn [assemble_ps flat_map].
  - rewrite app_nil_r. reflexivity.
  - destruct it as [v|vs|k v|kvs]; cbn [item_kw item_pos app].
    + rewrite IH, <- app_assoc. reflexivity.
    + rewrite IH, <- app_assoc. reflexivity.
    + cbn [ps_kw_update]. destruct (ps_kw_put cfg k v kw); [apply IH|reflexivity].
    + rewrite ps_kw_update_app. destruct (ps_kw_update cfg kvs kw); [apply IH|reflexivity].
Qed.

(* what parameter p at index i of posonlyargs + args is bound to; None: TypeError.  A keyword that names a
   positional-only parameter goes to **kwargs, and is an error where there is none *)
Definition pos_value (haskw : bool) (nposonly npos ndef : nat) (args : list val) (kw : kwargs) (i : nat) (p : name) : option bval :=
  let named := ((nposonly <=? i) || negb haskw) && kw_mem p kw in
  match nth_error args i with
  | Some v => if named then None else Some (BV v)
  | None => if named then (if nposonly <=? i then option_map BV (kw_get p kw) else None) else pos_default npos ndef i
  end.

Fixpoint decl_pos (haskw : bool) (nposonly npos ndef : nat) (args : list val) (kw : kwargs) (params : list name) (i : nat)
  : option (list (name * bval)) :=
  match params with
  | [] => Some []
  | p :: ps =>
      match pos_value haskw nposonly npos ndef args kw i p, decl_pos haskw nposonly npos ndef args kw ps (S i) with
      | Some v, Some l => Some ((p, v) :: l)
      | _, _ => None
      end
  end.

Definition kwonly_value (kw : kwargs) (i : nat) (p : name) (d : bool) : option bval :=
  match kw_get p kw with Some v => Some (BV v) | None => if d then Some (BKwDef i) else None end.

Fixpoint decl_kwonly (kw : kwargs) (params : list (name * bool)) (i : nat) : option (list (name * bval)) :=
  match params with
  | [] => Some []
  | (p, d) :: ps =>
      match kwonly_value kw i p d, decl_kwonly kw ps (S i) with
      | Some v, Some l => Some ((p, v) :: l)
      | _, _ => None
      end
  end.

Definition kwable (s : sig) : list name := s_args s ++ map fst (s_kwonly s).

(* an unexpected keyword that is let pass *)
Definition tolerated (trig : list name) (s : sig) (p : name * val) : bool :=
  str_mem (fst p) trig && negb (str_mem (fst p) (param_names s)).

(* keywords that name no parameter a keyword may fill go to **kwargs; without **kwargs all have to be tolerated.  Python
   is [d11 = false], [trig = []].  D11 is the whole of [bind_ps]'s dependence on the switches: with it the positional
   parameters are looked up as if the function had no **kwargs. *)
Definition decl (d11 : bool) (trig : list name) (s : sig) (args : list val) (kw : kwargs) : outcome :=
  let pos := s_posonly s ++ s_args s in
  let npos := length pos in
  match decl_pos (is_some (s_kwarg s) && negb d11) (length (s_posonly s)) npos (s_ndef s) args kw pos 0, decl_kwonly kw (s_kwonly s) 0 with
  | Some bp, Some bk =>
      let left := filter (not_in (kwable s)) kw in
      match (match s_kwarg s with
             | Some k => Some (Some (k, left))
             | None => if forallb (tolerated trig s) left then Some None else None
             end) with
      | None => TypeErr
      | Some bkw =>
          match s_vararg s with
          | Some va => Bound {| b_params := bp ++ bk; b_var := Some (va, skipn npos args); b_kw := bkw |}
          | None => if npos <? length args then TypeErr
                    else Bound {| b_params := bp ++ bk; b_var := None; b_kw := bkw |}
          end
      end
  | _, _ => TypeErr
  end.

Definition sig_wf (s : sig) : Prop :=
  NoDup (param_names s) /\ s_ndef s <= length (s_posonly s ++ s_args s).

Lemma sig_wf_b_wf s : sig_wf_b s = true -> sig_wf s.
Proof.
  unfold sig_wf_b, sig_wf. rewrite andb_true_iff, negb_true_iff, has_dup_NoDup, Nat.leb_le. intros [H1 H2].
  split; [|assumption]. unfold sig_names in H1. apply NoDup_app_iff in H1. apply H1.
Qed.

Lemma distinct_parts s : NoDup (param_names s) ->
  let pos := s_posonly s ++ s_args s in
  NoDup pos /\ NoDup (s_args s) /\ NoDup (map fst (s_kwonly s)) /\
  (forall p, In p (s_posonly s) -> ~ In p (kwable s)) /\
  (forall p, In p pos -> ~ In p (map fst (s_kwonly s))).
Proof.
  intros H. unfold param_names in H. pose proof H as H'. rewrite app_assoc in H'.
  apply NoDup_app_iff in H as (_ & H & D1). apply NoDup_app_iff in H as (N2 & N3 & _).
  apply NoDup_app_iff in H' as (Np & _ & D2). repeat split; assumption.
Qed.

Lemma decl_pos_ext haskw nposonly npos ndef args k1 k2 params : forall i,
  (forall p, In p params -> kw_get p k1 = kw_get p k2) ->
  decl_pos haskw nposonly npos ndef args k1 params i = decl_pos haskw nposonly npos ndef args k2 params i.
Proof.
  induction params as [|p ps IH]; intros i H; cbn [decl_pos]; [reflexivity|].
  rewrite (IH (S i)) by (intros q Hq; apply H; right; assumption).
  unfold pos_value. rewrite (kw_mem_same k1 k2 p), (H p) by (try apply H; left; reflexivity). reflexivity.
Qed.

Lemma decl_kwonly_ext k1 k2 params : forall i,
  (forall p, In p (map fst params) -> kw_get p k1 = kw_get p k2) ->
  decl_kwonly k1 params i = decl_kwonly k2 params i.
Proof.
  induction params as [|[p d] ps IH]; intros i H; cbn [decl_kwonly]; [reflexivity|].
  rewrite (IH (S i)) by (intros q Hq; apply H; right; assumption).
  unfold kwonly_value. rewrite (H p) by (left; reflexivity). reflexivity.
Qed.

(* the positional loop's outcome once the `bad_kwargs` check that follows it has been passed *)
Local Definition ok (r : option (list (name * bval) * kwargs * bool)) : option (list (name * bval) * kwargs) :=
  match r with Some (l, kw, false) => Some (l, kw) | _ => None end.

Lemma ok_cons x r : ok (cons_res x r) = cons_res2 x (ok r).
Proof. destruct r as [[[? ?] []]|]; reflexivity. Qed.

Section PsLoops.
Variables (cfg : deviations) (nposonly npos ndef : nat) (haskw : bool) (args : list val).
(* what the loop uses in place of [npos] and [haskw]; with D11 it takes no notice of **kwargs *)
Let nposn := npos - ndef.
Let hk := haskw && negb (d_posonly_kw cfg).

(* every branch of the loop is an error or [cons_res] of the rest of the loop *)
Lemma bad_stays params : forall i kw, ok (ps_pos cfg nposonly nposn ndef haskw args params i kw true) = None.
Proof.
  assert (C : forall x r, ok r = None -> ok (cons_res x r) = None) by (intros x r E; rewrite ok_cons, E; reflexivity).
  induction params as [|p ps IH]; intros i kw; [reflexivity|]. cbn [ps_pos orb].
  destruct (nth_error args i), (kw_mem p kw && _).
  - reflexivity.
  - apply C, IH.
  - destruct (kw_get p kw); [apply C, IH|reflexivity].
  - destruct ((nposn <=? i) && _); [apply C, IH|reflexivity].
Qed.

(* without **kwargs, or with D11, the dictionary is consulted for a positional-only parameter too, and a keyword found
   there raises the flag *)
Lemma ps_pos_step p ps i kw : i < npos ->
  ok (ps_pos cfg nposonly nposn ndef haskw args (p :: ps) i kw false) =
  match pos_value hk nposonly npos ndef args kw i p with
  | Some v => cons_res2 (p, v) (ok (ps_pos cfg nposonly nposn ndef haskw args ps (S i)
                                      (if nposonly <=? i then kw_del p kw else kw) false))
  | None => None
  end.
Proof.
  intros Hi. cbn [ps_pos]. unfold pos_value. rewrite Nat.ltb_antisym. cbv zeta.
  replace (kw_mem p kw && negb (negb (d_posonly_kw cfg) && negb (nposonly <=? i) && haskw))
    with (((nposonly <=? i) || negb hk) && kw_mem p kw)
    by (subst hk; destruct (d_posonly_kw cfg), (nposonly <=? i), haskw, (kw_mem p kw); reflexivity).
  assert (K : ((nposonly <=? i) || negb hk) && kw_mem p kw = false -> (if nposonly <=? i then kw_del p kw else kw) = kw).
  { destruct (nposonly <=? i); [apply kw_del_absent|reflexivity]. }
  destruct (nth_error args i) as [v|]; destruct (((nposonly <=? i) || negb hk) && kw_mem p kw) eqn:C; try rewrite (K eq_refl).
  - reflexivity.
  - apply ok_cons.
  - (* taken from the dictionary *)
    destruct (nposonly <=? i); cbn [negb orb].
    + destruct (kw_get p kw); [apply ok_cons|reflexivity].
    + destruct (kw_get p kw); [rewrite ok_cons, bad_stays|]; reflexivity.
  - unfold pos_default. fold nposn.
    replace (i <? ndef + nposn) with true by (symmetry; apply Nat.ltb_lt; unfold nposn; lia).
    rewrite andb_true_r. destruct (nposn <=? i); [apply ok_cons|reflexivity].
Qed.

Lemma ps_pos_decl_bykw params : forall i kw,
  nposonly <= i -> i + length params <= npos -> NoDup params -> NoDup (keys kw) ->
  ok (ps_pos cfg nposonly nposn ndef haskw args params i kw false) =
  match decl_pos hk nposonly npos ndef args kw params i with
  | Some l => Some (l, filter (not_in params) kw)
  | None => None
  end.
Proof.
  induction params as [|p ps IH]; intros i kw Hi Hl Hnp Hkw.
  - cbn [ps_pos decl_pos ok]. rewrite not_in_nil. reflexivity.
  - cbn [length] in Hl. inversion Hnp as [|? ? Hp Hps]; subst. destruct (kw_del_facts p kw Hkw) as (D1 & D2 & D3).
    rewrite ps_pos_step by lia. replace (nposonly <=? i) with true by (symmetry; apply Nat.leb_le; assumption).
    cbn [decl_pos]. rewrite IH, D3 by (assumption || lia).
    rewrite (decl_pos_ext _ _ _ _ _ (kw_del p kw) kw) by (intros q Hq; apply D2; intros ->; contradiction).
    destruct (pos_value hk nposonly npos ndef args kw i p); [|reflexivity].
    destruct (decl_pos hk nposonly npos ndef args kw ps (S i)); reflexivity.
Qed.

(* lo: positional-only parameters, which leave the dictionary alone; hi: the others *)
Lemma ps_pos_decl lo hi : forall i kw,
  i + length lo = nposonly -> nposonly + length hi <= npos -> NoDup hi -> NoDup (keys kw) ->
  ok (ps_pos cfg nposonly nposn ndef haskw args (lo ++ hi) i kw false) =
  match decl_pos hk nposonly npos ndef args kw (lo ++ hi) i with
  | Some l => Some (l, filter (not_in hi) kw)
  | None => None
  end.
Proof.
  induction lo as [|p ps IH]; intros i kw Hi Hl Hnp Hkw; cbn [app length] in *.
  - apply ps_pos_decl_bykw; (assumption || lia).
  - rewrite ps_pos_step by lia.
    replace (nposonly <=? i) with false by (symmetry; apply Nat.leb_gt; lia).
    cbn [decl_pos]. rewrite IH by (lia || assumption).
    destruct (pos_value hk nposonly npos ndef args kw i p); [|reflexivity].
    destruct (decl_pos hk nposonly npos ndef args kw (ps ++ hi) (S i)); reflexivity.
Qed.

End PsLoops.

Lemma ps_kwonly_step p d ps i kw :
  ps_kwonly ((p, d) :: ps) i kw =
  match kwonly_value kw i p d with
  | Some v => cons_res2 (p, v) (ps_kwonly ps (S i) (kw_del p kw))
  | None => None
  end.
Proof.
  cbn [ps_kwonly]. unfold kwonly_value. destruct (kw_get p kw) eqn:E; [reflexivity|].
  rewrite kw_del_absent by (rewrite kw_get_mem, E; reflexivity). destruct d; reflexivity.
Qed.

Lemma ps_kwonly_decl params : forall i kw,
  NoDup (map fst params) -> NoDup (keys kw) ->
  ps_kwonly params i kw =
  match decl_kwonly kw params i with
  | Some l => Some (l, filter (not_in (map fst params)) kw)
  | None => None
  end.
Proof.
  induction params as [|[p d] ps IH]; intros i kw Hnd Hkw.
  - cbn [ps_kwonly decl_kwonly map]. rewrite not_in_nil. reflexivity.
  - inversion Hnd as [|? ? Hp Hps]; subst. destruct (kw_del_facts p kw Hkw) as (D1 & D2 & D3).
    rewrite ps_kwonly_step. cbn [decl_kwonly map fst]. rewrite IH, D3 by assumption.
    rewrite (decl_kwonly_ext (kw_del p kw) kw) by (intros q Hq; apply D2; intros ->; contradiction).
    destruct (kwonly_value kw i p d); [|reflexivity]. destruct (decl_kwonly kw ps (S i)); reflexivity.
Qed.

Lemma decl_pos_none haskw nposonly npos ndef args kw params : forall i j p,
  nth_error params j = Some p -> pos_value haskw nposonly npos ndef args kw (i + j) p = None ->
  decl_pos haskw nposonly npos ndef args kw params i = None.
Proof.
  induction params as [|q r IH]; intros i j p Hn Hv; [destruct j; discriminate|].
  cbn [decl_pos]. destruct j as [|j]; cbn in Hn.
  - inversion Hn; subst. rewrite Nat.add_0_r in Hv. rewrite Hv. reflexivity.
  - rewrite (IH (S i) j p) by (try assumption; rewrite <- Nat.add_succ_comm in Hv; assumption).
    destruct (pos_value haskw nposonly npos ndef args kw i q); reflexivity.
Qed.

Lemma bind_ps_decl cfg trig s args kw : NoDup (param_names s) -> NoDup (keys kw) ->
  bind_ps cfg trig s args kw = decl (d_posonly_kw cfg) trig s args kw.
Proof.
  intros Hwf Hkw. destruct (distinct_parts s Hwf) as (_ & N2 & N3 & D1 & D2).
  unfold bind_ps, decl.
  pose proof (ps_pos_decl cfg _ (length (s_posonly s ++ s_args s)) (s_ndef s) (is_some (s_kwarg s)) args
                (s_posonly s) (s_args s) 0 kw eq_refl) as P.
  specialize (P ltac:(rewrite app_length; lia) N2 Hkw).
  destruct (decl_pos _ _ _ _ _ _ _ _) as [bp'|] eqn:Edp.
  2:{ (* the description fails: so does the loop, or the bad_kwargs check after it *)
      destruct (ps_pos _ _ _ _ _ _ _ _ _ _) as [[[bp kw1] []]|]; [reflexivity|discriminate P|reflexivity]. }
  destruct (ps_pos _ _ _ _ _ _ _ _ _ _) as [[[bp kw1] []]|]; try discriminate P. injection P as -> ->.
  rewrite ps_kwonly_decl by (try assumption; apply NoDup_map_filter; assumption).
  rewrite (decl_kwonly_ext _ kw).
  2:{ intros q Hq. unfold not_in. rewrite (kw_get_filter (fun k => negb (str_mem k (s_args s)))).
      destruct (str_mem q (s_args s)) eqn:E; [|reflexivity]. apply str_mem_In in E. exfalso. exact (D2 q (in_or_app _ _ q (or_intror E)) Hq). }
  destruct (decl_kwonly kw (s_kwonly s) 0) as [bk|]; [|reflexivity].
  rewrite not_in_app. destruct (s_kwarg s); [reflexivity|].
  (* a keyword left over names no parameter at all *)
  rewrite (forallb_ext_in _ (tolerated trig s) (filter (not_in (kwable s)) kw)); [reflexivity|].
  intros [k v] Hin. apply filter_In in Hin as [Hin Hnk]. apply negb_true_iff in Hnk. unfold tolerated, param_names.
  fold (kwable s). cbn [fst] in *. rewrite str_mem_app, Hnk, orb_false_r.
  replace (str_mem k (s_posonly s)) with false; [rewrite andb_true_r; reflexivity|].
  symmetry. apply str_mem_false. intros Hp. apply In_nth_error in Hp as (j & Hj).
  (* a positional-only one would have been an error *)
  assert (Hl : j < length (s_posonly s)) by (apply nth_error_Some; congruence).
  rewrite (decl_pos_none _ _ _ _ _ _ _ 0 j k) in Edp; [discriminate|rewrite nth_error_app1; assumption|].
  unfold pos_value. cbn [is_some negb Nat.add]. rewrite orb_true_r, (proj2 (kw_mem_ex k kw) (ex_intro _ v Hin)). cbn [andb].
  replace (length (s_posonly s) <=? j) with false by (symmetry; apply Nat.leb_gt; assumption).
  destruct (nth_error args j); reflexivity.
Qed.

Lemma drop_keeps_params trig s kw p : In p (param_names s) -> kw_get p (drop_trigger_kwargs trig s kw) = kw_get p kw.
Proof.
  intros Hp. unfold drop_trigger_kwargs. destruct (s_kwarg s); [reflexivity|].
  rewrite (kw_get_filter (fun k => negb (str_mem k trig && negb (str_mem k (param_names s))))).
  apply str_mem_In in Hp. rewrite Hp. cbn. rewrite andb_false_r. reflexivity.
Qed.

Lemma drop_NoDup trig s kw : NoDup (keys kw) -> NoDup (keys (drop_trigger_kwargs trig s kw)).
Proof. intros H. unfold drop_trigger_kwargs. destruct (s_kwarg s); [assumption|]. apply NoDup_map_filter. assumption. Qed.

Lemma decl_drop d11 trig s args kw : decl d11 trig s args kw = decl d11 [] s args (drop_trigger_kwargs trig s kw).
Proof.
  unfold decl.
  rewrite (decl_pos_ext _ _ _ _ _ (drop_trigger_kwargs trig s kw) kw), (decl_kwonly_ext (drop_trigger_kwargs trig s kw) kw).
  2,3: intros q Hq; apply drop_keeps_params; unfold param_names; rewrite ?in_app_iff in *; tauto.
  unfold drop_trigger_kwargs. destruct (s_kwarg s); [reflexivity|].
  rewrite (forallb_filter_rest (tolerated trig s)). reflexivity.
Qed.

Definition bykw_slot (slots : list slot) (k : name) : bool :=
  existsb (fun s => String.eqb k (sl_name s) && sl_bykw s) slots.

Lemma bykw_app a b k : bykw_slot (a ++ b) k = bykw_slot a k || bykw_slot b k.
Proof. apply existsb_app. Qed.

Lemma bykw_pos k nposonly npos ndef names : forall i,
  bykw_slot (pos_slots names nposonly npos ndef i) k = str_mem k (skipn (nposonly - i) names).
Proof.
  unfold bykw_slot. induction names as [|p r IH]; intros i; [rewrite skipn_nil; reflexivity|].
  cbn [pos_slots existsb sl_name sl_bykw]. rewrite IH, Nat.ltb_antisym, negb_involutive.
  destruct (Nat.leb_spec nposonly i) as [L|L].
  - replace (nposonly - i) with 0 by lia. replace (nposonly - S i) with 0 by lia. rewrite andb_true_r. reflexivity.
  - replace (nposonly - i) with (S (nposonly - S i)) by lia. rewrite andb_false_r. reflexivity.
Qed.

Lemma bykw_kwonly k l : forall i, bykw_slot (kwonly_slots l i) k = str_mem k (map fst l).
Proof.
  induction l as [|[p d] r IH]; intros i; [reflexivity|]. cbn [kwonly_slots map fst].
  unfold bykw_slot in *. cbn [existsb sl_name sl_bykw str_mem]. rewrite IH, andb_true_r. reflexivity.
Qed.

Definition sig_slots (s : sig) : list slot :=
  pos_slots (s_posonly s ++ s_args s) (length (s_posonly s)) (length (s_posonly s ++ s_args s)) (s_ndef s) 0
  ++ kwonly_slots (s_kwonly s) 0.

Lemma bykw_sig_slots s k : bykw_slot (sig_slots s) k = str_mem k (kwable s).
Proof.
  unfold sig_slots, kwable. rewrite bykw_app, bykw_pos, bykw_kwonly, str_mem_app, Nat.sub_0_r, skipn_app, skipn_all, Nat.sub_diag.
  reflexivity.
Qed.

Local Definition tobv (p : name * val) : name * bval := (fst p, BV (snd p)).

Lemma assoc_get_app k a b :
  assoc_get k (a ++ b) = match assoc_get k a with Some v => Some v | None => assoc_get k b end.
Proof. exact (al_get_app String.eqb k a b). Qed.

Lemma assoc_get_tobv p kw : assoc_get p (map tobv kw) = option_map BV (kw_get p kw).
Proof. induction kw as [|[k v] r IH]; cbn; [reflexivity|]. destruct (String.eqb p k); [reflexivity|apply IH]. Qed.

(* [g] stands for [bykw_slot slots], so that [bind_py_decl] can rewrite with the result stated over [kwable] *)
Lemma py_keywords_closed slots (g : name -> bool) haskw kw : (forall k, bykw_slot slots k = g k) ->
  forall filled extra, NoDup (keys kw) ->
  py_keywords slots haskw kw filled extra =
  if existsb (fun p => g (fst p) && is_some (assoc_get (fst p) filled)) kw
     || (negb haskw && existsb (fun p => negb (g (fst p))) kw)
  then None
  else Some (filled ++ map tobv (filter (fun p => g (fst p)) kw), extra ++ filter (fun p => negb (g (fst p))) kw).
Proof.
  intros Hg. induction kw as [|[k v] r IH]; intros filled extra Hnd.
  - cbn. rewrite andb_false_r, !app_nil_r. reflexivity.
  - inversion Hnd as [|? ? Hk Hr]; subst. cbn [py_keywords existsb filter fst]. fold (bykw_slot slots k). rewrite Hg.
    destruct (g k) eqn:Eb; cbn [andb negb orb].
    + destruct (assoc_get k filled) eqn:Eg; cbn [is_some orb]; [reflexivity|].
      rewrite IH by assumption.
      (* the slot just filled is asked for by no later keyword *)
      rewrite (existsb_ext_in _ (fun p => g (fst p) && is_some (assoc_get (fst p) filled)) r).
      { destruct (_ || _); [reflexivity|]. cbn [map]. rewrite <- app_assoc. reflexivity. }
      intros [k2 v2] Hin. cbn [fst]. rewrite assoc_get_app. destruct (assoc_get k2 filled); [reflexivity|].
      cbn. destruct (String.eqb k2 k) eqn:E; [|reflexivity]. apply String.eqb_eq in E. subst.
      destruct (Hk (in_map fst r (k, v2) Hin)).
    + destruct haskw; cbn [negb andb orb].
      * rewrite IH by assumption. cbn [negb andb]. rewrite !orb_false_r, <- app_assoc. reflexivity.
      * rewrite orb_true_r. reflexivity.
Qed.

Lemma py_finish_app a b filled :
  py_finish (a ++ b) filled =
  match py_finish a filled, py_finish b filled with Some x, Some y => Some (x ++ y) | _, _ => None end.
Proof.
  induction a as [|s r IH]; cbn [app py_finish].
  - destruct (py_finish b filled); reflexivity.
  - destruct (match assoc_get (sl_name s) filled with Some v => Some v | None => sl_default s end); [|reflexivity].
    rewrite IH. destruct (py_finish r filled); [|reflexivity]. destruct (py_finish b filled); reflexivity.
Qed.

Lemma assoc_get_combine (pos : list name) : forall (l : list bval) i p,
  NoDup pos -> nth_error pos i = Some p -> assoc_get p (combine pos l) = nth_error l i.
Proof.
  induction pos as [|q r IH]; intros l i p Hnd Hn; [destruct i; discriminate|].
  inversion Hnd as [|? ? Hq Hr]; subst. destruct l as [|v l].
  - cbn. destruct i; reflexivity.
  - destruct i as [|i]; cbn in *.
    + inversion Hn; subst. rewrite String.eqb_refl. reflexivity.
    + destruct (String.eqb p q) eqn:E.
      * apply String.eqb_eq in E. subst. exfalso. apply Hq. eapply nth_error_In. eassumption.
      * apply IH; assumption.
Qed.

Lemma assoc_get_combine_notin (pos : list name) (l : list bval) p : ~ In p pos -> assoc_get p (combine pos l) = None.
Proof.
  intros Hn. apply (al_get_None _ String.eqb_eq). intros H. apply in_map_iff in H as ([q v] & <- & H).
  exact (Hn (in_combine_l _ _ _ _ H)).
Qed.

Lemma skipn_ltb {A} n (l : list A) : (n <? length l) = match skipn n l with [] => false | _ => true end.
Proof.
  destruct (Nat.ltb_spec n (length l)) as [Hl|Hl]; [|rewrite skipn_all2 by assumption; reflexivity].
  pose proof (skipn_length n l) as L. destruct (skipn n l); [cbn in L; lia|reflexivity].
Qed.

(* D11 shows only where a keyword is spelled like a positional-only parameter of a function with **kwargs *)
Definition d11_unseen (d11 : bool) (s : sig) (kw : kwargs) : Prop :=
  d11 = true -> is_some (s_kwarg s) = true -> forall p, In p (s_posonly s) -> kw_mem p kw = false.

Section PyDecl.
Variables (d11 : bool) (s : sig) (args : list val) (kw : kwargs).
Hypothesis Hwf : NoDup (param_names s).
Hypothesis Hkw : NoDup (keys kw).
Hypothesis H11 : d11_unseen d11 s kw.
Let pos := s_posonly s ++ s_args s.
Let npos := length pos.
Let nposonly := length (s_posonly s).
Let haskw := is_some (s_kwarg s).
Let hk := haskw && negb d11.
Let filled0 : assoc := combine pos (map BV args).
Let filledF : assoc := filled0 ++ map tobv (filter (fun p => str_mem (fst p) (kwable s)) kw).
(* a keyword for a slot that a positional argument has filled *)
Let refilled : bool := existsb (fun p => str_mem (fst p) (kwable s) && is_some (assoc_get (fst p) filled0)) kw.
(* every keyword has a slot or **kwargs to go to *)
Let placed : bool := haskw || is_nil (filter (not_in (kwable s)) kw).

Lemma pos_index_kwable i p : nth_error pos i = Some p -> str_mem p (kwable s) = (nposonly <=? i).
Proof.
  intros Hn. destruct (distinct_parts s Hwf) as (_ & _ & _ & D1 & _). subst pos nposonly.
  destruct (Nat.leb_spec (length (s_posonly s)) i) as [Hi|Hi].
  - rewrite nth_error_app2 in Hn by assumption. apply nth_error_In in Hn.
    apply str_mem_In. unfold kwable. apply in_or_app. left. assumption.
  - rewrite nth_error_app1 in Hn by assumption. apply nth_error_In in Hn.
    apply str_mem_false. apply D1. assumption.
Qed.

Lemma filled0_lookup i p : nth_error pos i = Some p -> assoc_get p filled0 = option_map BV (nth_error args i).
Proof. intros Hn. subst filled0. rewrite (assoc_get_combine pos _ i p (proj1 (distinct_parts s Hwf)) Hn). apply nth_error_map. Qed.

Lemma filledF_lookup p :
  assoc_get p filledF =
  match assoc_get p filled0 with
  | Some v => Some v
  | None => if str_mem p (kwable s) then option_map BV (kw_get p kw) else None
  end.
Proof.
  subst filledF. rewrite assoc_get_app, assoc_get_tobv, (kw_get_filter (fun k => str_mem k (kwable s))).
  destruct (str_mem p (kwable s)); reflexivity.
Qed.

Lemma py_finish_kwonly l : forall i,
  (forall p, In p (map fst l) -> In p (map fst (s_kwonly s))) ->
  py_finish (kwonly_slots l i) filledF = decl_kwonly kw l i.
Proof.
  destruct (distinct_parts s Hwf) as (_ & _ & _ & _ & D2).
  induction l as [|[q d] r IH]; intros i H; [reflexivity|].
  cbn [kwonly_slots py_finish decl_kwonly sl_name sl_default].
  assert (Hq : In q (map fst (s_kwonly s))) by (apply H; left; reflexivity).
  rewrite filledF_lookup. subst filled0. rewrite assoc_get_combine_notin by (intros Hin; exact (D2 q Hin Hq)).
  replace (str_mem q (kwable s)) with true by (symmetry; apply str_mem_In, in_or_app; right; assumption).
  rewrite IH by (intros p Hp; apply H; right; assumption).
  unfold kwonly_value. destruct (kw_get q kw); cbn [option_map]; [reflexivity|].
  destruct d; reflexivity.
Qed.

Lemma refilled_decl : refilled = true -> decl_pos hk nposonly npos (s_ndef s) args kw pos 0 = None.
Proof.
  intros HE. subst refilled. apply existsb_exists in HE as ([k v] & Hin & C). cbn [fst] in C.
  apply andb_true_iff in C as [C1 C2].
  assert (Hk : In k pos).
  { destruct (in_dec string_dec k pos) as [?|N]; [assumption|]. subst filled0.
    rewrite (assoc_get_combine_notin pos _ k N) in C2. discriminate. }
  apply In_nth_error in Hk as (i & Hi). rewrite (filled0_lookup i k Hi) in C2.
  apply (decl_pos_none hk nposonly npos (s_ndef s) args kw pos 0 i k Hi). cbn [Nat.add].
  unfold pos_value. destruct (nth_error args i); [|discriminate].
  rewrite <- (pos_index_kwable i k Hi), C1, (proj2 (kw_mem_ex k kw) (ex_intro _ v Hin)). reflexivity.
Qed.

(* no keyword for a slot that a positional argument has filled, and a place for every keyword: the reference's last pass
   is the description *)
Section Fits.
Hypothesis HE : refilled = false.
Hypothesis HP : placed = true.

(* none is spelled like a positional-only parameter unless **kwargs takes it *)
Lemma named_posonly i p : nth_error pos i = Some p ->
  ((nposonly <=? i) || negb hk) && kw_mem p kw = (nposonly <=? i) && kw_mem p kw.
Proof.
  intros Hn. destruct (nposonly <=? i) eqn:L; [reflexivity|]. destruct (kw_mem p kw) eqn:M; [|apply andb_false_r].
  subst hk placed. destruct haskw eqn:K; cbn [orb negb andb] in *.
  - (* **kwargs takes it, where D11 does not show *)
    destruct d11; [|reflexivity]. rewrite (H11 eq_refl K p) in M; [discriminate|].
    apply Nat.leb_gt in L. subst pos nposonly. rewrite nth_error_app1 in Hn by assumption. eapply nth_error_In, Hn.
  - (* no **kwargs: it would be among the keywords without a place *)
    exfalso. apply kw_mem_ex in M as (v & Hin). unfold is_nil in HP. rewrite forallb_forall in HP. discriminate (HP (p, v)).
    apply filter_In. split; [assumption|]. unfold not_in. cbn [fst]. rewrite (pos_index_kwable i p Hn), L. reflexivity.
Qed.

Lemma filled_value i p : nth_error pos i = Some p ->
  match assoc_get p filledF with Some v => Some v | None => pos_default npos (s_ndef s) i end
  = pos_value hk nposonly npos (s_ndef s) args kw i p.
Proof.
  intros Hn. unfold pos_value. cbv zeta.
  rewrite (named_posonly i p Hn), filledF_lookup, (filled0_lookup i p Hn), (pos_index_kwable i p Hn).
  destruct (nth_error args i) as [v|] eqn:Ea; cbn [option_map].
  - destruct ((nposonly <=? i) && kw_mem p kw) eqn:C; [|reflexivity]. exfalso.
    apply andb_true_iff in C as [C1 C2]. apply kw_mem_ex in C2 as (v' & Hin).
    enough (refilled = true) by congruence. apply existsb_exists. exists (p, v'). split; [assumption|]. cbn [fst].
    rewrite (pos_index_kwable i p Hn), C1, (filled0_lookup i p Hn), Ea. reflexivity.
  - destruct (nposonly <=? i); cbn [andb]; [|reflexivity].
    rewrite kw_get_mem. destruct (kw_get p kw); reflexivity.
Qed.

Lemma py_finish_pos names : forall i,
  (forall j p, nth_error names j = Some p -> nth_error pos (i + j) = Some p) ->
  py_finish (pos_slots names nposonly npos (s_ndef s) i) filledF = decl_pos hk nposonly npos (s_ndef s) args kw names i.
Proof.
  induction names as [|q r IH]; intros i H; [reflexivity|].
  cbn [pos_slots py_finish decl_pos sl_name sl_default].
  assert (Hq : nth_error pos i = Some q) by (rewrite <- (Nat.add_0_r i); apply H; reflexivity).
  rewrite (filled_value i q Hq).
  rewrite IH by (intros j p Hj; rewrite Nat.add_succ_comm; apply H; exact Hj). reflexivity.
Qed.

Lemma py_finish_decl :
  py_finish (sig_slots s) filledF =
  match decl_pos hk nposonly npos (s_ndef s) args kw pos 0, decl_kwonly kw (s_kwonly s) 0 with
  | Some x, Some y => Some (x ++ y)
  | _, _ => None
  end.
Proof.
  unfold sig_slots. fold pos. fold npos. fold nposonly. rewrite py_finish_app.
  rewrite (py_finish_pos pos 0) by (intros j p Hj; exact Hj).
  rewrite (py_finish_kwonly (s_kwonly s) 0) by (intros p Hp; exact Hp). reflexivity.
Qed.
End Fits.

Lemma bind_py_decl : bind_py s args kw = decl d11 [] s args kw.
Proof.
  unfold bind_py, decl, not_in. cbv zeta. fold (sig_slots s). fold pos. fold npos. fold nposonly. fold filled0.
  rewrite (py_keywords_closed _ (fun k => str_mem k (kwable s))), skipn_ltb by (assumption || apply bykw_sig_slots).
  cbn beta. fold refilled. cbn [app]. fold filledF.
  destruct refilled eqn:HE; cbn [orb].
  - fold haskw. fold hk. rewrite (refilled_decl HE). destruct (s_vararg s), (skipn npos args); reflexivity.
  - pose proof (py_finish_decl HE) as F.
    (* both sides make the same three checks in another order (excess positional arguments, unexpected keywords, slots
       left unfilled), each a TypeErr.  First the unexpected keywords, which decide whether [F] applies *)
    rewrite existsb_filter. change (forallb (tolerated [] s)) with (@is_nil (name * val)).
    subst placed hk haskw. unfold not_in in F.
    destruct (s_kwarg s) as [k|]; [|destruct (is_nil _)]; cbn [is_some negb andb orb] in *;
      [ (* **kwargs takes them *) rewrite F by reflexivity
      | (* there is none *) rewrite F by reflexivity
      | (* there is one, and no **kwargs: TypeErr *) ];
      destruct (decl_pos _ nposonly npos (s_ndef s) args kw pos 0) as [bp|], (decl_kwonly kw (s_kwonly s) 0) as [bk|],
               (s_vararg s) as [va|], (skipn npos args) as [|excess ?]; reflexivity.
Qed.
End PyDecl.

Lemma decl_py d11 trig s args kw : NoDup (param_names s) -> NoDup (keys kw) -> d11_unseen d11 s kw ->
  decl d11 trig s args kw = bind_py s args (drop_trigger_kwargs trig s kw).
Proof.
  intros Hs Hk H11. rewrite decl_drop. symmetry. apply bind_py_decl; [assumption|apply drop_NoDup; assumption|].
  (* a function with **kwargs has nothing dropped *)
  intros D K. specialize (H11 D K). unfold drop_trigger_kwargs. destruct (s_kwarg s); [exact H11|discriminate K].
Qed.

Theorem call_ps_decl cfg trig s items : NoDup (param_names s) ->
  call_ps cfg trig s items =
  match ps_kw_update cfg (flat_map item_kw items) [] with
  | Some kw => decl (d_posonly_kw cfg) trig s (flat_map item_pos items) kw
  | None => TypeErr
  end.
Proof.
  intros Hs. unfold call_ps. rewrite assemble_ps_flat. destruct (ps_kw_update cfg _ []) as [kw|] eqn:E; [|reflexivity].
  apply bind_ps_decl; [exact Hs|]. apply (ps_kw_update_NoDup _ _ [] _ (NoDup_nil _) E).
Qed.

Lemma bind_equiv_cfg cfg trig s args kw : NoDup (param_names s) -> NoDup (keys kw) -> d11_unseen (d_posonly_kw cfg) s kw ->
  bind_ps cfg trig s args kw = bind_py s args (drop_trigger_kwargs trig s kw).
Proof. intros Hs Hk H11. rewrite bind_ps_decl by assumption. apply decl_py; assumption. Qed.

Lemma call_equiv_cfg cfg trig s items : NoDup (param_names s) ->
  (d_dup_kw cfg = true -> NoDup (keys (flat_map item_kw items))) -> d11_unseen (d_posonly_kw cfg) s (flat_map item_kw items) ->
  call_ps cfg trig s items = call_spec trig s items.
Proof.
  intros Hs H30 H11. rewrite call_ps_decl, ps_kw_update_off by (constructor || assumption).
  unfold call_spec, assemble_py, keys. cbn [app]. destruct (has_dup _) eqn:D; [reflexivity|].
  apply decl_py; [assumption|apply has_dup_NoDup, D|exact H11].
Qed.

Theorem bind_equiv cfg trig s args kw : all_off cfg -> NoDup (param_names s) -> NoDup (keys kw) ->
  bind_ps cfg trig s args kw = bind_py s args (drop_trigger_kwargs trig s kw).
Proof. intros [H11 _] Hs Hk. apply bind_equiv_cfg; [assumption..|intros D; rewrite H11 in D; discriminate]. Qed.

(* only the parameter names have to be distinct: those of *args and **kwargs, which [sig_wf_b] also checks, are never
   looked up *)
Theorem call_equiv cfg trig s items : all_off cfg -> NoDup (param_names s) ->
  call_ps cfg trig s items = call_spec trig s items.
Proof. intros [H11 H30] Hs. apply call_equiv_cfg; [assumption|rewrite H30; discriminate|intros D; rewrite H11 in D; discriminate]. Qed.

Local Open Scope string_scope.
Definition only_D11 : deviations := {| d_posonly_kw := true; d_dup_kw := false |}.
Definition only_D30 : deviations := {| d_posonly_kw := false; d_dup_kw := true |}.

(* every switch matters whatever the other is set to:
   def g(a=0, /, **kw): ...;  g(a=1)      — CPython: a=0, kw={'a': 1};  with D11: TypeError
   def f(a): ...;  f(a=1, **{'a': 2})     — CPython: TypeError;  with D30: a=2 *)
Theorem bind_refuted_unless_off cfg : cfg <> dev_off ->
  exists trig s items, sig_wf_b s = true /\ call_ps cfg trig s items <> call_spec trig s items.
Proof.
  destruct cfg as [d11 d30]. intros Hon. destruct d11.
  { exists [], {| s_posonly := ["a"]; s_args := []; s_ndef := 1; s_vararg := None; s_kwonly := []; s_kwarg := Some "kw" |},
           [CKw "a" 1%N].
    split; [reflexivity|]. destruct d30; vm_compute; discriminate. }
  destruct d30; [|contradiction Hon; reflexivity].
  exists [], {| s_posonly := []; s_args := ["a"]; s_ndef := 0; s_vararg := None; s_kwonly := []; s_kwarg := None |},
         [CKw "a" 1%N; CStarStar [("a", 2%N)]].
  split; [reflexivity|]. vm_compute. discriminate.
Qed.

Lemma bind_refuted_D11 : exists trig s items,
  sig_wf_b s = true /\ call_ps only_D11 trig s items <> call_spec trig s items.
Proof. apply bind_refuted_unless_off. discriminate. Qed.

Lemma bind_refuted_D30 : exists trig s items,
  sig_wf_b s = true /\ call_ps only_D30 trig s items <> call_spec trig s items.
Proof. apply bind_refuted_unless_off. discriminate. Qed.

(* def f(p, q=D0, /, a=D1, *va, k, m=KD1, **kw);  f(1, *[2, 3, 4], value=5, k=6, **{'z': 7}) *)
Example call_equiv_instance :
  let s := {| s_posonly := ["p"; "q"]; s_args := ["a"]; s_ndef := 2; s_vararg := Some "va";
              s_kwonly := [("k", false); ("m", true)]; s_kwarg := Some "kw" |} in
  let items := [CPos 1%N; CStar [2%N; 3%N; 4%N]; CKw "value" 5%N; CKw "k" 6%N; CStarStar [("z", 7%N)]] in
  sig_wf_b s = true /\ all_off dev_off /\
  call_ps dev_off ["value"] s items =
  Bound {| b_params := [("p", BV 1%N); ("q", BV 2%N); ("a", BV 3%N); ("k", BV 6%N); ("m", BKwDef 1)];
           b_var := Some ("va", [4%N]); b_kw := Some ("kw", [("value", 5%N); ("z", 7%N)]) |}.
Proof. cbv zeta. repeat split. Qed.

(* without **kw the reserved keyword is dropped, an unknown one is an error *)
Example call_drop_instance :
  let s := {| s_posonly := []; s_args := ["a"]; s_ndef := 0; s_vararg := None; s_kwonly := []; s_kwarg := None |} in
  call_ps dev_off ["value"] s [CPos 1%N; CKw "value" 5%N]
    = Bound {| b_params := [("a", BV 1%N)]; b_var := None; b_kw := None |}
  /\ call_ps dev_off ["value"] s [CPos 1%N; CKw "zz" 5%N] = TypeErr
  /\ call_py s [CPos 1%N; CKw "value" 5%N] = TypeErr.
Proof. cbv zeta. repeat split. Qed.

Lemma sig_of_def_equiv f : ps_sig_of_def f = py_sig_of_def f.
Proof.
  unfold ps_sig_of_def, py_sig_of_def. f_equal.
  induction (f_kwonly f) as [|[n d] r IH]; [reflexivity|]. cbn [map py_kwonly_of_def fst snd]. rewrite IH. destruct d; reflexivity.
Qed.

(* whatever the default expressions evaluate to (falsy values included) *)
Theorem call_equiv_def cfg trig f items : all_off cfg -> NoDup (param_names (py_sig_of_def f)) ->
  call_ps cfg trig (ps_sig_of_def f) items = call_spec trig (py_sig_of_def f) items.
Proof. intros Hc Hs. rewrite sig_of_def_equiv. apply call_equiv; assumption. Qed.

Lemma bcase_model_implies_spec c : bcase_model_ok dev_off c = true -> bcase_spec_ok c = true.
Proof.
  unfold bcase_model_ok, bcase_spec_ok, bc_sig, bc_pysig. rewrite !andb_true_iff. intros [[Hs Hm] _].
  rewrite sig_of_def_equiv in Hs.
  rewrite <- (call_equiv_def dev_off TRIGGER_KWARGS (bc_def c) (bc_items c)); [exact Hm|split; reflexivity|exact (proj1 (sig_wf_b_wf _ Hs))].
Qed.
