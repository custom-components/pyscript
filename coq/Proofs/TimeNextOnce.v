(* The once(...) branch of timer_trigger_next returns the successor among the denoted instants ([once_ok]), by the form of
   the date: one instant, every day, every year ([yearly_successor]). *)
From Coq Require Import ZArith List Bool Lia.
From PV Require Import Common.Civil Proofs.Civil Time.DtExpr Time.Next Gen.TimeConsts Proofs.TimeNext.
Import ListNotations.
Local Open Scope Z_scope.

(* With |c| at most 365 days (the bound of [in_fragment]) the instant two years back has passed and that two years ahead is
   to come, so the scan over [year_shifts] = -1 .. 8 answers by shift 2.  The list starts at -1 because a positive c can
   carry last year's date past now, and runs to 8 for 29 February (1896 to 1904), which is outside this lemma. *)
Lemma yearly_successor m dd c now su (T : Z -> Z) : (forall y, valid_date y m dd = true) -> - (365 * DAY) <= c <= 365 * DAY ->
  (forall ys, T ys = midnight (days_from_civil (year_of_day (day_of now) + ys) m dd) + c) ->
  successor_of (fun t => exists ys, t = T ys) now su (scan (fun ys => fires now (T ys) su) year_shifts).
Proof.
  intros V Hc ET. set (y0 := year_of_day (day_of now)) in *. pose proof (dfc_two_years (day_of now) m dd V) as (B1 & B2).
  apply (scan_successor (fun ys t => t = T ys)) with (a := -1).
  - intros ys. apply fires_point.
  - intros a b _ _ L -> ->. rewrite !ET. pose proof (dfc_year_span (y0 + a) (y0 + b) m dd ltac:(lia)).
    apply Z.add_le_mono_r, midnight_le. lia.
  - cbn. auto 12.
  - intros ys _ L ->. rewrite ET. pose proof (dfc_year_span (y0 + ys) (y0 - 2) m dd ltac:(lia)).
    apply year_away_before; [fold y0 in B1|]; lia.
  - exists 2. eexists. split; [cbn; auto|]. split; [reflexivity|]. rewrite ET. apply year_away_after; [exact B2|lia].
Qed.

Section Once.
  Variable scale : N -> Z.
  Variable sun : Z -> bool -> option Z.
  Variable cfg : deviations.
  Hypothesis Hmd : d_once_md_this_year cfg = false.
  Hypothesis Hsu : d_su_coincidence cfg = false.

  Definition once_ok (e : dtexpr) (now su : Z) : Prop :=
    answers (once_next scale sun cfg e now su) (inst scale sun e true su now) now su.

  (* the day retry: today's instant, re-read k days later *)
  Lemma once_next_val e now su : expr_ok e = true -> is_monthday e = false ->
    once_next scale sun cfg e now su =
    ROk (fires now (inst_val scale e 0 ((now - inst_val scale e 0 0 now su) / DAY + 1) now su) su).
  Proof.
    intros OK NM. unfold once_next. rewrite NM, Hsu, (denote_dt_ok scale sun e 0 now su OK).
    cbn [andb negb orb rbind]. rewrite andb_true_r.
    destruct (Z.eqb_spec ((now - inst_val scale e 0 0 now su) / DAY + 1) 0) as [->|_]; cbn [negb rbind]; [reflexivity|].
    rewrite (denote_dt_ok scale sun e _ now su OK). reflexivity.
  Qed.

  Lemma once_point e now su : expr_ok e = true -> fixed_date e = true -> is_monthday e = false -> once_ok e now su.
  Proof.
    intros OK FX NM. unfold once_ok. rewrite (once_next_val e now su OK NM), (inst_val_fixed scale e 0 _ 0 now su FX).
    eapply successor_ext; [|apply fires_point].
    intros t _. rewrite (inst_iff scale sun e true su now t OK). split.
    - intros ->. exists 0, 0. reflexivity.
    - intros (ys & k & ->). rewrite (inst_val_year scale e ys k now su NM). apply inst_val_fixed, FX.
  Qed.

  Lemma once_daily e now su : expr_ok e = true -> fixed_date e = false -> once_ok e now su.
  Proof.
    intros OK UF. destruct (undated_inv e UF) as (_ & _ & NM).
    unfold once_ok. rewrite (once_next_val e now su OK NM).
    eapply successor_ext; [|apply (grid_successor DAY now su (fun k => inst_val scale e 0 k now su) eq_refl)].
    2:{ intros k. rewrite !(inst_val_undated scale e _ _ _ _ UF). unfold midnight. ring. }
    intros t _. rewrite (inst_iff scale sun e true su now t OK). split.
    - intros (k & ->). exists 0, k. reflexivity.
    - intros (ys & k & ->). exists k. rewrite !(inst_val_undated scale e _ _ _ _ UF). reflexivity.
  Qed.

  Lemma first_year_scan e now su shifts : expr_ok e = true ->
    first_year scale sun cfg e shifts now su = ROk (scan (fun ys => fires now (inst_val scale e ys 0 now su) su) shifts).
  Proof.
    intros OK. induction shifts as [|ys rest IH]; cbn [first_year scan]; [reflexivity|].
    rewrite (denote_gen_ok scale sun e ys 0 now su OK). cbn [rbind]. destruct (fires now _ su); [reflexivity|exact IH].
  Qed.

  Lemma once_monthday e now su : expr_ok e = true -> is_monthday e = true ->
    - (365 * DAY) <= tod_off scale e <= 365 * DAY -> once_ok e now su.
  Proof.
    intros OK IM Hc. destruct (monthday_inv e IM) as (m & dd & Ed & FX).
    destruct (expr_ok_inv e OK) as (_ & V & NO). rewrite Ed in V. cbn [date_ok] in V.
    unfold once_ok, once_next. rewrite IM, Hmd, (first_year_scan e now su _ OK). cbn [negb andb].
    apply (successor_ext (fun t => exists ys, t = inst_val scale e ys 0 now su)).
    { intros t _. rewrite (inst_iff scale sun e true su now t OK). split.
      - intros (ys & ->). exists ys, 0. reflexivity.
      - intros (ys & k & ->). exists ys. apply inst_val_fixed, FX. }
    apply (yearly_successor m dd (tod_off scale e) now su (fun ys => inst_val scale e ys 0 now su)).
    - intros y. exact (valid_date_common_year 2023 y m dd eq_refl V).
    - exact Hc.
    - intros ys. apply (inst_val_monthday scale e m dd); assumption.
  Qed.
End Once.
