(* Executing files with the lazy module_import (lookup-before-load, depth-first, in sorted order) loads exactly the
   by-source closure [spec_loaded] of Life/ReloadLoaded.v, each file at the tree's current source ([load_phase_exact], via
   [import_lookup] and [node_spec]).  The walk shows that the execution succeeds, keeps the table consistent and loses no
   name; that every reachable file is loaded is read off the consistency of the final table.  Tail: [tree_check] decides
   a sufficient condition for [good_tree]; [ex_good_tree] runs it. *)
From PV Require Import Common.Util Life.ReloadBase Gen.ReloadConsts Life.Modules Life.Reload Life.ReloadPlanSpec Life.ReloadSpec
  Life.ReloadLoaded
  Proofs.LifeReloadBase Proofs.LifeClosure Proofs.LifePlan Proofs.LifeUntouched Proofs.LifeDiscover
  Proofs.LifeReloadThms Proofs.LifeReloadFindings.
From Coq Require Import Lia.

Lemma consistent_loaded t k st c : consistent t k st -> In c st -> spec_loaded t k (c_name c).
Proof. intros [_ Hall] Hc. destruct (Hall c Hc) as (d & Hr & (A & _) & _). exists d. split; [exact Hr|congruence]. Qed.

Lemma child_Some t d i d' : child t d i = Some d' -> exists cs cnd f,
  candidates all_off (d_name d) (d_rel d) i = Some cs /\ find_file t cs = Some (cnd, f) /\ d' = desc_of_cand cnd.
Proof.
  unfold child. destruct (candidates _ _ _ _) as [cs|]; [|discriminate].
  destruct (find_file t cs) as [[cnd f]|] eqn:E; [|discriminate]. intros [= <-]. exists cs, cnd, f. auto.
Qed.

Section Desc.
  Variable t : tree.
  Variable k : apps_config.

  Lemma Desc_reach d d' : Reach t k d -> Desc t d d' -> Reach t k d'.
  Proof. intros Hr H. induction H as [d|d f i d1 d2 Hf Hi Hc _ IH]; [exact Hr|]. apply IH. eapply R_imp; eassumption. Qed.

  Lemma Desc_trans d1 d2 d3 : Desc t d1 d2 -> Desc t d2 d3 -> Desc t d1 d3.
  Proof. induction 1; intros H'; [exact H'|]. eapply D_step; eauto. Qed.

  Lemma Reach_from_root d : Reach t k d -> exists s, In s (discover t k) /\ sf_auto s = true /\ Desc t (root_desc s) d.
  Proof.
    induction 1 as [s Hs Ha|d f i d' Hr IH Hf Hi Hc].
    - exists s. split; [exact Hs|]. split; [exact Ha|apply D_refl].
    - destruct IH as (s & Hs & Ha & HD). exists s. split; [exact Hs|]. split; [exact Ha|].
      eapply Desc_trans; [exact HD|]. eapply D_step; [exact Hf|exact Hi|exact Hc|apply D_refl].
  Qed.

  Lemma Desc_mod d d' : Desc t d d' -> d' = d \/ d_mod d' = true.
  Proof.
    induction 1 as [d|d f i d1 d2 Hf Hi Hc _ IH]; [left; reflexivity|right].
    destruct (child_Some _ _ _ _ Hc) as (cs & cnd & g & _ & _ & ->). destruct IH as [->|H]; [reflexivity|exact H].
  Qed.

End Desc.

Section Loading.
  Variable t : tree.
  Variable k : apps_config.
  Variable born : N.
  Hypothesis GT : good_tree t k.
  (* a witness of [gt_rank] *)
  Variable rank : desc -> nat.
  Hypothesis rank_dec : forall d f i d', Reach t k d -> tree_get t (d_path d) = Some f -> In i (f_imps f) -> child t d i = Some d' -> (rank d' < rank d)%nat.
  Hypothesis rank_bound : forall d, Reach t k d -> (rank d <= length t)%nat.

  Lemma consistent_desc st dx : consistent t k st -> Reach t k dx -> has st (d_name dx) ->
    (exists c, In c st /\ c_name c = d_name dx /\ c_ismod c = d_mod dx) /\ forall d', Desc t dx d' -> has st (d_name d').
  Proof.
    intros [_ Hall] Hrx H. apply has_iff in H. destruct H as (c & Hc & En).
    destruct (Hall c Hc) as (dc & Hrc & (A & _ & C & _) & Hd).
    assert (dc = dx) by (apply (gt_coherent t k GT); auto; congruence). subst dc. eauto.
  Qed.

  (* nothing imports an auto-loaded file: what an import resolves to is loaded as a module, and a name is loaded in one
     way *)
  Lemma consistent_del_root st d0 : Reach t k d0 -> d_mod d0 = false -> consistent t k st ->
    consistent t k (st_del st (d_name d0)).
  Proof.
    intros Hr0 Hm0 [Hu Hall]. split; [apply uniq_st_del, Hu|]. intros c Hc. apply st_del_In in Hc. destruct Hc as [Hc Hne].
    destruct (Hall c Hc) as (d & Hr & Hm & Hd). exists d. split; [exact Hr|]. split; [exact Hm|].
    intros d' HD. destruct (has_del st (d_name d0) _ (Hd d' HD)) as [E|H]; [exfalso|exact H].
    assert (E' : d' = d0) by (apply (gt_coherent t k GT); [apply (Desc_reach t k d), HD; exact Hr|exact Hr0|exact E]).
    destruct (Desc_mod t _ _ HD) as [Ed|Ed]; [|congruence]. apply Hne. destruct Hm as [-> _]. congruence.
  Qed.

  (* lookup-before-load on a good tree: the table answers iff the file the import resolves to is loaded *)
  Lemma import_lookup st d f i : consistent t k st -> Reach t k d -> tree_get t (d_path d) = Some f -> In i (f_imps f) ->
    exists cs cnd f1, candidates all_off (d_name d) (d_rel d) i = Some cs /\ find_file t cs = Some (cnd, f1)
      /\ child t d i = Some (desc_of_cand cnd)
      /\ tree_get t (cd_path cnd) = Some f1 /\ Reach t k (desc_of_cand cnd) /\ (rank (desc_of_cand cnd) < rank d)%nat
      /\ match find_loaded st cs with
         | Some _ => has st (cd_name cnd)
         | None => ~ has st (cd_name cnd)
         end.
  Proof.
    intros Hst Hr Hf Hi.
    destruct (gt_closed t k GT d Hr) as (f0 & Hf0 & Hcl). rewrite Hf in Hf0. inversion Hf0; subst f0.
    destruct (Hcl i Hi) as (d1 & Hc1). destruct (child_Some _ _ _ _ Hc1) as (cs & cnd & f1 & Ecs & Eff & ->).
    destruct (find_file_In _ _ _ _ Eff) as [Hcnd Hf1].
    assert (Hr1 : Reach t k (desc_of_cand cnd)) by (eapply R_imp; eassumption).
    pose proof (rank_dec d f i _ Hr Hf Hi Hc1) as Hrk.
    exists cs, cnd, f1. repeat (split; [assumption|]).
    destruct (find_loaded st cs) as [n|] eqn:El.
    - (* answered by this very file: no other candidate names a reachable file *)
      destruct (find_loaded_Some _ _ _ El) as (c & cnd' & Hc & Hm & Hcnd' & En' & ->).
      destruct (gt_unique t k GT d f i cs cnd' Hr Hf Hi Ecs Hcnd') as (d' & Hc' & Ed').
      { rewrite En'. apply (consistent_loaded t k st c Hst Hc). }
      rewrite Hc1 in Hc'. injection Hc' as <-. apply has_iff. exists c. split; [exact Hc|]. rewrite <- En'. exact Ed'.
    - intros H. destruct (consistent_desc st _ Hst Hr1 H) as [(c & Hc & En & C) _].
      rewrite (find_loaded_None st cs (proj1 Hst) El cnd c Hcnd Hc En) in C. discriminate.
  Qed.

  (* the induction hypothesis at the lower fuel [bound]: a rank below it is what excludes XFuel *)
  Definition load_spec (load : cand -> file -> state -> list event -> xres) (bound : nat) : Prop :=
    forall cnd f st ev, Reach t k (desc_of_cand cnd) -> (rank (desc_of_cand cnd) < bound)%nat ->
      tree_get t (cd_path cnd) = Some f -> consistent t k st -> ~ has st (cd_name cnd) ->
      exists st' ev' imps, load cnd f st ev = XOk st' ev' imps /\ consistent t k st'
        /\ forall n, n = cd_name cnd \/ has st n -> has st' n.

  Lemma imports_loop_spec load bound d f : load_spec load bound -> Reach t k d -> tree_get t (d_path d) = Some f ->
    (rank d <= bound)%nat ->
    forall imps st ev acc, incl imps (f_imps f) -> consistent t k st ->
      exists st' ev' acc', imports_loop load all_off t (d_name d) (d_rel d) imps st ev acc = XOk st' ev' acc'
        /\ consistent t k st' /\ (forall n, has st n -> has st' n)
        /\ forall i d', In i imps -> child t d i = Some d' -> has st' (d_name d').
  Proof.
    intros Hload Hr Hf Hb. induction imps as [|i rest IH]; intros st ev acc Hinc Hst; cbn [imports_loop].
    - exists st, ev, acc. split; [reflexivity|]. split; [exact Hst|]. split; [auto|intros i d' []].
    - destruct (import_lookup st d f i Hst Hr Hf (Hinc i (or_introl eq_refl))) as (cs & cnd & f1 & Ecs & Eff & Hc1 & Hf1 & Hr1 & Hrk & Hlook).
      rewrite Ecs, Eff.
      assert (Htail : forall st1 ev1 acc1, consistent t k st1 -> (forall n, n = cd_name cnd \/ has st n -> has st1 n) ->
                exists st' ev' acc', imports_loop load all_off t (d_name d) (d_rel d) rest st1 ev1 acc1 = XOk st' ev' acc'
                  /\ consistent t k st' /\ (forall n, has st n -> has st' n)
                  /\ forall j d', In j (i :: rest) -> child t d j = Some d' -> has st' (d_name d')).
      { intros st1 ev1 acc1 Hst1 Hg1.
        destruct (IH st1 ev1 acc1) as (st' & ev' & acc' & E' & Hst' & Hi' & Hch'); [intros x Hx; apply Hinc; cbn; auto|exact Hst1|].
        exists st', ev', acc'. split; [exact E'|]. split; [exact Hst'|]. split; [intros n Hn; apply Hi', Hg1; right; exact Hn|].
        intros j d' [<-|Hj] Hc; [|exact (Hch' j d' Hj Hc)]. rewrite Hc1 in Hc. injection Hc as <-. apply Hi', Hg1. left. reflexivity. }
      destruct (find_loaded st cs) as [m|].
      + apply Htail; [exact Hst|intros n [->|H]; [exact Hlook|exact H]].
      + destruct (Hload cnd f1 st ev Hr1) as (st2 & ev2 & imps2 & -> & Hst2 & Hg2); [lia|exact Hf1|exact Hst|exact Hlook|].
        apply Htail; assumption.
  Qed.

  (* [c]: any context that matches [d]; what the imported files import was in the table before, by consistency *)
  Lemma node_spec load bound d f : load_spec load bound -> Reach t k d -> tree_get t (d_path d) = Some f ->
    (rank d <= bound)%nat -> forall st ev, consistent t k st ->
    exists st2 ev2 imps, imports_loop load all_off t (d_name d) (d_rel d) (f_imps f) st ev [] = XOk st2 ev2 imps
      /\ forall c, ctx_matches t c d ->
           consistent t k (st_set st2 c) /\ forall n, n = d_name d \/ has st n -> has (st_set st2 c) n.
  Proof.
    intros Hload Hr Hf Hb st ev Hst.
    destruct (imports_loop_spec load bound d f Hload Hr Hf Hb (f_imps f) st ev [] (incl_refl _) Hst)
      as (st2 & ev2 & imps & E & Hst2 & Hi2 & Hch).
    exists st2, ev2, imps. split; [exact E|]. intros c Hm. pose proof Hm as (En & _). split.
    - split; [apply uniq_st_set, Hst2|]. intros x Hx. apply st_set_In in Hx. destruct Hx as [->|[Hx _]].
      + exists d. split; [exact Hr|]. split; [exact Hm|]. intros d' HD. apply has_set. rewrite En.
        inversion HD as [|? f0 i d1 ? Hf0 Hi Hc HD1]; subst; [left; reflexivity|right].
        rewrite Hf in Hf0. injection Hf0 as <-.
        apply (consistent_desc st2 d1 Hst2); [eapply R_imp; eassumption|exact (Hch i d1 Hi Hc)|exact HD1].
      + destruct Hst2 as [_ Hall2]. destruct (Hall2 x Hx) as (dx & Hrx & Hmx & Hdx). exists dx. split; [exact Hrx|]. split; [exact Hmx|].
        intros d' HD. apply has_set. right. apply Hdx, HD.
    - intros n Hn. apply has_set. rewrite En. destruct Hn as [Hn|Hn]; [left; exact Hn|right; apply Hi2, Hn].
  Qed.

  Lemma load_module_spec started : forall fuel, load_spec (load_module fuel all_off t born started) fuel.
  Proof.
    induction fuel as [|fuel IH]; intros cnd f st ev Hr Hrk Hf Hst Hnot; [lia|].
    cbn [load_module]. rewrite (st_del_notin st (cd_name cnd) Hnot).
    destruct (node_spec _ fuel (desc_of_cand cnd) f IH Hr Hf) with (st := st) (ev := ev ++ [(cd_name cnd, f_gen f)])
      as (st2 & ev2 & imps2 & E & Hc); [lia|exact Hst|].
    cbn [desc_of_cand d_name d_rel] in E. rewrite E. eexists _, ev2, imps2. split; [reflexivity|].
    apply (Hc (mod_ctx born started cnd f imps2)). repeat (split; [reflexivity|]). exists f. auto.
  Qed.

  Definition root_ok (s : sfile) : Prop :=
    Reach t k (root_desc s) /\ exists f, tree_get t (sf_path s) = Some f /\ sf_gen s = f_gen f /\ sf_mtime s = f_mtime f /\ sf_imps s = f_imps f.

  Lemma load_one_spec w s : root_ok s -> consistent t k (w_st w) ->
    let st' := w_st (load_one all_off t born w s) in
    consistent t k st' /\ forall n, n = sf_name s \/ has (w_st w) n -> has st' n.
  Proof.
    intros (Hr & f & Hf & Eg & Em & Ei) Hst. unfold load_one, exec_body. rewrite Ei.
    destruct (node_spec _ (exec_fuel t) (root_desc s) f (load_module_spec false _) Hr Hf)
      with (st := st_del (w_st w) (sf_name s)) (ev := w_ev w ++ [(sf_name s, sf_gen s)]) as (st2 & ev2 & imps2 & E & Hc);
      [unfold exec_fuel; pose proof (rank_bound _ Hr); lia|apply (consistent_del_root _ (root_desc s)); auto|].
    cbn [root_desc d_name d_rel] in E. rewrite E. cbn [w_st].
    destruct (Hc (auto_ctx born s imps2)) as [Hst' Hh]; [repeat (split; [reflexivity|]); exists f; auto|].
    split; [exact Hst'|]. intros n [Hn|Hn]; apply Hh; [left; exact Hn|apply has_del, Hn].
  Qed.

  Lemma load_fold_spec : forall L w, consistent t k (w_st w) -> (forall s, In s L -> root_ok s) ->
      let w' := fold_left (load_one all_off t born) L w in
      consistent t k (w_st w') /\ forall n, In n (map sf_name L) \/ has (w_st w) n -> has (w_st w') n.
  Proof.
    induction L as [|s L IH]; intros w Hst Hok; cbn [fold_left map In].
    - split; [exact Hst|]. intros n [[]|H]; exact H.
    - destruct (load_one_spec w s (Hok s (or_introl eq_refl)) Hst) as [Hst1 Hh1].
      destruct (IH (load_one all_off t born w s) Hst1) as [Hst' Hh']; [intros x Hx; apply Hok; cbn; auto|].
      split; [exact Hst'|]. intros n [[E|H]|H]; apply Hh'; auto.
  Qed.
End Loading.

Lemma start_phase_fields dv a c0 : forall c, In c (start_phase dv a [c0]) ->
  c_name c = c_name c0 /\ c_rel c = c_rel c0 /\ c_ismod c = c_ismod c0 /\ c_gen c = c_gen c0 /\ c_mtime c = c_mtime c0.
Proof.
  intros c Hc. apply start_phase_In in Hc. destruct Hc as (x & [<-|[]] & [->| ->]); cbn; auto.
Qed.

(* the post-state of the property: the table is consistent and holds exactly the by-source closure *)
Definition exact_table (t : tree) (k : apps_config) (st : state) : Prop :=
  consistent t k st /\ forall n, has st n <-> spec_loaded t k n.

Lemma exact_table_start t k dv a st : exact_table t k st -> exact_table t k (start_phase dv a st).
Proof.
  intros [[Hu Hall] HS]. destruct (start_phase_spec dv a st) as (g & Eg & Hg).
  assert (Hn : forall n, has (start_phase dv a st) n <-> has st n).
  { intros n. unfold has, st_names. rewrite Eg, map_map, (map_ext _ c_name); [reflexivity|].
    intros c. destruct (Hg c) as [->| ->]; reflexivity. }
  split; [|intros n; rewrite Hn; apply HS]. split; [apply start_phase_uniq, Hu|].
  intros c' Hc'. apply start_phase_In in Hc'. destruct Hc' as (c & Hc & E).
  destruct (Hall c Hc) as (d & Hr & Hm & Hd). exists d. split; [exact Hr|]. split.
  - destruct E as [->| ->]; exact Hm.
  - intros d' HD. apply Hn, Hd, HD.
Qed.

(* [L] covers the auto-loaded files missing from the table; it may name loaded files, and name a file twice *)
Theorem load_phase_exact t k born L w : good_tree t k -> consistent t k (w_st w) ->
  (forall s, In s L -> root_ok t k s) ->
  (forall s, In s (discover t k) -> sf_auto s = true -> In (sf_name s) (map sf_name L) \/ has (w_st w) (sf_name s)) ->
  exact_table t k (w_st (fold_left (load_one all_off t born) L w)).
Proof.
  intros GT Hst0 Hok Hcover. destruct (gt_rank t k GT) as (rank & Hrk & Hbound).
  destruct (load_fold_spec t k born GT rank Hrk Hbound L w Hst0 Hok) as [Hst1 Hh1].
  split; [exact Hst1|]. intros n. split.
  - intros H. apply has_iff in H. destruct H as (c & Hc & <-). apply (consistent_loaded t k _ c Hst1 Hc).
  - (* a root is there by the cover, an import by consistency *)
    intros (d & Hr & <-). induction Hr as [s Hs Hau|d f i d' Hr IH Hf Hi Hc]; [apply Hh1, Hcover; assumption|].
    apply (consistent_desc t k GT _ d Hst1 Hr IH). eapply D_step; [exact Hf|exact Hi|exact Hc|apply D_refl].
Qed.

(* the survivors are to be consistent with the new tree: trivially so after '*' and at start-up, where nothing survives *)
Theorem post_state_exact born st t k a : good_tree t k -> uniq_ctx st -> acyclic st -> (forall n, a <> RName n) ->
  consistent t k (delete_phase st (p_del (plan all_off st (discover t k) a))) ->
  let st' := r_st (reload all_off born st t k a) in
  exact_table t k st'.
Proof.
  intros GT Hu Hac Ha Hsurv. set (fs := discover t k). set (pl := plan all_off st fs a).
  pose proof (plan_ok_unless_named all_off st fs a Ha) as Eok.
  destruct (plan_discover st t k a Hu Hac Eok) as (b & Eb & _ & Hd). cbn [ps_files ps_del] in Eb, Hd.
  fold fs pl in Eb, Hd, Eok, Hsurv.
  cbv zeta. unfold reload. fold fs pl. rewrite Eok. cbn [negb r_st].
  apply exact_table_start, load_phase_exact; [exact GT|exact Hsurv| |]; cbn [w_st].
  - intros s' Hs'. rewrite Eb in Hs'. apply load_list_flags in Hs'. destruct Hs' as (s & Hs & Hau & _ & ->). split; [apply (R_root t k s Hs Hau)|].
    destruct (discover_cand t k s Hs) as (lp & p & f & _ & Hf & _ & Es). exists f. rewrite Es. cbn.
    split; [apply (tree_get_In t _ _ (gt_nodup t k GT)); exact Hf|auto].
  - intros s Hs Hau. destruct (autoload_cases st t k a s Hu Hac Ha Hs Hau) as [Hin|(c & Hc & Ecn & Hroot & Hnd' & Hnf)].
    + left. apply (in_map sf_name) in Hin. exact Hin.
    + right. apply has_iff. exists c. split; [|exact Ecn]. apply delete_phase_In. split; [exact Hc|]. rewrite Hd, Ecn. tauto.
Qed.

Lemma no_survivors t k st del : uniq_ctx st -> (forall c, In c (delete_phase st del) -> False) ->
  consistent t k (delete_phase st del).
Proof. intros Hu H. split; [apply delete_phase_uniq, Hu|]. intros c Hc. destruct (H c Hc). Qed.

Theorem star_post_state born st t k : good_tree t k -> uniq_ctx st -> acyclic st ->
  (forall c, In c st -> in_ctx_roots (c_name c) = true) ->
  let st' := r_st (reload all_off born st t k RAll) in
  exact_table t k st'.
Proof.
  intros GT Hu Hac Hroots. apply post_state_exact; try assumption; [discriminate|].
  apply no_survivors; [exact Hu|]. intros c Hc.
  destruct (survivor_unchanged st t k RAll c Hu Hac) as (_ & Hl & Hn); [discriminate|exact Hc| |apply Hn; left; left; exact Hl].
  apply Hroots. apply delete_phase_In in Hc. apply Hc.
Qed.

Lemma empty_post_state born t k a : good_tree t k -> (forall n, a <> RName n) ->
  let st' := r_st (reload all_off born [] t k a) in
  exact_table t k st'.
Proof.
  intros GT Ha. apply post_state_exact; try assumption; [constructor|apply acyclic_nil|].
  apply no_survivors; [constructor|]. intros c Hc. apply delete_phase_In in Hc. destruct Hc as [[] _].
Qed.

Theorem startup_post_state born t k : good_tree t k ->
  let st' := r_st (reload all_off born [] t k RNone) in
  exact_table t k st'.
Proof. intros GT. apply empty_post_state; [exact GT|discriminate]. Qed.

(* at every step that is a default or '*' reload (after the global-option rule [eff_arg]) *)
Definition step_post (born : N) (st : state) (s : rstep) (a : rarg) : Prop :=
  let t := rs_tree s in let k := rs_cfg s in
  good_tree t k -> (forall n, a <> RName n) ->
  (consistent t k (delete_phase st (p_del (plan all_off st (discover t k) a)))
   \/ (a = RAll /\ forall c, In c st -> in_ctx_roots (c_name c) = true) \/ st = []) ->
  let st' := r_st (reload all_off born st t k a) in
  consistent t k st' /\ forall n, has st' n <-> spec_loaded t k n.

Theorem history_post : forall steps born old st, uniq_ctx st ->
  hist_all (fun _ st _ _ => acyclic st) born old st steps -> hist_all step_post born old st steps.
Proof.
  apply hist_all_impl. intros born st s a Hu Hac GT Ha [Hs|[[-> Hroots]| ->]].
  - apply post_state_exact; assumption.
  - apply star_post_state; assumption.
  - apply empty_post_state; assumption.
Qed.

Definition desc_eqb (a b : desc) : bool :=
  nl_eqb (d_name a) (d_name b) && option_eqb nl_eqb (d_rel a) (d_rel b) && nl_eqb (d_path a) (d_path b)
  && Bool.eqb (d_mod a) (d_mod b).

Lemma desc_eqb_sound a b : desc_eqb a b = true -> a = b.
Proof.
  destruct a as [n r p m], b as [n' r' p' m']. unfold desc_eqb. cbn. rewrite !andb_true_iff, !nl_eqb_eq, eqb_true_iff.
  intros [[[-> Hr] ->] ->]. f_equal. destruct r, r'; cbn in Hr; try discriminate; [apply nl_eqb_eq in Hr; subst|]; reflexivity.
Qed.

Section TreeCheck.
  (* [L]: the reachable descriptors; [rank] decreases along imports *)
  Variables (t : tree) (k : apps_config) (L : list desc) (rank : desc -> nat).

  Definition listed (d : desc) : bool := existsb (desc_eqb d) L.

  Definition import_ok (d : desc) (i : imp) : bool :=
    match candidates all_off (d_name d) (d_rel d) i, child t d i with
    | Some cs, Some d' =>
        listed d' && (rank d' <? rank d)%nat
        && forallb (fun c' => nl_eqb (cd_name c') (d_name d') || negb (nl_mem (cd_name c') (map d_name L))) cs
    | _, _ => false
    end.

  Definition node_ok (d : desc) : bool :=
    in_ctx_roots (d_name d) && (rank d <=? length t)%nat
    && forallb (fun d' => negb (nl_eqb (d_name d) (d_name d')) || desc_eqb d d') L
    && match tree_get t (d_path d) with Some f => forallb (import_ok d) (f_imps f) | None => false end.

  Definition tree_check : bool :=
    nodup_names (map fst t)
    && forallb (fun s => negb (sf_auto s) || listed (root_desc s)) (discover t k)
    && forallb node_ok L.

  Lemma listed_In d : listed d = true -> In d L.
  Proof. exact (existsb_eqb_sound _ desc_eqb_sound d L). Qed.

  Lemma import_ok_spec d i : import_ok d i = true -> exists cs d',
    candidates all_off (d_name d) (d_rel d) i = Some cs /\ child t d i = Some d' /\ In d' L /\ (rank d' < rank d)%nat
    /\ forall c', In c' cs -> In (cd_name c') (map d_name L) -> cd_name c' = d_name d'.
  Proof.
    unfold import_ok. destruct (candidates all_off (d_name d) (d_rel d) i) as [cs|]; [|discriminate].
    destruct (child t d i) as [d'|]; [|discriminate]. rewrite !andb_true_iff, forallb_forall. intros [[H1 H2] H3].
    exists cs, d'. split; [reflexivity|]. split; [reflexivity|]. split; [apply listed_In, H1|]. split; [apply Nat.ltb_lt, H2|].
    intros c' Hc' Hl. specialize (H3 c' Hc'). apply nl_mem_In in Hl. rewrite Hl, orb_false_r in H3. apply nl_eqb_eq, H3.
  Qed.

  Lemma node_ok_spec d : node_ok d = true ->
    in_ctx_roots (d_name d) = true /\ (rank d <= length t)%nat
    /\ (forall d', In d' L -> d_name d = d_name d' -> d = d')
    /\ exists f, tree_get t (d_path d) = Some f /\ forall i, In i (f_imps f) -> import_ok d i = true.
  Proof.
    unfold node_ok. rewrite !andb_true_iff. intros [[[H1 H2] H3] H4]. split; [exact H1|]. split; [apply Nat.leb_le, H2|]. split.
    - intros d' Hd' En. rewrite forallb_forall in H3. specialize (H3 d' Hd').
      rewrite En, nl_eqb_refl in H3. apply desc_eqb_sound, H3.
    - destruct (tree_get t (d_path d)) as [f|]; [|discriminate]. exists f. split; [reflexivity|].
      apply forallb_forall, H4.
  Qed.

  Theorem tree_check_good : tree_check = true -> good_tree t k.
  Proof.
    unfold tree_check. rewrite !andb_true_iff, !forallb_forall. intros [[Hnd Hroots] Hnodes].
    assert (Hnode := fun d Hd => node_ok_spec d (Hnodes d Hd)).
    assert (Himp : forall d f i, In d L -> tree_get t (d_path d) = Some f -> In i (f_imps f) -> import_ok d i = true).
    { intros d f i Hd Hf Hi. destruct (Hnode d Hd) as (_ & _ & _ & f0 & Hf0 & Hok). rewrite Hf in Hf0. injection Hf0 as <-. apply Hok, Hi. }
    assert (Hin : forall d, Reach t k d -> In d L).
    { induction 1 as [s Hs Ha|d f i d' Hr IH Hf Hi Hc].
      - specialize (Hroots s Hs). rewrite Ha in Hroots. apply listed_In, Hroots.
      - destruct (import_ok_spec d i (Himp d f i IH Hf Hi)) as (cs & d1 & _ & Hc1 & Hd1 & _). congruence. }
    split.
    - (* gt_nodup *) apply nodup_names_NoDup, Hnd.
    - (* gt_roots *) intros d Hr. apply (Hnode d (Hin d Hr)).
    - (* gt_closed *)
      intros d Hr. destruct (Hnode d (Hin d Hr)) as (_ & _ & _ & f & Hf & Hok). exists f. split; [exact Hf|].
      intros i Hi. destruct (import_ok_spec d i (Hok i Hi)) as (cs & d' & _ & Hc & _). eauto.
    - (* gt_coherent *) intros d d' Hr Hr'. apply (Hnode d (Hin d Hr)), Hin, Hr'.
    - (* gt_unique *)
      intros d f i cs c' Hr Hf Hi Hcs Hc' (d2 & Hr2 & En2).
      destruct (import_ok_spec d i (Himp d f i (Hin d Hr) Hf Hi)) as (cs0 & d' & Hcs0 & Hc & _ & _ & Huniq).
      rewrite Hcs in Hcs0. injection Hcs0 as <-.
      exists d'. split; [exact Hc|]. apply (Huniq c' Hc'). rewrite <- En2. apply in_map, Hin, Hr2.
    - (* gt_rank *)
      exists rank. split.
      + intros d f i d' Hr Hf Hi Hc.
        destruct (import_ok_spec d i (Himp d f i (Hin d Hr) Hf Hi)) as (cs & d1 & _ & Hc1 & _ & Hlt & _). congruence.
      + intros d Hr. apply (Hnode d (Hin d Hr)).
  Qed.
End TreeCheck.

Definition ex_descs : list desc :=
  [ {| d_name := [1; 40]; d_rel := Some [1; 40; 0]; d_path := [1; 40; 0]; d_mod := false |};
    {| d_name := [2; 10]; d_rel := None; d_path := [10]; d_mod := false |};
    {| d_name := [4; 30; 21]; d_rel := None; d_path := [4; 30; 21]; d_mod := false |};
    {| d_name := [1; 40; 50]; d_rel := Some [1; 40]; d_path := [1; 40; 50]; d_mod := true |};
    {| d_name := [3; 60]; d_rel := None; d_path := [3; 60]; d_mod := true |};
    {| d_name := [3; 61]; d_rel := None; d_path := [3; 61]; d_mod := true |};
    {| d_name := [3; 62]; d_rel := None; d_path := [3; 62]; d_mod := true |} ]%N.

Definition ex_rank (d : desc) : nat := rank_by_table ex_rank_tbl (d_name d).

Example ex_good_tree : good_tree ex_tree ex_cfg.
Proof. apply (tree_check_good ex_tree ex_cfg ex_descs ex_rank). vm_compute. reflexivity. Qed.

Example ex_startup_exact :
  forall n, has (r_st (reload all_off 0 [] ex_tree ex_cfg RNone)) n <-> spec_loaded ex_tree ex_cfg n.
Proof. apply (startup_post_state 0%N ex_tree ex_cfg ex_good_tree). Qed.
