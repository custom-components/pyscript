(* import_recurse (load_scripts' memoised depth-first walk: `visited` set, `ctx2imports` memo) returns exactly the
   contexts reachable in one or more import steps, for an acyclic graph and a memo satisfying [INV]
   ([import_recurse_returns]: induction on the fuel alone); and it always returns, cyclic graphs included, because each
   descent marks a loaded, unvisited name ([mu], the [_total] lemmas). *)
From PV Require Import Common.Util Life.ReloadBase Gen.ReloadConsts Life.Modules Life.Reload Life.ReloadPlanSpec Proofs.LifeReloadBase.
From Coq Require Import Lia.

Lemma reach_plus_trans st a b c : reach_plus st a b -> reach_plus st b c -> reach_plus st a c.
Proof. induction 1 as [a b E|a b c' E R IH]; intros H; eapply rp_step; eauto. Qed.

Lemma acyclic_irrefl st a : acyclic st -> ~ reach_plus st a a.
Proof.
  intros [rank Hr] R.
  assert (H : forall x y, reach_plus st x y -> (rank y < rank x)%nat).
  { induction 1 as [x y E|x y z E R' IH]; [apply Hr; exact E|]. pose proof (Hr _ _ E). lia. }
  pose proof (H _ _ R). lia.
Qed.

Lemma acyclic_nil : acyclic [].
Proof. exists (fun _ => 0%nat). intros a b (c & G & _). discriminate. Qed.

(* how a concrete table is shown acyclic *)
Lemma acyclic_rank st (rank : cname -> nat) :
  forallb (fun c => forallb (fun b => rank b <? rank (c_name c))%nat (c_imports c)) st = true -> acyclic st.
Proof.
  intros H. exists rank. intros a b (c & G & Hb). apply st_get_Some in G. destruct G as [Hc <-].
  rewrite forallb_forall in H. specialize (H c Hc). rewrite forallb_forall in H. apply Nat.ltb_lt, H, Hb.
Qed.

Lemma reach_unfold st n c d : st_get st n = Some c ->
  (reach_plus st n d <-> exists i, In i (c_imports c) /\ (d = i \/ reach_plus st i d)).
Proof.
  intros G. split.
  - intros R. inversion R as [a b E|a b c' E R']; subst; destruct E as (c0 & G0 & Hi);
      rewrite G in G0; inversion G0; subst c0; eauto.
  - intros (i & Hi & [->|R]).
    + apply rp_one. exists c; auto.
    + eapply rp_step; [exists c; eauto|exact R].
Qed.

Lemma reach_none st n d : st_get st n = None -> ~ reach_plus st n d.
Proof. intros G R. inversion R as [a b E|a b c' E R']; subst; destruct E as (c0 & G0 & _); congruence. Qed.

Definition closure_of (st : state) (k : cname) (v : list cname) : Prop := forall d, In d v <-> reach_plus st k d.

Lemma closure_of_unloaded st n : st_get st n = None -> closure_of st n [].
Proof. intros G d. split; [intros []|apply reach_none, G]. Qed.

(* [stk]: the names whose walk is in progress; their memo entries are still growing.  [inv_vis]: import_recurse marks a
   name visited before it looks it up, and writes no entry for a name without a context. *)
Record INV (st : state) (m : memo) (visited stk : list cname) : Prop := {
  inv_memo : forall k v, memo_get m k = Some v -> ~ In k stk -> closure_of st k v;
  inv_vis : forall k, In k visited -> ~ In k stk -> memo_get m k <> None \/ st_get st k = None }.

Lemma memo_closure st m v stk n : INV st m v stk -> ~ In n stk -> memo_get m n <> None \/ st_get st n = None ->
  closure_of st n (memo_or_empty m n).
Proof.
  intros Hinv Hn H. unfold memo_or_empty. destruct (memo_get m n) as [x|] eqn:Em; [apply (inv_memo _ _ _ _ Hinv n x Em Hn)|].
  destruct H as [H|H]; [congruence|apply closure_of_unloaded, H].
Qed.

Lemma INV_empty st : INV st [] [] [].
Proof. split; [intros k v H; discriminate|intros k []]. Qed.

Lemma INV_set st m v stk k x : In k stk -> INV st m v stk -> INV st (memo_set m k x) v stk.
Proof.
  intros Hk [Ha Hb]. assert (Hne : forall k', ~ In k' stk -> k <> k') by (intros k' Hn ->; exact (Hn Hk)).
  split; intros k'.
  - intros v' Hg Hn. rewrite memo_get_set_other in Hg by auto. apply Ha; assumption.
  - intros Hv Hn. rewrite memo_get_set_other by auto. apply Hb; assumption.
Qed.

Lemma INV_push st m v stk n : INV st m v stk -> INV st m (v ++ [n]) (n :: stk).
Proof.
  intros [Ha Hb]. split; intros k.
  - intros v' Hg Hn. apply (Ha k v' Hg). intros HI. apply Hn. right. exact HI.
  - intros Hv Hn. apply in_app_or in Hv. destruct Hv as [Hv|[<-|[]]]; [|destruct Hn; left; reflexivity].
    apply (Hb k Hv). intros HI. apply Hn. right. exact HI.
Qed.

Lemma INV_pop st m v stk n res : INV st m v (n :: stk) -> memo_get m n = Some res -> closure_of st n res -> INV st m v stk.
Proof.
  intros [Ha Hb] Hg Hres. split; intros k.
  - intros v' Hg' Hn. destruct (list_eq_dec N.eq_dec k n) as [->|Hkn]; [replace v' with res by congruence; exact Hres|].
    apply (Ha k v' Hg'). intros [E|HI]; [congruence|exact (Hn HI)].
  - intros Hv Hn. destruct (list_eq_dec N.eq_dec k n) as [->|Hkn]; [left; congruence|].
    apply (Hb k Hv). intros [E|HI]; [congruence|exact (Hn HI)].
Qed.

Lemma INV_unloaded st m v stk n : st_get st n = None -> INV st m v stk -> INV st m (v ++ [n]) stk.
Proof.
  intros G [Ha Hb]. split; [exact Ha|]. intros k Hv Hk. apply in_app_or in Hv.
  destruct Hv as [Hv|[<-|[]]]; [apply (Hb k Hv Hk)|right; exact G].
Qed.

Definition returns_ok (st : state) (n : cname) (m : memo) (stk : list cname) (r : irres) : Prop :=
  forall res v' m', r = IROk res v' m' ->
    closure_of st n res /\ INV st m' v' stk
    /\ (forall k, In k stk -> memo_get m' k = memo_get m k)
    /\ (memo_get m' n <> None \/ st_get st n = None).

Section Loop.
  Variable st : state.
  Variable rec : cname -> list cname -> memo -> irres.
  Hypothesis Hac : acyclic st.
  (* [stk] is a ghost: every name on it reaches the current one, so by [Hac] the current name is not on it.  The only
     use of acyclicity: a name on the stack would be answered from its half-built entry. *)
  Hypothesis rec_ok : forall n visited m stk,
      (forall s, In s stk -> reach_plus st s n) -> INV st m visited stk -> returns_ok st n m stk (rec n visited m).

  (* [acc]: what the memo holds for [self] so far *)
  Lemma ir_loop_returns self c stk : st_get st self = Some c -> (forall s, In s stk -> reach_plus st s self) ->
    forall todo visited m acc,
      incl todo (c_imports c) -> memo_get m self = Some acc -> INV st m visited (self :: stk) ->
      forall res v' m', ir_loop rec self todo visited m = IROk res v' m' ->
        (forall d, In d res <-> In d acc \/ exists i, In i todo /\ (d = i \/ reach_plus st i d))
        /\ memo_get m' self = Some res /\ INV st m' v' (self :: stk)
        /\ (forall k, In k stk -> memo_get m' k = memo_get m k).
  Proof.
    intros G Hstk.
    assert (Hother : forall k, In k stk -> self <> k).
    { intros k Hk ->. apply (acyclic_irrefl st k Hac), Hstk, Hk. }
    induction todo as [|i todo IH]; intros visited m acc Hinc Hself Hinv res v' m'; cbn [ir_loop]; unfold memo_or_empty at 1; rewrite Hself.
    - intros [= <- <- <-]. split; [|auto]. intros d. rewrite ex_In_nil. clear. tauto.
    - set (m1 := memo_set m self (nl_add i acc)).
      assert (Hi : edge st self i) by (exists c; split; [exact G|apply Hinc; left; reflexivity]).
      destruct (rec i visited m1) as [sub v2 m2|] eqn:Er; [|discriminate].
      destruct (rec_ok i visited m1 (self :: stk)) with (3 := Er) as (Hsub & Hinv2 & Hkeep2 & _).
      { intros s [<-|Hs]; [apply rp_one, Hi|]. eapply reach_plus_trans; [apply Hstk, Hs|apply rp_one, Hi]. }
      { apply INV_set; [left; reflexivity|exact Hinv]. }
      assert (Hself2 : memo_get m2 self = Some (nl_add i acc)).
      { rewrite Hkeep2 by (left; reflexivity). apply memo_get_set_same. }
      unfold memo_or_empty. rewrite Hself2.
      set (acc' := nl_union (nl_add i acc) sub). intros El.
      destruct (IH v2 (memo_set m2 self acc') acc') with (4 := El) as (Hres & Hs' & Hinv' & Hkeep').
      + intros x Hx. apply Hinc. right. exact Hx.
      + apply memo_get_set_same.
      + apply INV_set; [left; reflexivity|exact Hinv2].
      + refine (conj _ (conj Hs' (conj Hinv' _))).
        * (* [acc'] holds [i], [acc] and the closure of [i]; [IH] adds what [todo] reaches *)
          intros d. rewrite Hres, ex_In_cons, <- or_assoc. apply or_iff_compat_r. unfold acc'.
          rewrite nl_union_In, nl_add_In, (Hsub d). clear. tauto.   (* uncleared, [tauto] tries the equivalences of the context as well *)
        * intros k Hk. rewrite Hkeep' by exact Hk. rewrite memo_get_set_other by auto.
          rewrite Hkeep2 by (right; exact Hk). apply memo_get_set_other. auto.
  Qed.
End Loop.

Lemma import_recurse_returns st : acyclic st -> forall fuel n visited m stk,
  (forall s, In s stk -> reach_plus st s n) -> INV st m visited stk ->
  returns_ok st n m stk (import_recurse fuel st n visited m).
Proof.
  intros Hac. induction fuel as [|fuel IH]; intros n visited m stk Hstk Hinv res v' m'; [discriminate|].
  assert (Hn_not : ~ In n stk).
  { intros HI. apply (acyclic_irrefl st n Hac). apply Hstk, HI. }
  cbn [import_recurse].
  destruct (nl_mem n visited || match memo_get m n with Some _ => true | None => false end) eqn:Eearly.
  - (* visited or memoised: the memo answers, or the name is not loaded *)
    intros [= <- <- <-].
    assert (Hn : memo_get m n <> None \/ st_get st n = None).
    { destruct (memo_get m n) eqn:Em; [left; discriminate|]. rewrite orb_false_r in Eearly.
      apply nl_mem_In in Eearly. destruct (inv_vis _ _ _ _ Hinv n Eearly Hn_not) as [H|H]; [congruence|right; exact H]. }
    exact (conj (memo_closure _ _ _ _ n Hinv Hn_not Hn) (conj Hinv (conj (fun _ _ => eq_refl) Hn))).
  - destruct (st_get st n) as [c|] eqn:G.
    + intros El.
      destruct (ir_loop_returns st (import_recurse fuel st) Hac IH n c stk G Hstk (c_imports c) (visited ++ [n]) (memo_set m n []) [])
        with (4 := El) as (Hres & Hself & Hinv' & Hkeep).
      * apply incl_refl.
      * apply memo_get_set_same.
      * apply INV_set; [left; reflexivity|apply INV_push, Hinv].
      * assert (Hcl : closure_of st n res).
        { intros d. rewrite Hres, (reach_unfold st n c d G). cbn [In]. tauto. }
        split; [exact Hcl|]. split; [apply (INV_pop _ _ _ _ n res); assumption|]. split; [|left; congruence].
        intros k Hk. rewrite Hkeep by exact Hk. apply memo_get_set_other. intros ->. exact (Hn_not Hk).
    + intros [= <- <- <-]. split; [exact (closure_of_unloaded st n G)|]. split; [apply INV_unloaded; assumption|auto].
Qed.

(* the fuel measure: loaded contexts not yet visited *)
Definition mu (st : state) (visited : list cname) : nat :=
  length (filter (fun c => negb (nl_mem (c_name c) visited)) st).

Lemma mu_snoc st v n : (mu st (v ++ [n]) <= mu st v)%nat
  /\ forall c, st_get st n = Some c -> ~ In n v -> (mu st (v ++ [n]) < mu st v)%nat.
Proof.
  unfold mu, st_get. induction st as [|c0 st [IH1 IH2]]; cbn [filter find]; [split; [lia|discriminate]|].
  assert (E : nl_mem (c_name c0) (v ++ [n]) = nl_mem (c_name c0) v || nl_eqb (c_name c0) n).
  { unfold nl_mem. rewrite existsb_app. cbn. rewrite orb_false_r. reflexivity. }
  rewrite E. destruct (nl_mem (c_name c0) v) eqn:Ev; cbn [orb negb].
  - split; [exact IH1|]. intros c Hc Hn. destruct (nl_eqb_spec (c_name c0) n) as [En|_]; [|apply (IH2 c Hc Hn)].
    destruct Hn. rewrite <- En. apply nl_mem_In, Ev.
  - destruct (nl_eqb_spec (c_name c0) n) as [En|Hne]; cbn [negb length].
    + split; [lia|intros; lia].
    + split; [lia|]. intros c Hc Hn. specialize (IH2 c Hc Hn). lia.
Qed.

Lemma mu_le_length st v : (mu st v <= length st)%nat.
Proof. unfold mu. induction st as [|c st IH]; cbn; [lia|]. destruct (negb _); cbn; lia. Qed.

Lemma ir_loop_total st rec bound :
  (forall n v m, (mu st v < bound)%nat -> exists res v' m', rec n v m = IROk res v' m' /\ (mu st v' <= mu st v)%nat) ->
  forall todo self visited m, (mu st visited < bound)%nat ->
    exists res v' m', ir_loop rec self todo visited m = IROk res v' m' /\ (mu st v' <= mu st visited)%nat.
Proof.
  intros Hrec. induction todo as [|i todo IH]; intros self visited m Hmu; cbn [ir_loop].
  - eexists _, _, _. split; [reflexivity|lia].
  - destruct (Hrec i visited (memo_set m self (nl_add i (memo_or_empty m self))) Hmu) as (sub & v2 & m2 & -> & Hle).
    destruct (IH self v2 (memo_set m2 self (nl_union (memo_or_empty m2 self) sub))) as (res & v' & m' & E' & Hle'); [lia|].
    exists res, v', m'. split; [exact E'|lia].
Qed.

Lemma import_recurse_total st : forall fuel n visited m, (mu st visited < fuel)%nat ->
  exists res v' m', import_recurse fuel st n visited m = IROk res v' m' /\ (mu st v' <= mu st visited)%nat.
Proof.
  induction fuel as [|fuel IH]; intros n visited m Hmu; [lia|].
  cbn [import_recurse].
  destruct (nl_mem n visited || match memo_get m n with Some _ => true | None => false end) eqn:Eearly.
  - eexists _, _, _. split; [reflexivity|lia].
  - apply orb_false_iff in Eearly. destruct Eearly as [Ev _]. apply nl_mem_false in Ev.
    destruct (mu_snoc st visited n) as [Hle Hlt].
    destruct (st_get st n) as [c|] eqn:G; [|eexists _, _, _; split; [reflexivity|exact Hle]].
    specialize (Hlt c eq_refl Ev).
    destruct (ir_loop_total st (import_recurse fuel st) fuel IH (c_imports c) n (visited ++ [n]) (memo_set m n []))
      as (res & v' & m' & E & Hle'); [lia|].
    exists res, v', m'. split; [exact E|lia].
Qed.

Theorem import_recurse_never_out_of_fuel st n m : import_recurse (ir_fuel st) st n [] m <> IRFuel.
Proof.
  destruct (import_recurse_total st (ir_fuel st) n [] m) as (res & v' & m' & E & _).
  - (* mu <= |st|: of the fuel |st| + 2, one unit is spare *)
    unfold ir_fuel. pose proof (mu_le_length st []). lia.
  - rewrite E. discriminate.
Qed.

(* as the plan calls it: fresh `visited`, any memo left by earlier top-level calls; afterwards the memo answers for [n]
   (ctx2imports.get(name, set())) *)
Theorem import_closure st n m : acyclic st -> INV st m [] [] ->
  exists res v' m', import_recurse (ir_fuel st) st n [] m = IROk res v' m'
    /\ closure_of st n res /\ closure_of st n (memo_or_empty m' n) /\ INV st m' [] [].
Proof.
  intros Hac Hinv.
  destruct (import_recurse (ir_fuel st) st n [] m) as [res v' m'|] eqn:E; [|destruct (import_recurse_never_out_of_fuel st n m E)].
  destruct (import_recurse_returns st Hac _ n [] m [] (fun s (H : In s []) => match H with end) Hinv _ _ _ E) as (Hres & Hinv' & _ & Hn).
  exists res, v', m'. split; [reflexivity|]. split; [exact Hres|].
  split; [apply (memo_closure _ _ _ _ n Hinv'); [intros []|exact Hn]|].
  split; [apply Hinv'|intros k []].
Qed.
