(* C09: [does], what an operation can do, preserves [Inv] ([does_inv]); loops compose by [fold_inactive], [does_fold], [units_does].
   Under [leak_free] each operation up to [step] does only that ([x_does]: single steps, then stopping, starting, unload), a
   definition or an occurrence after an entry in the function table or the log.  Hence [run_ops_ind], and the empty ledger after
   unload. *)
From Coq Require Import List NArith Bool Lia.
From PV Require Import Common.Util Life.Ledger Proofs.LifeLedger Proofs.LifeLedgerSys.
Import ListNotations.
Local Open Scope N_scope.

(* [does] mentions no switch.  A start is one unit at a time, a stop a whole function: half-way through it nothing tells a stopped
   unit of the still active function from one never started.  [Inv] does not say that a function lists each unit once: hence the
   conditional idleness premise of [D_started]. *)
Inductive does : world -> world -> Prop :=
  | D_refl W : does W W
  | D_trans A B C : does A B -> does B C -> does A C
  (* book-keeping: a delay taken off, [w_starting], [w_auto]; the @service decorator of a RUNNING manager registers *)
  | D_status W W' : same_res W W' -> w_active W' = w_active W ->
      (forall g, In g (w_delayed W') -> In g (w_delayed W)) ->
      (forall g, In g (l_svc (w_led W')) -> In g (l_svc (w_led W)) \/ svc_held W' g) -> w_log W' = w_log W ->
      does W W'
  (* a unit of a RUNNING function is started: a decorator by its manager, a legacy trigger by its task *)
  | D_started W W' f u : owns W f u -> In (f_gen f) (w_active W) -> ~ In (f_gen f) (w_delayed W) ->
      (NoDup (map u_id (f_units f)) -> ~ In (u_id u) (w_running W)) -> started (f_new f) u W W' -> does W W'
  (* an active function is stopped: every unit in turn, each as [stopped] says, then the function *)
  | D_stop W W' f stop : (forall V u, Inv V -> owns V f u -> stopped (f_new f) u V (stop V u)) ->
      In f (w_funcs W) -> In (f_gen f) (w_active W) -> retired f (fold_left stop (f_units f) W) W' -> does W W'
  (* a watcher dies; the reaper cancels what is queued *)
  | D_less W L' : less (w_led W) L' -> does W (set_led W L')
  (* a trigger of a legacy function that GlobalContext.start has reached gets its task *)
  | D_leg_unit W f u : owns W f u -> f_new f = false -> In (f_gen f) (w_active W) -> ~ In (f_gen f) (w_delayed W) ->
      ~ In (u_id u) (w_running W) -> does W (leg_unit_start W u).

(* [J pre V] relates the units already stopped to the world reached *)
Lemma stop_units_ind f stop W (J : list unit_ -> world -> Prop) :
  (forall V u, Inv V -> owns V f u -> stopped (f_new f) u V (stop V u)) -> Inv W -> In f (w_funcs W) -> J [] W ->
  (forall pre u post V V', f_units f = pre ++ u :: post -> In u (f_units f) -> stopped (f_new f) u V V' -> J pre V -> J (pre ++ [u]) V') ->
  let W' := fold_left stop (f_units f) W in Inv W' /\ unit_frame W W' /\ idle (f_units f) W' /\ J (f_units f) W'.
Proof.
  intros HS HI Hf J0 JS.
  apply (fold_left_ind (fun pre V => Inv V /\ unit_frame W V /\ idle pre V /\ J pre V)).
  { split; [exact HI|split; [apply unit_frame_refl|split; [intros u []|exact J0]]]. }
  intros pre u post V E [HV [FV [IV JV]]].
  assert (O : owns V f u) by (split; [rewrite (uf_funcs _ _ FV); exact Hf|rewrite E; apply in_elt]).
  pose proof (HS V u HV O) as ST.
  split; [exact (Inv_stopped V _ f u HV O ST)|split; [exact (unit_frame_trans _ _ _ FV (sp_frame _ _ _ _ ST))|split; [|exact (JS pre u post V _ E (proj2 O) ST JV)]]].
  (* a stopped unit stays idle: later stops only take units out *)
  intros u' Hu'. rewrite (sp_running _ _ _ _ ST), (sp_pending _ _ _ _ ST). apply in_app_or in Hu'. destruct Hu' as [Hu'|[<-|[]]]; [destruct (IV u' Hu'); tauto|tauto].
Qed.

Theorem does_inv W W' : does W W' -> Inv W -> Inv W' /\ shrink W W'.
Proof.
  intros D.
  induction D as [W|A B C _ IH1 _ IH2|W W' SR EA ED EV EL|W W' f u O A ND _ ST|W W' f stop HS Hf HA R|W L' LS|W f u O NF A ND NR];
    intros HI.
  - (* D_refl *) split; [exact HI|apply shrink_refl].
  - (* D_trans *) destruct (IH1 HI) as [H1 S1]. destruct (IH2 H1) as [H2 S2]. split; [exact H2|exact (shrink_trans _ _ _ S1 S2)].
  - (* D_status *) exact (Inv_relax W W' HI SR EA ED EV).
  - (* D_started *) exact (Inv_started W _ f u HI O A ND ST).
  - (* D_stop *)
    destruct (stop_units_ind f stop W (fun _ _ => True) HS HI Hf) as [H1 [F1 [I1 _]]]; auto.
    destruct (Inv_retired _ W' f H1) as [H2 S2]; [rewrite (uf_funcs _ _ F1); exact Hf|exact I1|exact R|].
    split; [exact H2|exact (shrink_trans _ _ _ (unit_frame_shrink _ _ F1) S2)].
  - (* D_less *) exact (Inv_less W L' HI LS).
  - (* D_leg_unit *) exact (leg_unit_start_inv W f u HI O NF A ND NR).
Qed.

Lemma fold_inactive {A} (op : world -> A -> world) (P : A -> N -> Prop) l W : Inv W ->
  (forall V a, In a l -> Inv V -> shrink W V ->
     does V (op V a) /\ forall g, P a g -> ~ In g (w_active (op V a))) ->
  does W (fold_left op l W) /\ forall a g, In a l -> P a g -> ~ In g (w_active (fold_left op l W)).
Proof.
  intros HI H.
  apply (fold_left_ind (fun pre V => does W V /\ forall a g, In a pre -> P a g -> ~ In g (w_active V))).
  { split; [apply D_refl|intros a g []]. }
  intros pre a post V E [DV N1]. destruct (does_inv W V DV HI) as [HV SV].
  destruct (H V a) as [D2 N2]; [rewrite E; apply in_elt|exact HV|exact SV|].
  split; [exact (D_trans _ _ _ DV D2)|]. destruct (does_inv V _ D2 HV) as [_ S2].
  intros b g Hb Pb C. apply in_app_or in Hb. destruct Hb as [Hb|[<-|[]]]; [exact (N1 b g Hb Pb (sh_active _ _ S2 _ C))|exact (N2 g Pb C)].
Qed.
Lemma does_fold {A} (op : world -> A -> world) l W : Inv W ->
  (forall V a, In a l -> Inv V -> shrink W V -> does V (op V a)) -> does W (fold_left op l W).
Proof.
  intros HI H. apply (fold_inactive op (fun _ _ => False) l W HI).
  intros V a Ha HV SV. split; [exact (H V a Ha HV SV)|intros g []].
Qed.

(* the units of a RUNNING function, each in turn: it stays RUNNING, they stay its own.  [J] as in [fold_left_ind] *)
Lemma units_does f (op : world -> unit_ -> world) (J : list unit_ -> world -> Prop) us W : Inv W -> In f (w_funcs W) ->
  In (f_gen f) (w_active W) -> ~ In (f_gen f) (w_delayed W) -> (forall u, In u us -> In u (f_units f)) -> J [] W ->
  (forall pre u post V, us = pre ++ u :: post -> Inv V -> owns V f u -> In (f_gen f) (w_active V) -> ~ In (f_gen f) (w_delayed V) ->
     J pre V -> does V (op V u) /\ unit_frame V (op V u) /\ J (pre ++ [u]) (op V u)) ->
  does W (fold_left op us W) /\ unit_frame W (fold_left op us W) /\ J us (fold_left op us W).
Proof.
  intros HI Hf A ND HU J0 HS.
  apply (fold_left_ind (fun pre V => does W V /\ unit_frame W V /\ J pre V)); [split; [apply D_refl|split; [apply unit_frame_refl|exact J0]]|].
  intros pre u post V E [DV [FV JV]].
  destruct (HS pre u post V E (proj1 (does_inv W V DV HI))) as [D2 [F2 J2]]; [| | |exact JV|].
  - split; [rewrite (uf_funcs _ _ FV); exact Hf|apply HU; rewrite E; apply in_elt].
  - rewrite (uf_active _ _ FV). exact A.
  - rewrite (uf_delayed _ _ FV). exact ND.
  - exact (conj (D_trans _ _ _ DV D2) (conj (unit_frame_trans _ _ _ FV F2) J2)).
Qed.

Lemma set_auto_does W x : does W (set_auto W x).
Proof. apply D_status; try reflexivity; [exact (same_res_refl W)|auto..]. Qed.

Lemma undelay_does W g : does W (set_delayed W (deln g (w_delayed W))).
Proof. apply D_status; try reflexivity; [exact (same_res_refl W)|apply deln_sub|auto]. Qed.

Lemma dec_start_does W f u : Inv W -> owns W f u -> f_new f = true -> In (f_gen f) (w_active W) -> ~ In (f_gen f) (w_delayed W) ->
  (NoDup (map u_id (f_units f)) -> ~ In (u_id u) (w_running W)) -> does W (dec_unit_start W u).
Proof. intros HI O NF A ND NR. exact (D_started W _ f u O A ND NR (dec_unit_started W f u HI O NF)). Qed.

Lemma prologue_does id W : Inv W -> does W (prologue id W).
Proof.
  intros HI. pose proof HI as [_ [S _]]. unfold prologue. destruct (find_unit W id) as [u|] eqn:FU; [|apply D_refl].
  destruct (find_unit_some W id u FU) as [f [O <-]].
  destruct (memn (u_id u) (w_pending W)) eqn:MP; [|rewrite (so_zomb W S); apply D_refl].
  apply memn_In in MP. destruct (pending_unit W f u HI O MP) as [NF [A ND]].
  apply (D_started W _ f u O A ND (fun _ => so_disj W S _ MP)). rewrite NF.
  constructor; wsimpl.
  - (* sr_frame *) constructor; wsimpl; rewrite ?leg_prologue_nf; reflexivity.
  - (* sr_acquired *) exact (leg_prologue_acquired u (w_led W)).
  - (* sr_log *) reflexivity.
  - (* sr_running *) intros x. apply In_addn.
  - (* sr_pending *) intros x. apply In_deln.
Qed.

Lemma crash_all_does cfg ids W : leak_free cfg -> does W (crash_all cfg ids W).
Proof.
  intros LK. apply (fold_left_inv (fun V => does W V)); [|apply D_refl].
  intros V id _ D. apply (D_trans _ _ _ D). unfold crash_unit. destruct (find_unit V id) as [u|]; [|apply D_refl].
  destruct (unit_new V u); apply D_less; [apply task_end_less|apply leg_crash_less, (proj1 LK)].
Qed.

Lemma settle_does W : Inv W -> does W (settle W).
Proof.
  intros HI. unfold settle. eapply D_trans; [|exact (D_less _ _ (reap_less _))]. apply does_fold; [exact HI|].
  intros V id _ HV _. exact (prologue_does id V HV).
Qed.

Definition stop_units (cfg : deviations) (f : func) (W : world) : world := fold_left (stop_unit cfg f) (f_units f) W.

Lemma stop_does cfg W W' f : leak_free cfg -> In f (w_funcs W) -> In (f_gen f) (w_active W) -> retired f (stop_units cfg f W) W' -> does W W'.
Proof. intros LK. exact (D_stop W W' f (stop_unit cfg f) (stop_unit_stopped cfg f LK)). Qed.

Lemma stop_units_inv cfg f W : leak_free cfg -> Inv W -> In f (w_funcs W) ->
  Inv (stop_units cfg f W) /\ unit_frame W (stop_units cfg f W).
Proof.
  intros LK HI Hf. destruct (stop_units_ind f (stop_unit cfg f) W (fun _ _ => True) (stop_unit_stopped cfg f LK) HI Hf) as [H [F _]]; auto.
Qed.

Lemma stop_idle cfg us W : (forall u, In u us -> ~ In (u_id u) (w_running W)) -> fold_left (stop_if_running cfg) us W = W.
Proof.
  induction us as [|a r IH]; intros H; cbn [fold_left]; [reflexivity|].
  unfold stop_if_running at 2. rewrite (proj2 (memn_false _ _) (H a (or_introl eq_refl))). apply IH. intros u Hu. apply H. right; exact Hu.
Qed.

(* how every stop of a function ends: after the units, the service is removed if registered ([V2]), then the function leaves the
   active set; [dl] is what stays delayed *)
Lemma retired_intro f V V2 dl : svc_frame V V2 ->
  (forall g, In g (l_svc (w_led V2)) -> In g (l_svc (w_led V)) /\ g <> f_gen f) -> (forall g, In g dl -> In g (w_delayed V2)) ->
  retired f V (set_delayed (set_active V2 (deln (f_gen f) (w_active V2))) dl).
Proof.
  intros [SR SA SD LG] SV DL. constructor; wsimpl.
  - (* rt_res *) exact SR.
  - (* rt_log *) exact LG.
  - (* rt_active *) intros g. rewrite SA. apply In_deln.
  - (* rt_delayed *) intros g Hg. rewrite <- SD. exact (DL g Hg).
  - (* rt_svc *) exact SV.
Qed.

Lemma retired_unregistered f V dl : ~ In (f_gen f) (l_svc (w_led V)) -> (forall g, In g dl -> In g (w_delayed V)) ->
  retired f V (set_delayed (set_active V (deln (f_gen f) (w_active V))) dl).
Proof. intros N. apply (retired_intro f V V dl (svc_frame_refl V)). intros g Hg. split; [exact Hg|]. intros ->. exact (N Hg). Qed.

Lemma ctx_stop_func_does cfg W f : leak_free cfg -> Inv W -> In f (w_funcs W) -> does W (ctx_stop_func cfg W f).
Proof.
  intros LK HI Hf. pose proof (stop_units_inv cfg f W LK HI Hf) as [H1 F1].
  assert (Hf1 : In f (w_funcs (stop_units cfg f W))) by (rewrite (uf_funcs _ _ F1); exact Hf).
  unfold ctx_stop_func, leg_func_stop, dm_stop.
  destruct (memn (f_gen f) (w_active W)) eqn:MA; [apply memn_In in MA|destruct (f_new f); apply D_refl].
  apply (stop_does cfg W _ f LK Hf MA). unfold stop_units, stop_unit in *.
  destruct (f_new f) eqn:NF; [destruct (memn (f_gen f) (w_delayed W)) eqn:MD|].
  - (* "Stopping before starting": no unit is started and no service registered *)
    apply memn_In in MD.
    rewrite (stop_idle cfg (f_units f) W (delayed_not_running W f HI Hf MD)).
    exact (retired_unregistered f W _ (new_delayed_no_svc W f HI Hf NF MD) (deln_sub _ _)).
  - (* RUNNING: the service is removed only if registered *)
    set (W1 := fold_left (stop_if_running cfg) (f_units f) W) in *. cbv zeta.
    destruct (memn (f_gen f) (l_svc (w_led W1))) eqn:M.
    + destruct (svc_remove_spec W1 f H1 Hf1) as [SF SV]. exact (retired_intro f W1 _ _ SF SV (fun _ H => H)).
    + apply memn_false in M. exact (retired_unregistered f W1 _ M (fun _ H => H)).
  - destruct (svc_remove_spec _ f H1 Hf1) as [SF SV]. exact (retired_intro f _ _ _ SF SV (deln_sub _ _)).
Qed.

Lemma ctx_stop_func_inactive cfg W f : ~ In (f_gen f) (w_active (ctx_stop_func cfg W f)).
Proof.
  unfold ctx_stop_func, leg_func_stop, dm_stop, dm_discard.
  destruct (f_new f); (destruct (memn (f_gen f) (w_active W)) eqn:MA; [|apply memn_false; exact MA]);
    [destruct (memn (f_gen f) (w_delayed W))|]; cbv zeta; wsimpl; apply not_in_deln_self.
Qed.

Lemma ctx_stop_does cfg c W : leak_free cfg -> Inv W ->
  does W (ctx_stop cfg c W) /\ forall f, In f (w_funcs W) -> f_ctx f = c -> ~ In (f_gen f) (w_active (ctx_stop cfg c W)).
Proof.
  intros LK HI. unfold ctx_stop.
  destruct (fold_inactive (fun W f => if N.eqb (f_ctx f) c then ctx_stop_func cfg W f else W)
              (fun f g => f_ctx f = c /\ g = f_gen f) (w_funcs W) W HI) as [D1 N1].
  - intros V f Hf HV SV. destruct (N.eqb_spec (f_ctx f) c) as [EC|NE]; [|split; [apply D_refl|tauto]].
    rewrite <- (sh_funcs _ _ SV) in Hf. split; [exact (ctx_stop_func_does cfg V f LK HV Hf)|].
    intros g [_ ->]. apply ctx_stop_func_inactive.
  - split; [exact (D_trans _ _ _ D1 (set_auto_does _ _))|]. intros f Hf EC. exact (N1 f _ Hf (conj EC eq_refl)).
Qed.

(* the finalizer stops the function as its context would, or (D90, D93) does nothing *)
Lemma dropped_cases cfg W f : find_func W (f_gen f) = Some f ->
  dropped cfg (f_gen f) W = W \/ dropped cfg (f_gen f) W = ctx_stop_func cfg W f.
Proof.
  intros FF. unfold dropped, ctx_stop_func. rewrite FF. destruct (f_new f); [|auto]. destruct (memn (f_gen f) (w_active W)); [|auto].
  destruct (memn (f_gen f) (w_delayed W)); [destruct (d90_dropped_dm_started cfg)|destruct (d93_fault_pins_function cfg && pinned f)]; auto.
Qed.

Lemma dropped_does cfg g W : leak_free cfg -> Inv W -> does W (dropped cfg g W).
Proof.
  intros LK HI. destruct (find_func W g) as [f|] eqn:FF; [|unfold dropped; rewrite FF; apply D_refl].
  destruct (find_func_some W g f FF) as [Hf <-].
  destruct (dropped_cases cfg W f FF) as [->| ->]; [apply D_refl|exact (ctx_stop_func_does cfg W f LK HI Hf)].
Qed.

(* the decorators it still starts are idle by the test in [start_if_idle] *)
Lemma dm_resume_does g W : Inv W -> does W (dm_resume g W).
Proof.
  intros HI. assert (D0 : does W (set_starting W (deln g (w_starting W)))) by (apply D_status; try reflexivity; [exact (same_res_refl W)|auto..]).
  destruct (dm_resume_cases g W) as [->|[f [Hf [<- [NF RS]]]]]; [apply D_refl|].
  destruct RS as [->|[CA [CD ->]]]; [exact D0|].
  apply (D_trans _ _ _ D0).
  apply (units_does f start_if_idle (fun _ _ => True) (f_units f) _ (proj1 (does_inv _ _ D0 HI)) Hf CA CD (fun _ H => H) Logic.I).
  intros pre u post V _ HV O A ND _. unfold start_if_idle. destruct (memn (u_id u) (w_running V)) eqn:MR.
  { split; [apply D_refl|split; [apply unit_frame_refl|exact Logic.I]]. }
  apply memn_false in MR. split; [exact (dec_start_does V f u HV O NF A ND (fun _ => MR))|split; [apply dec_unit_start_frame|exact Logic.I]].
Qed.

Lemma resume_all_does W : Inv W -> does W (resume_all W).
Proof. intros HI. apply does_fold; [exact HI|]. intros V g _ HV _. exact (dm_resume_does g V HV). Qed.

(* a later decorator is still idle because ids differ *)
Lemma start_units_does f us W : Inv W -> In f (w_funcs W) -> f_new f = true ->
  In (f_gen f) (w_active W) -> ~ In (f_gen f) (w_delayed W) -> (forall u, In u (f_units f) -> ~ In (u_id u) (w_running W)) ->
  (forall u, In u us -> In u (f_units f)) -> (NoDup (map u_id (f_units f)) -> NoDup (map u_id us)) ->
  does W (fold_left dec_unit_start us W) /\ unit_frame W (fold_left dec_unit_start us W).
Proof.
  intros HI Hf NF A ND IDLE HU NDp.
  destruct (units_does f dec_unit_start (fun pre V => forall x, In x (w_running V) -> In x (w_running W) \/ In x (map u_id pre)) us W HI Hf A ND HU)
    as [D [F _]]; [auto| |exact (conj D F)].
  intros pre u post V E HV O AV NDV RV.
  split; [|split; [apply dec_unit_start_frame|]].
  - apply (dec_start_does V f u HV O NF AV NDV).
    intros NDU C. apply NDp in NDU. rewrite E, map_app in NDU. cbn [map] in NDU. apply NoDup_remove_2 in NDU.
    destruct (RV _ C) as [C1|C1]; [exact (IDLE u (proj2 O) C1)|apply NDU, in_or_app; left; exact C1].
  - intros x Hx. unfold dec_unit_start in Hx. wsimpl. apply In_addn in Hx. rewrite map_app, in_app_iff. cbn [map In].
    destruct Hx as [Hx| ->]; [destruct (RV _ Hx); auto|auto].
Qed.

Lemma dm_begin_does cfg W f : leak_free cfg -> Inv W -> In f (w_funcs W) -> f_new f = true ->
  In (f_gen f) (w_active W) -> In (f_gen f) (w_delayed W) -> does W (dm_begin cfg W f).
Proof.
  intros LK HI Hf NF CA CD. unfold dm_begin. set (W0 := set_delayed W (deln (f_gen f) (w_delayed W))).
  assert (D0 : does W W0) by apply undelay_does.
  pose proof (proj1 (does_inv W W0 D0 HI)) as H0. apply (D_trans _ _ _ D0).
  pose proof (fun us => start_units_does f us W0 H0 Hf NF CA (not_in_deln_self _ _) (delayed_not_running W f HI Hf CD)) as ST.
  destruct (f_svc f) as [n|] eqn:SVN; [|apply ST; auto].
  destruct (ST (firstn (f_pos f) (f_units f)) (firstn_In _ _)) as [D1 F1]. { rewrite <- firstn_map. apply firstn_nodup. }
  set (W1 := fold_left dec_unit_start (firstn (f_pos f) (f_units f)) W0) in *. apply (D_trans _ _ _ D1).
  pose proof (proj1 (does_inv W0 W1 D1 H0)) as H1. pose proof F1 as [T1 _ A1 D1' _ V1].
  assert (Hf1 : In f (w_funcs W1)) by (rewrite T1; exact Hf).
  assert (CA1 : In (f_gen f) (w_active W1)) by (rewrite A1; exact CA).
  destruct (svc_refused W1 f); cbv zeta.
  - apply (stop_does cfg W1 _ f LK Hf1 CA1).
    pose proof (uf_svc _ _ (proj2 (stop_units_inv cfg f W1 LK H1 Hf1))) as V2.
    unfold stop_units, stop_unit in *. rewrite NF in *. apply retired_unregistered; [|auto].
    (* delayed in W, so no service there, and no unit operation registers one *)
    rewrite V2, V1. exact (new_delayed_no_svc W f HI Hf NF CD).
  - (* registered; start() is suspended here *)
    destruct (svc_register_spec W1 f) as [[SR SA SD LG] SV]. apply D_status; wsimpl; auto; [rewrite SD; auto|].
    intros g Hg. destruct (SV g Hg) as [Hg'| ->]; [left; exact Hg'|right].
    unfold svc_held. wsimpl. rewrite SA, SD, (same_res_funcs _ _ SR). split; [exact CA1|]. exists f. rewrite SVN, D1'.
    repeat split; auto. intros _. apply not_in_deln_self.
Qed.

(* none of the triggers is started, and creating a task starts nothing *)
Lemma leg_func_start_does W f : Inv W -> In f (w_funcs W) -> f_new f = false -> In (f_gen f) (w_active W) ->
  In (f_gen f) (w_delayed W) -> does W (leg_func_start (set_delayed W (deln (f_gen f) (w_delayed W))) f).
Proof.
  intros HI Hf NF CA CD. set (W0 := set_delayed W (deln (f_gen f) (w_delayed W))).
  assert (D0 : does W W0) by apply undelay_does.
  apply (D_trans _ _ _ D0). unfold leg_func_start.
  apply (units_does f leg_unit_start (fun _ V => w_running V = w_running W) (f_units f) W0 (proj1 (does_inv _ _ D0 HI)) Hf CA
           (not_in_deln_self _ _) (fun _ H => H) eq_refl).
  intros pre u post V _ HV O A ND ER. split; [|split; [constructor; reflexivity|exact ER]].
  apply (D_leg_unit V f u O NF A ND). rewrite ER. exact (delayed_not_running W f HI Hf CD u (proj2 O)).
Qed.

Lemma ctx_start_func_does cfg W f : leak_free cfg -> Inv W -> In f (w_funcs W) -> does W (ctx_start_func cfg W f).
Proof.
  intros LK HI Hf. unfold ctx_start_func.
  destruct (memn (f_gen f) (w_active W) && memn (f_gen f) (w_delayed W)) eqn:C; [|apply D_refl].
  apply andb_true_iff in C. destruct C as [CA CD]. apply memn_In in CA, CD.
  destruct (f_new f) eqn:NF; [apply dm_begin_does; auto|apply leg_func_start_does; assumption].
Qed.

Lemma order_funcs_In ord fs f : In f (order_funcs ord fs) -> In f fs.
Proof.
  unfold order_funcs. intros H. apply in_app_or in H. destruct H as [H|H].
  - apply in_flat_map in H. destruct H as [g [_ H]]. apply filter_In in H. tauto.
  - apply filter_In in H. tauto.
Qed.

Lemma ctx_start_does cfg c ord W : leak_free cfg -> Inv W -> does W (ctx_start cfg c ord W).
Proof.
  intros LK HI. unfold ctx_start. eapply D_trans; [|apply set_auto_does]. apply does_fold; [exact HI|].
  intros V f Hf HV SV. destruct (N.eqb (f_ctx f) c); [|apply D_refl].
  apply order_funcs_In in Hf. rewrite <- (sh_funcs _ _ SV) in Hf. exact (ctx_start_func_does cfg V f LK HV Hf).
Qed.

Lemma unload_does cfg W : leak_free cfg -> Inv W -> does W (unload cfg W) /\ w_active (unload cfg W) = [].
Proof.
  intros LK HI. unfold unload.
  destruct (fold_inactive (fun W c => ctx_stop cfg c W) (fun c g => exists f, In f (w_funcs W) /\ f_ctx f = c /\ f_gen f = g)
              (all_ctxs W) W HI) as [D1 N1].
  { intros V c _ HV SV. destruct (ctx_stop_does cfg c V LK HV) as [D2 N2]. split; [exact D2|].
    intros g [f [Hf [EC <-]]]. apply N2; [rewrite (sh_funcs _ _ SV); exact Hf|exact EC]. }
  destruct (does_inv _ _ D1 HI) as [H1 S1]. set (W1 := fold_left _ _ W) in *.
  pose proof (resume_all_does W1 H1) as D2. destruct (does_inv _ _ D2 H1) as [H2 S2].
  pose proof (settle_does _ H2) as D3. destruct (does_inv _ _ D3 H2) as [[_ [St3 _]] S3].
  split; [exact (D_trans _ _ _ D1 (D_trans _ _ _ D2 D3))|]. apply incl_l_nil. intros g Hg.
  (* an active generation has a function, and stopping its context took it out *)
  destruct (so_act _ St3 g Hg) as [f [Hf <-]]. rewrite (sh_funcs _ _ (shrink_trans _ _ _ S1 (shrink_trans _ _ _ S2 S3))) in Hf.
  destruct (N1 (f_ctx f) (f_gen f)); [apply in_map; exact Hf|exists f; auto|exact (sh_active _ _ S2 _ (sh_active _ _ S3 _ Hg))].
Qed.

(* a definition (the function table grows), an occurrence (it may run an inactive function, through a task awaiting the reaper),
   a life-cycle operation ([does] covers it as it is) *)
Inductive op_kind := KDefine | KOcc | KLife.
Definition kind_of (o : op) : op_kind :=
  match o with ODefine _ _ _ => KDefine | OState _ | OEvent _ | OTick | OCall _ => KOcc | _ => KLife end.

Theorem step_does cfg W o : leak_free cfg -> Inv W -> kind_of o = KLife -> does W (step cfg W o).
Proof.
  intros LK HI K. destruct o; try discriminate; cbn [step].
  - (* ODropped *) apply dropped_does; assumption.
  - (* OCtxAuto *) apply set_auto_does.
  - (* OCtxStart *) apply ctx_start_does; assumption.
  - (* OCtxStop *) apply ctx_stop_does; assumption.
  - (* OUnload *) apply unload_does; assumption.
  - (* OPrologue *) apply prologue_does, HI.
  - (* OResume *) apply dm_resume_does, HI.
  - (* OResumeAll *) apply resume_all_does, HI.
  - (* OReap *) exact (D_less _ _ (reap_less _)).
  - (* OSettle *) apply settle_does, HI.
  - (* OStartupCrash *) apply crash_all_does, LK.
  - (* OCellImportStart *) destruct (d92_cell_import_not_started cfg); [apply D_refl|apply ctx_start_does; assumption].
Qed.

(* left: a legacy definition whose service is refused only uses up ids *)
Lemma define_does cfg c n s W : leak_free cfg -> Inv W ->
  does W (define cfg c n s W) \/ does (define_mid c n s W) (define cfg c n s W).
Proof.
  intros LK HI. rewrite define_nf. destruct (negb n && svc_refused _ _); [left|right].
  { apply D_status; auto. repeat split; try reflexivity. cbn [set_next define_obj w_next]. lia. }
  destruct (memn c (w_auto W)); [|apply D_refl].
  apply (ctx_start_func_does cfg _ _ LK (define_mid_inv c n s W HI)). rewrite (df_funcs _ _ _ _ _ (define_mid_spec c n s W)). apply in_elt.
Qed.

Definition occ_runs (cfg : deviations) (o : op) (W : world) : list run :=
  match o with
  | OState e => occ_state e W | OEvent ev => occ_event ev W | OTick => occ_tick W | OCall n => occ_call cfg n W
  | _ => []
  end.

(* an occurrence logs the runs it dispatches; then the watchers whose dispatch raised die *)
Lemma occ_does cfg W o : leak_free cfg -> kind_of o = KOcc -> does (add_log W (occ_runs cfg o W)) (step cfg W o).
Proof. intros LK. destruct o; try discriminate; intros _; cbn [step occ_runs]; apply (crash_all_does cfg _ _ LK) || apply D_refl. Qed.

Lemma gen_of_owns W f u : Inv W -> owns W f u -> gen_of W (u_id u) = f_gen f.
Proof.
  intros [I _] O. unfold gen_of. destruct (find_unit W (u_id u)) as [u'|] eqn:FU.
  - destruct (find_unit_some W _ _ FU) as [f' [O' E]]. destruct (io_uniq W I f' u' f u O' O E) as [_ ->]. apply (io_unit W I f u O).
  - exfalso. unfold find_unit in FU. assert (X : In u (all_units W)) by (apply In_all_units; exists f; exact O).
    pose proof (find_none _ _ FU u X) as C. cbn in C. rewrite N.eqb_refl in C. discriminate.
Qed.

(* last disjunct: a periodic unit whose task awaits the reaper *)
Lemma occ_runs_spec cfg W o r : d21_handler_stays cfg = false -> Inv W -> In r (occ_runs cfg o W) ->
  (r_kind r <> RStartup /\ r_kind r <> RShutdown) /\ r_unit r < w_next W /\
  (In (r_gen r) (w_active W) \/ exists f u, owns W f u /\ f_gen f = r_gen r /\ In (u_id u) (l_reap (w_led W))).
Proof.
  intros D21 HI. pose proof HI as [I [S L]].
  (* a state, event or bus subscription other than a shared listener belongs to a started unit *)
  assert (ENT : forall t k (P : N * N -> bool), (forall p, t = TBus -> P p = true -> snd p <> 0) -> k <> RStartup /\ k <> RShutdown ->
            In r (map (fun p => {| r_gen := gen_of W (snd p); r_kind := k; r_unit := snd p |}) (filter P (tab t (w_led W)))) ->
            (r_kind r <> RStartup /\ r_kind r <> RShutdown) /\ r_unit r < w_next W /\
            (In (r_gen r) (w_active W) \/ exists f u, owns W f u /\ f_gen f = r_gen r /\ In (u_id u) (l_reap (w_led W)))).
  { intros t k P NZ K H. apply in_map_iff in H. destruct H as [p [<- H]]. apply filter_In in H. destruct H as [Hp C].
    destruct (led_held W t p L Hp) as [[Et Z]|[R _]]; [destruct (NZ p Et C Z)|].
    destruct (so_run W S _ R) as [f [u [O [E [A _]]]]]. cbn [r_gen r_kind r_unit]. rewrite <- E, (gen_of_owns W f u HI O).
    split; [exact K|split; [apply (io_unit W I f u O)|left; exact A]]. }
  destruct o; cbn [occ_runs]; try contradiction.
  - apply (ENT TState); [discriminate|split; discriminate].
  - intros H. apply in_app_or in H. destruct H as [H|H]; revert H.
    + destruct (memp (ev, 0) (l_bus (w_led W))); [|intros []]. apply (ENT TEvent); [discriminate|split; discriminate].
    + apply (ENT TBus); [|split; discriminate]. intros p _ C Z. rewrite Z in C. cbn in C. rewrite andb_false_r in C. discriminate.
  - intros H. apply in_flat_map in H. destruct H as [t [Ht H]]. destruct (find_unit W t) as [u|] eqn:FU; [|destruct H].
    destruct (u_periodic u && negb (memn t (w_pending W)) && negb (memn t (w_zombie W)) && negb (u_crash u)) eqn:C; [|destruct H].
    destruct H as [<-|[]]. cbn [r_gen r_kind r_unit]. destruct (find_unit_some W t u FU) as [f [O <-]].
    destruct (io_unit W I f u O) as [EG [_ LT]]. rewrite EG. split; [split; discriminate|split; [exact LT|]].
    destruct (ok_tasks W L _ Ht) as [H|[H|H]].
    + right. exists f, u. auto.
    + apply memn_In in H. rewrite H, !andb_false_r in C. discriminate.
    + left. apply (running_unit W f u HI O H).
  - unfold occ_call, handler. rewrite D21.
    destruct (rev (filter (has_name W n) (l_svc (w_led W)))) as [|g r0] eqn:RV; [intros []|]. intros [<-|[]]. cbn [r_gen r_kind r_unit].
    assert (Hg : In g (l_svc (w_led W))).
    { assert (X : In g (rev (filter (has_name W n) (l_svc (w_led W))))) by (rewrite RV; left; reflexivity).
      apply in_rev, filter_In in X. apply X. }
    destruct (ok_svc W L g Hg) as [A [f [Hf [<- _]]]]. split; [split; discriminate|split; [apply (io_gen W I f Hf)|left; exact A]].
Qed.

Theorem run_ops_ind cfg (P : world -> Prop) : leak_free cfg ->
  (forall W W', Inv W -> does W W' -> P W -> P W') ->
  (forall W o, Inv W -> P W -> P (add_log W (occ_runs cfg o W))) ->
  (forall W c n s, Inv W -> P W -> P (define_mid c n s W)) ->
  forall ops W, Inv W -> P W -> Inv (run_ops cfg ops W) /\ P (run_ops cfg ops W).
Proof.
  intros LK HD HO HM ops W HI HP. apply (fold_left_inv (fun V => Inv V /\ P V) (step cfg)); [clear W HI HP|exact (conj HI HP)].
  intros W o _ [HI HP].
  assert (X : forall V, Inv V -> P V -> does V (step cfg W o) -> Inv (step cfg W o) /\ P (step cfg W o)).
  { intros V HV PV D. split; [exact (proj1 (does_inv _ _ D HV))|exact (HD _ _ HV D PV)]. }
  destruct (kind_of o) eqn:K.
  - destruct o; try discriminate. cbn [step].
    destruct (define_does cfg c newsys s W LK HI) as [D|D]; [exact (X W HI HP D)|exact (X _ (define_mid_inv c newsys s W HI) (HM W c newsys s HI HP) D)].
  - exact (X _ (Inv_log W _ HI) (HO W o HI HP) (occ_does cfg W o LK K)).
  - exact (X W HI HP (step_does cfg W o LK HI K)).
Qed.

Lemma run_ops_inv cfg ops W : leak_free cfg -> Inv W -> Inv (run_ops cfg ops W).
Proof. intros LK HI. apply (run_ops_ind cfg (fun _ => True) LK); auto. Qed.

Lemma idle_ledger_empty W : Inv W -> w_active W = [] -> l_reap (w_led W) = [] -> w_led W = ledger0.
Proof.
  intros [I [S L]] A R.
  assert (NR : forall id, ~ In id (w_running W)).
  { intros id H. destruct (so_run W S id H) as [f [u [O [E [C _]]]]]. rewrite A in C. exact C. }
  assert (NP : forall id, ~ In id (w_pending W)).
  { intros id H. destruct (so_pend W S id H) as [f [u [O [E [NF [C _]]]]]]. rewrite A in C. exact C. }
  assert (EE : l_event (w_led W) = []).
  { apply incl_l_nil. intros [e q] H. destruct (NR q (proj1 (ok_event W L e q H))). }
  apply ledger_eq; cbn [ledger0 l_state l_event l_bus l_tasks l_reap l_svc]; try assumption; apply incl_l_nil.
  - intros [e q] H. destruct (NR q (proj1 (ok_state W L e q H))).
  - intros [ev o] H. destruct (ok_bus W L ev o H) as [[_ X]|[X _]]; [|destruct (NR o X)]. rewrite EE in X. discriminate.
  - intros t H. destruct (ok_tasks W L t H) as [X|[X|X]]; [rewrite R in X; exact X|destruct (NP t X)|destruct (NR t X)].
  - intros g H. destruct (ok_svc W L g H) as [X _]. rewrite A in X. exact X.
Qed.

Theorem unload_empty cfg W : leak_free cfg -> Inv W -> w_led (unload cfg W) = ledger0.
Proof.
  intros LK HI. destruct (unload_does cfg W LK HI) as [D1 A1].
  apply idle_ledger_empty; [exact (proj1 (does_inv _ _ D1 HI))|exact A1|apply settle_reap_empty].
Qed.
