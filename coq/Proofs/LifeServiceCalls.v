(* C12, last sentence: a service call made from a script delivers exactly the given keyword parameters minus the recognised
   control keywords, for every keyword set, at each of the three call sites.  At the end: the generated tables, and one
   computed call. *)
From PV Require Import Common.Util Gen.ServiceConsts Life.Services Life.ServiceCalls.

Local Open Scope N_scope.

Definition rec_tbl (tbl : list (N * list N * bool)) (x : kwarg) : bool :=
  existsb (fun '(k, tys, _) => N.eqb k (kw_key x) && memN (kw_ty x) tys) tbl.

Lemma recognised_tbl s x : recognised s x = rec_tbl (table s) x.
Proof. reflexivity. Qed.

Lemma kw_find_some k l x : kw_find k l = Some x -> In x l /\ kw_key x = k.
Proof. apply (find_key_Some _ N.eqb_eq). Qed.

Lemma kw_find_none k l y : kw_find k l = None -> In y l -> kw_key y <> k.
Proof. unfold kw_find. intros H Hy E. pose proof (find_none _ _ H y Hy) as F. cbn in F. rewrite E, N.eqb_refl in F. discriminate. Qed.

Lemma nodup_kw_drop k l : NoDup (map kw_key l) -> NoDup (map kw_key (kw_drop k l)).
Proof. apply NoDup_map_filter. Qed.

(* the table row (k, tys, _) pops its keyword from kws *)
Definition row_pops (k : N) (tys : list N) (kws : list kwarg) : bool :=
  match kw_find k kws with Some x => memN (kw_ty x) tys | None => false end.

Lemma row_pops_rec k tys kws y : NoDup (map kw_key kws) -> In y kws ->
  N.eqb k (kw_key y) && memN (kw_ty y) tys = row_pops k tys kws && N.eqb (kw_key y) k.
Proof.
  intros Hnd Hy. unfold row_pops. rewrite (N.eqb_sym k). destruct (N.eqb_spec (kw_key y) k) as [E|]; [|rewrite andb_false_r; reflexivity].
  destruct (kw_find k kws) as [x|] eqn:Ef.
  - apply kw_find_some in Ef. destruct Ef as (Hx & Ekx).
    rewrite (NoDup_map_inj kw_key kws y x Hnd Hy Hx) by congruence. rewrite andb_true_r. reflexivity.
  - destruct (kw_find_none k kws y Ef Hy E).
Qed.

Lemma split_loop_row k tys d tbl tc kws h : exists h',
  split_loop ((k, tys, d) :: tbl) tc kws h = split_loop tbl tc (if row_pops k tys kws then kw_drop k kws else kws) (h ++ h') /\
  (row_pops k tys kws = true -> exists x, kw_find k kws = Some x /\ h' = [HGiven x]).
Proof.
  cbn [split_loop]. unfold row_pops. destruct (kw_find k kws) as [x|]; [destruct (memN (kw_ty x) tys)|].
  - exists [HGiven x]. eauto.
  - exists (if d && tc then [HDefault k] else []). split; [|discriminate]. destruct (d && tc); rewrite ?app_nil_r; reflexivity.
  - exists (if d && tc then [HDefault k] else []). split; [|discriminate]. destruct (d && tc); rewrite ?app_nil_r; reflexivity.
Qed.

(* the keywords are distinct because Python's **kwargs is a dict *)
Lemma split_loop_spec tbl tc : forall kws h, NoDup (map kw_key kws) -> exists hs,
  split_loop tbl tc kws h = (filter (fun x => negb (rec_tbl tbl x)) kws, h ++ hs) /\
  forall x, In x kws -> rec_tbl tbl x = true -> In (HGiven x) hs.
Proof.
  induction tbl as [|[[k tys] d] tbl IH]; intros kws h Hnd.
  - exists []. rewrite app_nil_r, filter_all by reflexivity. split; [reflexivity|discriminate].
  - destruct (split_loop_row k tys d tbl tc kws h) as (h' & -> & Hpop).
    assert (Ekws : (if row_pops k tys kws then kw_drop k kws else kws)
                   = filter (fun y => negb (row_pops k tys kws && N.eqb (kw_key y) k)) kws)
      by (destruct (row_pops k tys kws); [reflexivity|symmetry; apply filter_all; reflexivity]).
    destruct (IH (if row_pops k tys kws then kw_drop k kws else kws) (h ++ h')) as (hs & -> & Hg); [destruct (row_pops k tys kws); [apply nodup_kw_drop|]; assumption|].
    assert (Hrow : forall y, In y kws -> rec_tbl ((k, tys, d) :: tbl) y = row_pops k tys kws && N.eqb (kw_key y) k || rec_tbl tbl y).
    { intros y Hy. unfold rec_tbl at 1. cbn [existsb]. rewrite (row_pops_rec k tys kws y Hnd Hy). reflexivity. }
    rewrite Ekws in Hg |- *. exists (h' ++ hs). rewrite app_assoc, filter_filter. split.
    + f_equal. apply filter_ext_in. intros y Hy. rewrite (Hrow y Hy), negb_orb. reflexivity.
    + intros x Hx Hr. rewrite (Hrow x Hx) in Hr. apply in_or_app.
      destruct (row_pops k tys kws && N.eqb (kw_key x) k) eqn:E.
      * (* the row's keyword: the one found is x *)
        left. apply andb_prop in E. destruct E as (Ep & Ek). apply N.eqb_eq in Ek.
        destruct (Hpop Ep) as (y & Ef & ->). apply kw_find_some in Ef. destruct Ef as (Hy & Eky).
        rewrite (NoDup_map_inj kw_key kws y x Hnd Hy Hx) by congruence. left. reflexivity.
      * right. apply Hg; [apply filter_In; rewrite E; auto|exact Hr].
Qed.

Lemma harg_find_filtered k h : harg_find k (filter (fun x => negb (N.eqb (harg_key x) k)) h) = None.
Proof.
  unfold harg_find. induction h as [|a h IH]; cbn; [reflexivity|].
  destruct (N.eqb (harg_key a) k) eqn:E; cbn; [assumption|]. rewrite E. assumption.
Qed.

(* HA delivers the data it is given or refuses the call; [m]: it raises no TypeError *)
Lemma ha_call_off target data h (m : bool) :
  match ha_call all_off target data h with
  | ODelivered d _ => d = data | OTypeError => m = true | OValidation => True | OOther => False
  end.
Proof.
  unfold ha_call. cbn [all_off d_limit_kw]. rewrite harg_find_filtered.
  destruct (harg_true _); [destruct (negb _); [exact I|]|]; destruct target; cbn; auto.
Qed.

(* [expected_data]: the given keywords minus the recognised control keywords (plus the entity id and the single positional
   parameter for entity-method calls), sorted by keyword *)
Theorem outgoing_exact s task_ctx target honly nargs nparams kws :
  NoDup (map kw_key kws) ->
  match outgoing all_off s task_ctx target honly nargs nparams kws with
  | ODelivered d _ => d = expected_data s nargs nparams kws
  | OTypeError => args_misuse s nargs nparams = true
  | OValidation => True
  | OOther => False
  end.
Proof.
  intros Hnd. unfold outgoing, split.
  destruct (split_loop_spec (table s) task_ctx kws [] Hnd) as (h & -> & _).
  unfold expected_data, args_misuse. change (rec_tbl (table s)) with (recognised s).
  (* every branch ends in [ha_call] or is the TypeError for positional arguments *)
  destruct s.
  - apply ha_call_off.
  - destruct (N.eqb nargs 0); cbn [negb]; [apply ha_call_off|reflexivity].
  - destruct (N.eqb nargs 1 && N.eqb nparams 1) eqn:E1; [apply ha_call_off|].
    destruct (N.eqb nargs 0); cbn [negb andb]; [apply ha_call_off|reflexivity].
Qed.

Theorem outgoing_controls s task_ctx kws x :
  NoDup (map kw_key kws) -> In x kws -> recognised s x = true -> In (HGiven x) (snd (split s task_ctx kws)).
Proof. intros Hnd Hx Hr. unfold split. destruct (split_loop_spec (table s) task_ctx kws [] Hnd) as (h & -> & Hg). apply Hg; assumption. Qed.

(* the generated tables: recognised keywords per site *)
Example tables_now :
  hass_args_call = [(1, [1], true); (2, [2], false); (3, [2], false)] /\
  hass_args_name = [(1, [1], true); (2, [2], false); (3, [2], false)] /\
  firstn 3 hass_args_entity = [(1, [1], true); (2, [2], false); (3, [2], false)].
Proof. repeat split; reflexivity. Qed.

Example outgoing_instance :
  outgoing all_off SiteName false SrOpt false 0 1 [mk_kw 40 4 7; mk_kw 2 2 1; mk_kw 3 4 1]
  = ODelivered [mk_kw 3 4 1; mk_kw 40 4 7] false.
Proof. reflexivity. Qed.
