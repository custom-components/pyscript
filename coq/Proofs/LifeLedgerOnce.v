(* C09: startup and shutdown runs happen at most once per trigger; exactly once for a started trigger with the startup flag and
   for a stopped legacy trigger with the shutdown flag.  Organised around the invariant [Once] (per unit: [once_at]), kept by
   whatever an operation does ([does_once]), by an occurrence and by a definition; [ex_once] evaluates the counts on a run. *)
From Coq Require Import List NArith Bool Lia.
From PV Require Import Common.Util Life.Ledger Proofs.LifeLedger Proofs.LifeLedgerSys Proofs.LifeLedgerDoes Proofs.LifeLedgerRuns.
Import ListNotations.
Local Open Scope N_scope.

Definition is_run (k : rkind) (id : N) (r : run) : bool :=
  N.eqb (r_unit r) id && N.eqb (rkind_code (r_kind r)) (rkind_code k).

Definition count_run (k : rkind) (id : N) (log : list run) : nat := length (filter (is_run k id) log).

Lemma count_app k id a b : count_run k id (a ++ b) = (count_run k id a + count_run k id b)%nat.
Proof. unfold count_run. rewrite filter_app, app_length. reflexivity. Qed.

Lemma count_nil k id : count_run k id [] = 0%nat.
Proof. reflexivity. Qed.

Lemma count_zero k id l : (forall r, In r l -> is_run k id r = false) -> count_run k id l = 0%nat.
Proof. intros H. unfold count_run. rewrite (filter_none _ _ H). reflexivity. Qed.

Lemma count_other k id l : (forall r, In r l -> r_unit r <> id) -> count_run k id l = 0%nat.
Proof. intros H. apply count_zero. intros r Hr. unfold is_run. rewrite (proj2 (N.eqb_neq _ _) (H r Hr)). reflexivity. Qed.

Lemma count_kind k id l : (forall r, In r l -> r_kind r <> k) -> count_run k id l = 0%nat.
Proof.
  intros H. apply count_zero. intros r Hr. unfold is_run. apply andb_false_iff. right. apply N.eqb_neq. intros E.
  apply (H r Hr). destruct (r_kind r), k; try reflexivity; discriminate.
Qed.

Lemma count_startup_own u : count_run RStartup (u_id u) (startup_run u) = if u_startup u && negb (u_crash u) then 1%nat else 0%nat.
Proof. unfold startup_run, count_run, is_run. destruct (u_startup u && negb (u_crash u)); cbn; rewrite ?N.eqb_refl; reflexivity. Qed.

Lemma count_shutdown_own u : count_run RShutdown (u_id u) (shutdown_run u) = if u_shutdown u then 1%nat else 0%nat.
Proof. unfold shutdown_run, count_run, is_run. destruct (u_shutdown u); cbn; rewrite ?N.eqb_refl; reflexivity. Qed.

Lemma startup_run_kind u r : In r (startup_run u) -> r_kind r <> RShutdown.
Proof. intros H. rewrite (startup_run_spec u r H). discriminate. Qed.

Lemma shutdown_run_kind u r : In r (shutdown_run u) -> r_kind r <> RStartup.
Proof. intros H. rewrite (shutdown_run_spec u r H). discriminate. Qed.

(* [oa_up_none] makes "at most one startup run" inductive: a unit that can still be started (its task has not run its prologue,
   or it is idle under an active function) has no startup run.  [A], the unit's function is active, is a parameter: while a
   function is being stopped unit by unit, the units already stopped are as they will be when it has left the active set. *)
Record once_at (A : Prop) (W : world) (f : func) (u : unit_) : Prop := {
  oa_up_le : (count_run RStartup (u_id u) (w_log W) <= 1)%nat;
  oa_up_none : In (u_id u) (w_pending W) \/ A /\ ~ In (u_id u) (w_running W) -> count_run RStartup (u_id u) (w_log W) = 0%nat;
  oa_up_one : In (u_id u) (w_running W) -> u_startup u = true -> u_crash u = false -> count_run RStartup (u_id u) (w_log W) = 1%nat;
  oa_down_none : A -> count_run RShutdown (u_id u) (w_log W) = 0%nat;
  oa_down_le : (count_run RShutdown (u_id u) (w_log W) <= 1)%nat;
  oa_down_one : f_new f = false -> ~ A -> u_shutdown u = true -> count_run RShutdown (u_id u) (w_log W) = 1%nat
}.
Definition once_u (W : world) (f : func) (u : unit_) : Prop := once_at (In (f_gen f) (w_active W)) W f u.

(* [on_log] makes the counts of a newly defined unit 0 (its id is fresh); [on_nodup] lets the shutdown runs of a
   function's units be told apart by unit id *)
Record Once (W : world) : Prop := {
  on_log : forall r, In r (w_log W) -> r_unit r < w_next W;
  on_unit : forall f u, owns W f u -> once_u W f u;
  on_nodup : forall f, In f (w_funcs W) -> NoDup (map u_id (f_units f))
}.

Lemma Once0 : Once world0.
Proof. constructor; cbn; try (intros; contradiction). intros f u [[] _]. Qed.

Lemma once_at_transfer W W' P P' f u : once_at P W f u ->
  count_run RStartup (u_id u) (w_log W') = count_run RStartup (u_id u) (w_log W) ->
  count_run RShutdown (u_id u) (w_log W') = count_run RShutdown (u_id u) (w_log W) ->
  (In (u_id u) (w_pending W') -> In (u_id u) (w_pending W)) ->
  (In (u_id u) (w_running W') <-> In (u_id u) (w_running W)) ->
  (P' <-> P) -> once_at P' W' f u.
Proof.
  intros [A0 A1 B C D E] ES ED HP HR HA. constructor; rewrite ?ES, ?ED.
  - exact A0.
  - intros [X|[X Y]]; apply A1; [left; exact (HP X)|right; split; [apply HA, X|intros K; apply Y, HR, K]].
  - intros X Y Y2. apply B; [apply HR; exact X|exact Y|exact Y2].
  - intros X. apply C. apply HA. exact X.
  - exact D.
  - intros X Y Z. apply E; [exact X| |exact Z]. intros K. apply Y. apply HA. exact K.
Qed.

Lemma Once_status W W' : Once W -> w_log W' = w_log W -> w_funcs W' = w_funcs W -> w_next W <= w_next W' ->
  w_active W' = w_active W -> w_pending W' = w_pending W -> w_running W' = w_running W -> Once W'.
Proof.
  intros [OL OU ON] E1 E2 E3 E4 E6 E7. constructor.
  - rewrite E1. intros r Hr. pose proof (OL r Hr). lia.
  - intros f u O. apply (owns_same W W' f u E2) in O.
    apply (once_at_transfer W W' _ _ f u (OU f u O)); rewrite ?E1, ?E4, ?E6, ?E7; try reflexivity; auto.
  - rewrite E2. exact ON.
Qed.

(* the unit had no startup run, being idle under an active function *)
Lemma started_once nw W W' f u : Inv W -> Once W -> owns W f u -> In (f_gen f) (w_active W) -> ~ In (u_id u) (w_running W) ->
  started nw u W W' -> Once W'.
Proof.
  intros [I _] [OL OU ON] O A NR [[TF TN EA _ _ _] _ EL HR HP].
  assert (CS : count_run RStartup (u_id u) (w_log W) = 0%nat).
  { exact (oa_up_none _ _ _ _ (OU f u O) (or_intror (conj A NR))). }
  assert (SD : forall id, count_run RShutdown id (startup_run u) = 0%nat) by (intros id; apply count_kind, startup_run_kind).
  constructor.
  - rewrite EL, TN. intros r Hr. apply in_app_or in Hr. destruct Hr as [Hr|Hr]; [exact (OL r Hr)|].
    rewrite (startup_run_spec u r Hr). apply (io_unit W I f u O).
  - intros f' u' O'. apply (owns_same W W' f' u' TF) in O'. pose proof (OU f' u' O') as X.
    destruct (N.eq_dec (u_id u') (u_id u)) as [EU|NU].
    + destruct (io_uniq W I f' u' f u O' O EU) as [-> ->]. destruct X as [_ _ _ C D E].
      constructor; rewrite ?EL, ?count_app, ?CS, ?SD, ?count_startup_own, ?EA, ?Nat.add_0_r; cbn [Nat.add]; try assumption.
      * (* at most one startup run *) destruct (u_startup u && negb (u_crash u)); lia.
      * (* it can no longer be started *) intros [K|[_ K]]; [apply HP in K; destruct (proj2 K eq_refl)|destruct K; apply HR; auto].
      * (* started, with the flag: exactly one *) intros _ Y Y2. rewrite Y, Y2. reflexivity.
    + (* another unit: the run that is logged is not one of its *)
      assert (Z : count_run RStartup (u_id u') (startup_run u) = 0%nat).
      { apply count_other. intros r Hr. rewrite (startup_run_spec u r Hr). cbn. auto. }
      apply (once_at_transfer W W' _ _ f' u' X); rewrite ?EL, ?count_app, ?Z, ?SD, ?EA; [lia|lia| | |reflexivity].
      * (* pending *) intros K. apply HP in K. apply K.
      * (* running *) rewrite HR. split; [intros [K|K]; [exact K|contradiction]|auto].
  - rewrite TF. exact ON.
Qed.

Lemma leg_unit_start_once W f u : Inv W -> Once W -> owns W f u -> In (f_gen f) (w_active W) -> ~ In (u_id u) (w_running W) ->
  Once (leg_unit_start W u).
Proof.
  intros [I _] [OL OU ON] O A NR. unfold leg_unit_start. constructor; wsimpl; try assumption.
  intros f' u' O'. pose proof (OU f' u' O') as X. destruct (N.eq_dec (u_id u') (u_id u)) as [EU|NU].
  - destruct (io_uniq W I f' u' f u O' O EU) as [-> ->]. destruct X as [X0 X1 B C D E]. constructor; wsimpl; try assumption.
    intros _. apply X1. right; auto.
  - apply (once_at_transfer W _ _ _ f' u' X); wsimpl; try reflexivity.
    intros K. apply In_addn in K. destruct K as [K|K]; [exact K|contradiction].
Qed.

Lemma stopped_once (P P' : Prop) W W' f u : once_at P W f u -> P -> ~ P' -> stopped (f_new f) u W W' -> once_at P' W' f u.
Proof.
  intros [A0 A1 _ C _ _] HP NP' ST. destruct (sp_log _ _ _ _ ST) as [r0 [EL R0]].
  assert (NR : ~ In (u_id u) (w_running W')) by (intros K; apply (sp_running _ _ _ _ ST) in K; apply (proj2 K); reflexivity).
  assert (CS : count_run RStartup (u_id u) r0 = 0%nat).
  { destruct R0 as [->|[_ ->]]; [apply count_kind, shutdown_run_kind|reflexivity]. }
  assert (CD : (count_run RShutdown (u_id u) r0 <= 1)%nat).
  { destruct R0 as [->|[_ ->]]; [rewrite count_shutdown_own; destruct (u_shutdown u); lia|cbn; lia]. }
  constructor; rewrite EL, !count_app, ?(C HP), ?CS, ?Nat.add_0_r.
  - (* at most one startup run *) exact A0.
  - (* none if it can still be started: it was pending before, too *)
    intros [K|[K _]]; [apply A1; left; apply (sp_pending _ _ _ _ ST) in K; apply K|destruct (NP' K)].
  - (* started: it is not *) intros K. destruct (NR K).
  - (* no shutdown run while [P'] *) intros K. destruct (NP' K).
  - (* at most one shutdown run: there was none *) exact CD.
  - (* a stopped legacy unit with the flag: exactly one *)
    intros NF _ Y. destruct R0 as [->|[NF' _]]; [|congruence]. rewrite count_shutdown_own, Y. reflexivity.
Qed.

(* units already stopped ([pre]) count as units of an inactive function *)
Lemma stop_once stop W W' f : (forall V u, Inv V -> owns V f u -> stopped (f_new f) u V (stop V u)) -> Inv W -> Once W ->
  In f (w_funcs W) -> In (f_gen f) (w_active W) -> retired f (fold_left stop (f_units f) W) W' -> Once W'.
Proof.
  intros HS HI [OL OU ON] Hf HA [SR' EL' EA' _ _]. pose proof HI as [I _].
  pose proof (same_res_funcs _ _ SR') as EF'. destruct (same_res_units _ _ SR') as [EP' _ ER' _ _ _ _ _].
  set (P := fun (pre : list unit_) (f' : func) (u' : unit_) => In (f_gen f') (w_active W) /\ ~ (f' = f /\ In u' pre)).
  destruct (stop_units_ind f stop W (fun pre V => (forall r, In r (w_log V) -> r_unit r < w_next W) /\
              forall f' u', owns W f' u' -> once_at (P pre f' u') V f' u') HS HI Hf) as [_ [[TF TN EA _ _ _] [_ [LV MV]]]].
  { split; [exact OL|]. intros f' u' O'.
    apply (once_at_transfer W W _ _ f' u' (OU f' u' O')); try reflexivity; auto. unfold P. cbn [In]. tauto. }
  { intros pre u post V V' E Hu ST [LV MV]. pose proof ST as [_ _ [r0 [EL R0]] HR HP _ _].
    assert (RU : forall r, In r r0 -> r_unit r = u_id u).
    { destruct R0 as [->|[_ ->]]; [|intros r []]. intros r Hr. rewrite (shutdown_run_spec u r Hr). reflexivity. }
    assert (NPre : ~ In u pre).
    { intros K. pose proof (ON f Hf) as ND. rewrite E, map_app in ND. apply NoDup_remove_2 in ND. apply ND, in_or_app. left. apply in_map, K. }
    split.
    - rewrite EL. intros r Hr. apply in_app_or in Hr. destruct Hr as [Hr|Hr]; [exact (LV r Hr)|].
      rewrite (RU r Hr). apply (io_unit W I f u (conj Hf Hu)).
    - intros f' u' O'. pose proof (MV f' u' O') as X. destruct (N.eq_dec (u_id u') (u_id u)) as [EU|NU].
      + (* u itself *)
        destruct (io_uniq W I f' u' f u O' (conj Hf Hu) EU) as [-> ->].
        apply (stopped_once _ _ V _ f u X); [|intros [_ K]; apply K; split; [reflexivity|apply in_elt]|exact ST].
        split; [exact HA|]. intros [_ K]. exact (NPre K).
      + (* another unit *)
        assert (Z : forall k, count_run k (u_id u') r0 = 0%nat).
        { intros k. apply count_other. intros r Hr. rewrite (RU r Hr). auto. }
        apply (once_at_transfer V _ _ _ f' u' X); rewrite ?EL, ?count_app, ?Z; try lia.
        * (* pending *) intros K. apply HP in K. apply K.
        * (* running *) rewrite HR. tauto.
        * (* [P (pre ++ [u])] and [P pre] agree on u', which is not u *)
          assert (X' : In u' (pre ++ [u]) <-> In u' pre).
          { rewrite in_app_iff. cbn [In]. split; [intros [K|[K|[]]]; [exact K|subst u'; destruct (NU eq_refl)]|auto]. }
          unfold P. rewrite X'. reflexivity. }
  constructor.
  - (* on_log *) rewrite EL'. intros r Hr. pose proof (LV r Hr). pose proof (same_res_next _ _ SR'). lia.
  - (* on_unit *) intros f' u' O'. unfold owns in O'. rewrite EF', TF in O'. unfold once_u.
    apply (once_at_transfer _ W' _ _ f' u' (MV f' u' O')); rewrite ?EL', ?EP', ?ER'; try reflexivity; auto.
    (* all units of f are stopped: [P (f_units f)] says "active and not f", which is "active" once f has left the active set *)
    unfold P. rewrite EA', EA. split; intros [K1 K2]; (split; [exact K1|]).
    + intros [-> _]. apply K2. reflexivity.
    + intros C. pose proof (io_guniq W I f' f (proj1 O') Hf C). subst f'. apply K2. split; [reflexivity|apply O'].
  - (* on_nodup *) intros f' Hf'. rewrite EF', TF in Hf'. apply ON. exact Hf'.
Qed.

Theorem does_once W W' : does W W' -> Inv W -> Once W -> Once W'.
Proof.
  intros D.
  induction D as [W|A B C D1 IH1 _ IH2|W W' SR EA ED _ EL|W W' f u O A ND NR ST|W W' f stop HS Hf HA R|W L' _|W f u O _ A _ NR];
    intros HI HO.
  - (* D_refl *) exact HO.
  - (* D_trans *) exact (IH2 (proj1 (does_inv A B D1 HI)) (IH1 HI HO)).
  - (* D_status *) destruct (same_res_units _ _ SR) as [EP _ ER _ _ _ _ _].
    apply (Once_status W); auto using same_res_funcs, same_res_next.
  - (* D_started: with [on_nodup] the unit is idle *)
    exact (started_once _ W _ f u HI HO O A (NR (on_nodup W HO f (proj1 O))) ST).
  - (* D_stop *) exact (stop_once stop W W' f HS HI HO Hf HA R).
  - (* D_less *) apply (Once_status W); auto; reflexivity.
  - (* D_leg_unit *) exact (leg_unit_start_once W f u HI HO O A NR).
Qed.

Lemma define_mid_once c n s W : Inv W -> Once W -> Once (define_mid c n s W).
Proof.
  intros [I [S _]] [OL OU ON]. destruct (define_mid_spec c n s W) as [EF EN EA _ LG [EP _ ER _ _ _ _ _] _].
  set (f := new_func c n s W) in *. set (gen := w_next W) in *.
  assert (APP : forall (l : list N) g, g < gen -> In g (l ++ [gen]) <-> In g l).
  { intros l g LT. rewrite in_app_iff. split; [intros [H|[H|[]]]; [exact H|lia]|auto]. }
  constructor; rewrite ?LG, ?EN, ?EF.
  - intros r Hr. pose proof (OL r Hr). cbn [define_obj w_next]. fold gen. lia.
  - intros f' u' [Hf' Hu']. rewrite EF in Hf'. apply in_app_or in Hf'. destruct Hf' as [Hf'|[<-|[]]].
    + (* an older function: its generation is not the one added to the lists *)
      destruct (io_gen W I f' Hf') as [_ LT]. fold gen in LT.
      apply (once_at_transfer W _ _ _ f' u' (OU f' u' (conj Hf' Hu')));
        rewrite ?LG, ?EA, ?EP, ?ER, ?(APP _ _ LT); reflexivity || tauto.
    + destruct (number_units_in _ _ _ _ _ Hu') as [_ [B _]]. fold gen in B.
      assert (Z : forall k, count_run k (u_id u') (w_log W) = 0%nat).
      { intros k. apply count_other. intros r Hr. pose proof (OL r Hr). fold gen in H. lia. }
      (* the new function: all counts are 0, which leaves two clauses *)
      constructor; rewrite ?LG, ?EA, ?EP, ?ER, ?Z; cbn [f new_func f_gen f_new]; fold gen; try lia.
      * (* it is not started *) intros K. exfalso. destruct (so_run W S _ K) as [f2 [u2 [O2 [E2 _]]]]. destruct (io_unit W I f2 u2 O2) as [_ [_ LT]].
        fold gen in LT. lia.
      * (* it is active *) intros _ K. exfalso. apply K, in_elt.
  - intros f' Hf'. apply in_app_or in Hf'. destruct Hf' as [Hf'|[<-|[]]]; [apply ON; exact Hf'|apply number_units_nodup].
Qed.

(* an occurrence logs neither a startup nor a shutdown run, and no status changes *)
Lemma occ_once cfg W o : d21_handler_stays cfg = false -> Inv W -> Once W -> Once (add_log W (occ_runs cfg o W)).
Proof.
  intros D21 HI [OL OU ON]. unfold add_log. constructor; wsimpl; [|intros f u O|exact ON].
  - intros r Hr. apply in_app_or in Hr. destruct Hr as [Hr|Hr]; [exact (OL r Hr)|apply (occ_runs_spec cfg W o r D21 HI Hr)].
  - assert (Z : forall k, k = RStartup \/ k = RShutdown ->
                count_run k (u_id u) (w_log W ++ occ_runs cfg o W) = count_run k (u_id u) (w_log W)).
    { intros k Hk. rewrite count_app, (count_kind k _ (occ_runs cfg o W)); [lia|]. intros r Hr.
      destruct (occ_runs_spec cfg W o r D21 HI Hr) as [[N1 N2] _]. destruct Hk as [->| ->]; assumption. }
    apply (once_at_transfer W (led_log W (w_led W, occ_runs cfg o W)) _ _ f u (OU f u O)
             (Z RStartup (or_introl eq_refl)) (Z RShutdown (or_intror eq_refl))); wsimpl; tauto.
Qed.

Theorem run_ops_once cfg ops W : leak_free cfg -> d21_handler_stays cfg = false -> Inv W -> Once W -> Once (run_ops cfg ops W).
Proof.
  intros LK D21 HI HO. apply (run_ops_ind cfg Once LK); try assumption.
  - intros V V' HV D HV'. exact (does_once V V' D HV HV').
  - intros V o. apply occ_once, D21.
  - intros V c n s. apply define_mid_once.
Qed.

Theorem startup_shutdown_once cfg W0 : leak_free cfg -> d21_handler_stays cfg = false -> Inv W0 -> Once W0 -> forall ops : list op,
  let W := run_ops cfg ops W0 in
  forall f u, In f (w_funcs W) -> In u (f_units f) ->
    (count_run RStartup (u_id u) (w_log W) <= 1)%nat /\ (count_run RShutdown (u_id u) (w_log W) <= 1)%nat /\
    (In (u_id u) (w_running W) -> u_startup u = true -> u_crash u = false -> count_run RStartup (u_id u) (w_log W) = 1%nat) /\
    (In (f_gen f) (w_active W) -> count_run RShutdown (u_id u) (w_log W) = 0%nat) /\
    (f_new f = false -> ~ In (f_gen f) (w_active W) -> u_shutdown u = true -> count_run RShutdown (u_id u) (w_log W) = 1%nat).
Proof.
  intros LK D21 HI0 HO0 ops W f u Hf Hu.
  destruct (on_unit W (run_ops_once cfg ops W0 LK D21 HI0 HO0) f u (conj Hf Hu)) as [A _ B C D E]. repeat split; assumption.
Qed.

(* the counts are not vacuous: a unit with both flags, started, stopped *)
Example ex_once :
  let W := run_ops cfg_off ex_ops0 world0 in
  map (fun k => count_run k 2 (w_log W)) [RStartup; RShutdown; RState] = [1%nat; 1%nat; 1%nat] /\
  map (fun k => count_run k 4 (w_log W)) [RStartup; RShutdown; RState] = [1%nat; 0%nat; 1%nat].
Proof. vm_compute. split; reflexivity. Qed.
