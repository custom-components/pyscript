(* C12: the conformant Model (all switches off) refines the reference semantics of Life/ServicesSpec.v: after an operation
   sequence both agree, for every service name, on whether it is registered and on which function generation answers a call.
   Every sequence in the legacy subsystem; in the default subsystem those with [ops_ok].  Abstraction: the bound function objects,
   with what they hold, are the live declarations of the Spec, in the same order ([Rel], [LRel]).  [refines] carries the relation
   through a sequence; the observation is read off it at the end ([rel_handler]).  Last: an instance of [ops_ok]. *)
From PV Require Import Common.Util Life.Services Life.ServicesSpec Proofs.LifeServices.
From Coq Require Import Lia.

Local Open Scope N_scope.

Lemma F2_in_l {A B} (P : A -> B -> Prop) l1 l2 a : Forall2 P l1 l2 -> In a l1 -> exists b, In b l2 /\ P a b.
Proof.
  induction 1 as [|x y l1 l2 Hxy H IH]; intros Hin; [contradiction|]. destruct Hin as [->|Hin]; [exists y; cbn; auto|].
  destruct (IH Hin) as (b & Hb & Pb). exists b. cbn. auto.
Qed.

Lemma F2_in_r {A B} (P : A -> B -> Prop) l1 l2 b : Forall2 P l1 l2 -> In b l2 -> exists a, In a l1 /\ P a b.
Proof.
  induction 1 as [|x y l1 l2 Hxy H IH]; intros Hin; [contradiction|]. destruct Hin as [->|Hin]; [exists x; cbn; auto|].
  destruct (IH Hin) as (a & Ha & Pa). exists a. cbn. auto.
Qed.

Lemma F2_filter {A B} (P : A -> B -> Prop) (p : A -> bool) (q : B -> bool) l1 l2 :
  Forall2 P l1 l2 -> (forall a b, P a b -> p a = q b) -> Forall2 P (filter p l1) (filter q l2).
Proof.
  intros H Hpq. induction H as [|x y l1 l2 Hxy H IH]; [constructor|]. cbn [filter].
  rewrite (Hpq x y Hxy). destruct (q y); [constructor|]; assumption.
Qed.

Lemma filter_map_comm {A} (p : A -> bool) (phi : A -> A) l : (forall x, p (phi x) = p x) -> filter p (map phi l) = map phi (filter p l).
Proof. intros H. induction l as [|x l IH]; [reflexivity|]. cbn [map filter]. rewrite H. destruct (p x); cbn [map]; rewrite IH; reflexivity. Qed.

(* the live function objects *)
Definition lv (s : st) : list frec := filter f_bound (s_funcs s).
(* function object r is matched by declaration d of the Spec *)
Definition mt (r : frec) (d : dref) : Prop :=
  r_ctx d = f_ctx r /\ r_name d = f_name r /\ r_gen d = f_gen r /\ forall k, memN k (r_eff d) = memN k (f_held r).
(* kept because [do_def] unbinds the object that [find_bound] finds under the name it binds *)
Definition UB (l : list frec) : Prop :=      (* a name of a context is bound to at most one function object *)
  forall r1 r2, In r1 l -> In r2 l -> f_ctx r1 = f_ctx r2 -> f_name r1 = f_name r2 -> r1 = r2.

Record Rel (s : st) (t : rst) : Prop := {
  rl_winv : WInv s;
  rl_nopend : NoPend (s_funcs s);
  rl_next : t_next t = s_next s;
  rl_files : t_files t = s_files s;
  rl_live : Forall2 mt (lv s) (t_live t);
  rl_ub : UB (lv s)
}.

(* between operations *)
Definition ORel (s : st) (t : rst) : Prop := Rel s t /\ AllCtx (map fst (s_files s)) (s_funcs s).

Lemma orel_linv s t : ORel s t -> LInv [] s.
Proof. intros ([HW HNP _ _ _ _] & HA). apply linv_nopend. auto. Qed.

Lemma lv_in s r : In r (lv s) <-> In r (s_funcs s) /\ f_bound r = true.
Proof. unfold lv. apply filter_In. Qed.

Lemma holder_live s r k : Flags s -> In r (s_funcs s) -> memN k (f_held r) = true -> In r (lv s).
Proof.
  intros HF Hr Hm. apply lv_in. split; [assumption|]. destruct (f_bound r) eqn:E; [reflexivity|].
  rewrite (flags_unbound r (HF r Hr) E) in Hm. discriminate.
Qed.

Lemma started_same c s r :
  f_ctx (started_rec c s r) = f_ctx r /\ f_name (started_rec c s r) = f_name r /\ f_gen (started_rec c s r) = f_gen r /\
  f_bound (started_rec c s r) = f_bound r.
Proof. unfold started_rec. destruct (_ && _); cbn; auto. Qed.

Lemma started_none c s l : (forall r, In r l -> f_pending r = false) -> map (started_rec c s) l = l.
Proof. intros HN. rewrite <- (map_id l) at 2. apply map_ext_in. intros r Hr. unfold started_rec. rewrite (HN r Hr). reflexivity. Qed.

Lemma started_ext c s s' r : (forall k, okf s' c k = okf s c k) -> started_rec c s' r = started_rec c s r.
Proof. intros Hok. unfold started_rec. rewrite (filter_ext _ _ Hok). reflexivity. Qed.

(* whether it has registered at once, or waited while c could get the same *)
Lemma def_rec_started legacy started stk c f decl d s s' : (forall k, okf s' c k = okf s c k) ->
  f_held (started_rec c s' (def_rec legacy started stk c f decl d s)) = filter (okf s c) (nodupN decl).
Proof.
  intros Hok. unfold started_rec, def_rec, new_rec. destruct (negb legacy && negb started); cbn; [|reflexivity].
  rewrite N.eqb_refl. cbn. apply filter_ext, Hok.
Qed.

Lemma lv_unbind legacy s r :
  lv (unbind all_off legacy s r) = filter (fun x => f_bound x && negb (N.eqb (f_gen x) (f_gen r))) (s_funcs s).
Proof.
  unfold lv. destruct (unbind_frame legacy s r) as ((-> & _) & _). apply filter_map_keep. intros x _.
  destruct (N.eqb (f_gen x) (f_gen r)); cbn [negb]; [|rewrite andb_true_r; auto].
  rewrite andb_false_r. split; [|discriminate]. unfold unbound. destruct (legacy || negb (f_pending r)); reflexivity.
Qed.

Definition same_name (c : cid) (f : fid) (r : frec) : bool := N.eqb (f_ctx r) c && N.eqb (f_name r) f.

Lemma find_bound_none s c f : find_bound s c f = None -> forall r, In r (lv s) -> same_name c f r = false.
Proof.
  unfold find_bound. intros H r Hr. apply lv_in in Hr. destruct Hr as (Hr & Hb).
  pose proof (find_none _ _ H r Hr) as Hn. cbn in Hn. rewrite Hb in Hn. unfold same_name. rewrite <- andb_assoc in Hn. exact Hn.
Qed.

Lemma kill_by_name s c f r0 : Core s -> UB (lv s) -> In r0 (s_funcs s) -> f_bound r0 = true -> f_ctx r0 = c -> f_name r0 = f ->
  filter (fun r => f_bound r && negb (N.eqb (f_gen r) (f_gen r0))) (s_funcs s) = filter (fun r => negb (same_name c f r)) (lv s).
Proof.
  intros HC Hub H0 Hb0 Ec0 Ef0. unfold lv. rewrite filter_filter. apply filter_ext_in. intros r Hr.
  destruct (f_bound r) eqn:Eb; [|reflexivity]. cbn [andb]. f_equal. unfold same_name.
  destruct (N.eqb_spec (f_gen r) (f_gen r0)) as [E|Hne].
  - rewrite (NoDup_map_inj f_gen _ r r0 (core_nodup s HC) Hr H0 E), Ec0, Ef0, !N.eqb_refl. reflexivity.
  - destruct (N.eqb_spec (f_ctx r) c) as [Ec|]; [|reflexivity]. destruct (N.eqb_spec (f_name r) f) as [Ef|]; [|reflexivity].
    exfalso. apply Hne. f_equal. apply Hub; try (apply lv_in; auto); congruence.
Qed.

Lemma do_def_lv legacy started rt stk c f decl d s : Core s -> UB (lv s) ->
  lv (do_def all_off legacy started rt stk c f decl d s)
  = filter (fun r => negb (same_name c f r)) (lv s) ++ [def_rec legacy started stk c f decl d s].
Proof.
  intros HC Hub. rewrite do_def_off.
  pose proof (defined_funcs legacy started stk c f decl d s HC) as Hf2.
  destruct (def_rec_fields legacy started stk c f decl d s) as (_ & _ & Eg & Eb).
  destruct (find_bound s c f) as [r0|] eqn:Efb.
  - apply find_bound_some in Efb. destruct Efb as (H0 & Hb0 & Ec0 & Ef0).
    rewrite lv_unbind, Hf2, filter_app, (kill_by_name s c f r0 HC Hub H0 Hb0 Ec0 Ef0). f_equal. cbn [filter].
    rewrite Eb, Eg. destruct (N.eqb_spec (s_next s) (f_gen r0)) as [E|]; [|reflexivity].
    pose proof (w_next _ HC r0 H0). lia.
  - unfold lv at 1. rewrite Hf2, filter_app. cbn [filter]. rewrite Eb. f_equal.
    symmetry. apply filter_all. intros r Hr. rewrite (find_bound_none s c f Efb r Hr). reflexivity.
Qed.

Lemma do_del_lv legacy c f s : Core s -> UB (lv s) ->
  lv (do_del all_off legacy c f s) = filter (fun r => negb (same_name c f r)) (lv s).
Proof.
  intros HC Hub. unfold do_del. destruct (find_bound s c f) as [r0|] eqn:Efb.
  - apply find_bound_some in Efb. rewrite lv_unbind. apply kill_by_name; tauto.
  - symmetry. apply filter_all. intros r Hr. rewrite (find_bound_none s c f Efb r Hr). reflexivity.
Qed.

Lemma UB_filter_app p l x : UB l -> (forall r, In r (filter p l) -> f_ctx r = f_ctx x -> f_name r = f_name x -> False) -> UB (filter p l ++ [x]).
Proof.
  intros Hub Hx r1 r2 H1 H2 Ec Ef. apply in_app_or in H1. apply in_app_or in H2.
  destruct H1 as [H1|[<-|[]]], H2 as [H2|[<-|[]]].
  - apply filter_In in H1, H2. apply Hub; tauto.
  - exfalso. eapply Hx; eauto.
  - exfalso. eapply Hx; eauto.
  - reflexivity.
Qed.

Lemma UB_filter p l : UB l -> UB (filter p l).
Proof. intros Hub r1 r2 H1 H2. apply filter_In in H1, H2. apply Hub; tauto. Qed.

(* while statements of the loaded context c run.  [ld]: c is being loaded in the new subsystem, so its managers wait for
   ctx.start(); otherwise nothing waits and this is [ORel] ([lrel_enter], [lrel_exit]).  [l_live]: a waiting manager's declaration
   is matched with what the manager WILL hold: the Spec has given it the names already, and nothing c does before the start
   changes what c may register ([linv_do_def], [linv_do_del]) *)
Record LRel (ld : bool) (c : cid) (s : st) (t : rst) : Prop := {
  l_inv : LInv (if ld then [c] else []) s;
  l_ctx : In c (map fst (s_files s));
  l_next : t_next t = s_next s;
  l_files : t_files t = s_files s;
  l_live : Forall2 mt (map (started_rec c s) (lv s)) (t_live t);
  l_ub : UB (lv s)
}.

Lemma lrel_enter ld c s t : ORel s t -> In c (map fst (s_files s)) -> LRel ld c s t.
Proof.
  intros ([HW HNP En Efi HL Hub] & HA) Hc. constructor; auto; [apply linv_nil, linv_nopend; auto|].
  rewrite started_none; [assumption|]. intros r Hr. apply lv_in in Hr. apply HNP. tauto.
Qed.

Lemma lrel_exit c s t : LRel false c s t -> ORel s t.
Proof.
  intros [HL Hc En Efi HLv Hub]. apply linv_nopend in HL. destruct HL as (HW & HNP & HA). split; [|assumption]. constructor; auto.
  rewrite started_none in HLv; [assumption|]. intros r Hr. apply lv_in in Hr. apply HNP. tauto.
Qed.

(* the Spec reads the owner of a name off its live declarations *)
Lemma owner_ok_okf ld c s t k : LRel ld c s t -> owner_ok (t_live t) c k = okf s c k.
Proof.
  intros [HLI _ _ _ HL _]. pose proof (linv_winv _ _ HLI) as HW. pose proof HW as (HC & HF). unfold owner_ok, ref_owner.
  assert (HP : forall r, In r (s_funcs s) -> f_pending r = true -> f_ctx r = c).
  { intros r Hr Ep. pose proof (linv_pendin _ _ r HLI Hr Ep) as H. destruct ld; [destruct H as [H|[]]; symmetry; exact H|destruct H]. }
  destruct (find (fun r => memN k (r_eff r)) (t_live t)) as [d|] eqn:Ef.
  - apply find_some in Ef. destruct Ef as (Hd & Hk). destruct (F2_in_r _ _ _ d HL Hd) as (r' & Hr & Ec & _ & _ & Hm).
    apply in_map_iff in Hr. destruct Hr as (r & <- & Hr). rewrite Hm in Hk. apply lv_in in Hr. destruct Hr as (Hr & _).
    cbn. rewrite Ec, (proj1 (started_same c s r)). unfold started_rec in Hk. destruct (f_pending r) eqn:Ep.
    + (* r waits, so is of c, and will hold only what c may register *)
      rewrite (HP r Hr Ep), N.eqb_refl in Hk |- *. change (memN k (filter (okf s c) (f_decl r)) = true) in Hk.
      rewrite memN_filter in Hk. apply andb_prop in Hk. symmetry. apply Hk.
    + (* r holds k, so its context owns it *) unfold okf. rewrite (w_ctx _ HC r k Hr Hk). reflexivity.
  - (* no declaration has k: then nobody owns it *) cbn. unfold okf. destruct (s_owner s k) as [o|] eqn:Eo; [|reflexivity]. exfalso.
    assert (Hc : s_cnt s k <> 0) by (intros E; apply (w_own _ HC) in E; congruence).
    rewrite (w_cnt _ HC) in Hc. destruct (proj1 (hcount_pos k (s_funcs s))) as (r & Hr & Hm); [lia|].
    (* a holder does not wait, so it is matched as it is *)
    assert (Ep : f_pending r = false).
    { destruct (f_pending r) eqn:Ep; [|reflexivity]. rewrite (proj1 (flags_pending r (HF r Hr) Ep)) in Hm. discriminate. }
    destruct (F2_in_l _ _ _ _ HL (in_map (started_rec c s) _ r (holder_live s r k HF Hr Hm))) as (d & Hd & _ & _ & _ & Hmd).
    pose proof (find_none _ _ Ef d Hd) as Hn. cbn in Hn. unfold started_rec in Hmd. rewrite Ep in Hmd. rewrite (Hmd k) in Hn. cbn [andb] in Hn. congruence.
Qed.

(* a name of c is rebound or deleted: the other live function objects stay matched *)
Lemma lrel_others ld c s t s' f : LRel ld c s t -> (forall k, okf s' c k = okf s c k) ->
  Forall2 mt (map (started_rec c s') (filter (fun r => negb (same_name c f r)) (lv s)))
             (filter (fun r => negb (N.eqb (r_ctx r) c && N.eqb (r_name r) f)) (t_live t)).
Proof.
  intros HR Hown. rewrite <- filter_map_comm, (map_ext _ _ (fun r => started_ext c s s' r Hown)).
  - apply F2_filter; [apply HR|]. intros r d (Ec & Ef & _). unfold same_name. rewrite Ec, Ef. reflexivity.
  - intros x. unfold same_name. destruct (started_same c s' x) as (-> & -> & _). reflexivity.
Qed.

Lemma lrel_def legacy started rt stk c f decl d s t :
  LRel (negb legacy && negb started) c s t ->
  LRel (negb legacy && negb started) c (do_def all_off legacy started rt stk c f decl d s) (ref_def c t f decl d).
Proof.
  remember (negb legacy && negb started) as ld eqn:Eld0. intros HR. pose proof HR as [HL HcL En Efi HLv Hub].
  pose proof (proj1 HL) as HC. set (s' := do_def all_off legacy started rt stk c f decl d s).
  destruct (linv_do_def legacy started rt stk c f decl d s _ HL HcL) as (HL' & Hown); [rewrite <- Eld0; destruct ld; cbn; auto|]. fold s' in HL', Hown.
  destruct (do_def_frame legacy started rt stk c f decl d s) as (En' & Efi').
  pose proof (do_def_lv legacy started rt stk c f decl d s HC Hub) as Elv. fold s' in En', Efi', Elv.
  destruct (def_rec_fields legacy started stk c f decl d s) as (Ec' & Ef' & Eg' & _).
  constructor.
  - (* l_inv *) exact HL'.
  - (* l_ctx *) rewrite Efi'. exact HcL.
  - (* l_next *) cbn. rewrite En', En. reflexivity.
  - (* l_files *) rewrite Efi'. exact Efi.
  - (* l_live *)
    rewrite Elv, map_app. cbn [ref_def t_live]. apply Forall2_app; [apply (lrel_others ld); assumption|].
    constructor; [|constructor]. destruct (started_same c s' (def_rec legacy started stk c f decl d s)) as (Ec & Ef & Eg & _).
    unfold mt. cbn [r_ctx r_name r_gen r_eff]. rewrite Ec, Ef, Eg, Ec', Ef', Eg', (def_rec_started _ _ _ _ _ _ _ s s' Hown).
    repeat split; auto. intros k. f_equal. apply filter_ext. intros x. apply (owner_ok_okf ld), HR.
  - (* l_ub *) rewrite Elv. apply UB_filter_app; [assumption|]. intros r Hr Ec Ef. apply filter_In in Hr. destruct Hr as (_ & Hn).
    unfold same_name in Hn. rewrite Ec, Ef, Ec', Ef', !N.eqb_refl in Hn. discriminate.
Qed.

Lemma lrel_del legacy c f s t ld : LRel ld c s t -> (legacy = true -> ld = false) ->
  LRel ld c (do_del all_off legacy c f s) (ref_stmt c t (SDel f)).
Proof.
  intros HR Hleg. pose proof HR as [HL HcL En Efi HLv Hub].
  destruct (do_del_frame legacy c f s) as (En' & Efi'). pose proof (do_del_lv legacy c f s (proj1 HL) Hub) as Elv.
  destruct (linv_do_del legacy c f s _ HL) as (HL' & Hown); [intros E; rewrite (Hleg E); reflexivity|].
  constructor.
  - (* l_inv *) exact HL'.
  - (* l_ctx *) rewrite Efi'. exact HcL.
  - (* l_next *) cbn. rewrite En'. assumption.
  - (* l_files *) rewrite Efi'. exact Efi.
  - (* l_live *) rewrite Elv. cbn [ref_stmt t_live]. apply (lrel_others ld); assumption.
  - (* l_ub *) rewrite Elv. apply UB_filter. assumption.
Qed.

Lemma lrel_body legacy started c b : forall s t, LRel (negb legacy && negb started) c s t ->
  LRel (negb legacy && negb started) c (run_body all_off legacy started c b s) (ref_body c b t).
Proof.
  unfold run_body, ref_body. induction b as [|x b IH]; intros s t HR; cbn [fold_left]; [assumption|].
  apply IH. destruct x as [f decl d|f decl d|f decl d|f]; cbn [run_stmt ref_stmt]; try (apply lrel_def; assumption).
  apply lrel_del; [assumption|]. intros ->. reflexivity.
Qed.

Lemma orel_stop legacy s t c : ORel s t ->
  let s1 := if loaded s c then stop_ctx all_off legacy s c else s in
  ORel s1 (ref_stop t c) /\ (forall r, In r (s_funcs s1) -> f_ctx r <> c) /\ s_files s1 = s_files s.
Proof.
  intros HO. pose proof HO as ([_ _ En Efi HL Hub] & _). cbn zeta.
  destruct (stop_if_loaded legacy _ s c (orel_linv s t HO)) as (HL1 & EF & Efi1 & En1).
  set (s1 := if loaded s c then stop_ctx all_off legacy s c else s) in *. apply linv_nopend in HL1. destruct HL1 as (HW1 & HNP1 & HA1).
  assert (Elv : lv s1 = filter (fun r => negb (N.eqb (f_ctx r) c)) (lv s)).
  { unfold lv. rewrite EF, !filter_filter. apply filter_ext. intros x. apply andb_comm. }
  split; [split; [constructor|exact HA1]|split; [|exact Efi1]].
  - (* rl_winv *) exact HW1.
  - (* rl_nopend *) exact HNP1.
  - (* rl_next *) cbn [ref_stop t_next]. rewrite En1. assumption.
  - (* rl_files *) cbn [ref_stop t_files]. rewrite Efi1. assumption.
  - (* rl_live *) rewrite Elv. cbn [ref_stop t_live]. apply F2_filter; [assumption|]. intros r d (Ec & _). rewrite Ec. reflexivity.
  - (* rl_ub *) rewrite Elv. apply UB_filter. assumption.
  - (* no object of c *) rewrite EF. intros r Hr. apply filter_In in Hr. apply N.eqb_neq, negb_true_iff, Hr.
Qed.

Lemma orel_set_files s t fl : ORel s t -> AllCtx (map fst fl) (s_funcs s) -> ORel (set_files s fl) (mk_rst (t_live t) fl (t_next t)).
Proof. intros ([HW HNP En Efi HL Hub] & _) HA. split; [constructor; auto; apply winv_set_files; assumption|exact HA]. Qed.

Lemma orel_set_inc s t c i : ORel s t -> ORel (set_inc s c i) t.
Proof. intros ([HW HNP En Efi HL Hub] & HA). split; [constructor; auto; apply winv_set_inc; assumption|exact HA]. Qed.

Lemma rel_loaded s t c : Rel s t -> ref_loaded t c = loaded s c.
Proof. intros HR. unfold ref_loaded, loaded. rewrite (rl_files _ _ HR). reflexivity. Qed.

(* the end of every operation: nothing bound goes *)
Lemma finish_op legacy s t : ORel s t -> ORel (prune (gc all_off legacy s)) t.
Proof.
  intros HO. pose proof (orel_linv s t HO) as HLI. destruct (sinv_finish legacy s HLI) as (HW' & HNP' & _ & HA').
  rewrite (finish_off legacy s HLI) in *. destruct HO as ([HW _ En Efi HL Hub] & _).
  assert (Elv : lv (set_funcs s (filter f_bound (s_funcs s))) = lv s) by (unfold lv; cbn [set_funcs s_funcs]; rewrite filter_filter; apply filter_ext; intros r; apply andb_diag).
  split; [constructor; auto; rewrite Elv; assumption|assumption].
Qed.

Lemma orel_exec legacy s t c b : ORel s t -> ORel (run_op all_off legacy s (OExec c b)) (ref_op t (OExec c b)).
Proof.
  intros HO. unfold run_op, ref_op. rewrite (rel_loaded s t c (proj1 HO)). apply finish_op.
  destruct (loaded s c) eqn:El; [|assumption].
  assert (Hmode : negb legacy && negb true = false) by (destruct legacy; reflexivity).
  pose proof (lrel_body legacy true c b s t) as H. rewrite Hmode in H.
  apply (lrel_exit c), H, lrel_enter; [assumption|apply loaded_In, El].
Qed.

Lemma orel_unload legacy s t c : ORel s t -> ORel (run_op all_off legacy s (OUnload c)) (ref_op t (OUnload c)).
Proof.
  intros HO. unfold run_op, ref_op. rewrite (rel_loaded s t c (proj1 HO)). apply finish_op.
  destruct (orel_stop legacy s t c HO) as (HO1 & Hno & Efi1). destruct (loaded s c); [|assumption]. cbn zeta iota in *.
  cbn [ref_stop t_files]. rewrite (rl_files _ _ (proj1 HO)), <- Efi1. apply (orel_set_files _ (ref_stop t c)); [exact HO1|].
  intros r Hr. apply file_del_In. split; [apply Hno, Hr|apply HO1, Hr].
Qed.

(* ctx.start() at the end of loading: the waiting managers get what their declarations were matched with *)
Lemma lrel_start oracle c s t : LRel true c s t -> ORel (start_ctx all_off oracle s c) t.
Proof.
  intros [HL _ En Eft HLv Hub]. destruct (start_ctx_spec oracle s c [] HL) as (HL' & EF' & Efi' & En').
  apply linv_nopend in HL'. destruct HL' as (HW' & HNP' & HA'). set (s' := start_ctx all_off oracle s c) in *.
  assert (Elv : lv s' = map (started_rec c s) (lv s)) by (unfold lv; rewrite EF'; apply filter_map_comm, started_same).
  split; [|assumption]. constructor; auto; [congruence|congruence|rewrite Elv; exact HLv|rewrite Elv].
  intros r1' r2' H1 H2 Ec Ef. apply in_map_iff in H1, H2. destruct H1 as (r1 & <- & H1), H2 as (r2 & <- & H2).
  f_equal. destruct (started_same c s r1) as (E1 & F1 & _), (started_same c s r2) as (E2 & F2 & _). apply Hub; auto; congruence.
Qed.

(* the statements of a file, then ctx.start() in the new subsystem *)
Lemma load_core legacy oracle s2 t2 c b : ORel s2 t2 -> In c (map fst (s_files s2)) ->
  let s3 := run_body all_off legacy false c b s2 in
  ORel (prune (gc all_off legacy (if legacy then s3 else start_ctx all_off oracle s3 c))) (ref_body c b t2).
Proof.
  intros HO2 HcL. cbn zeta. apply finish_op. pose proof (lrel_body legacy false c b s2 t2) as H.
  destruct legacy; cbn [negb andb] in H; [apply (lrel_exit c)|apply lrel_start]; apply H, lrel_enter; assumption.
Qed.

Lemma orel_load legacy s t c b oracle : ORel s t ->
  ORel (run_op all_off legacy s (OLoad c b oracle)) (ref_op t (OLoad c b oracle)).
Proof.
  intros HO. destruct (orel_stop legacy s t c HO) as (HO1 & Hno & Efi1). unfold run_op, ref_op. cbn zeta in *.
  set (s1 := if loaded s c then stop_ctx all_off legacy s c else s) in *.
  cbn [ref_stop t_files]. rewrite (rl_files _ _ (proj1 HO)), <- Efi1. apply load_core.
  - apply orel_set_inc, (orel_set_files _ (ref_stop t c)); [exact HO1|]. intros r Hr. apply file_set_In. right. apply HO1, Hr.
  - apply file_set_In. left. reflexivity.
Qed.

(* reload of everything up to the statements of the files: no function object is left *)
Lemma reload_prefix legacy s t w : ORel s t ->
  let s1 := fold_left (stop_ctx all_off legacy) (map fst (s_files s)) s in
  let fl := fold_left (fun l p => file_set (fst p) (snd p) l) w (s_files s1) in
  ORel (set_files s1 fl) (mk_rst [] fl (t_next t)) /\
  fold_left (fun l p => file_set (fst p) (snd p) l) w (t_files t) = fl /\ s_files s1 = s_files s.
Proof.
  intros HO. pose proof HO as (HR & HA). cbn zeta. destruct (stop_all legacy _ (map fst (s_files s)) s (orel_linv s t HO)) as (HL1 & EF1 & Efi1 & En1).
  set (s1 := fold_left (stop_ctx all_off legacy) (map fst (s_files s)) s) in *.
  assert (Hnil : s_funcs s1 = []).
  { rewrite EF1. apply filter_none. intros r Hr. apply HA, memN_In in Hr. rewrite Hr. reflexivity. }
  split; [|split; [rewrite Efi1, (rl_files _ _ HR); reflexivity|assumption]].
  split; [constructor|]; unfold lv; cbn [set_files s_funcs s_next s_files t_next t_files t_live]; rewrite ?Hnil.
  - (* rl_winv *) apply winv_set_files, (linv_winv _ _ HL1).
  - (* rl_nopend *) intros r [].
  - (* rl_next *) rewrite En1. apply (rl_next _ _ HR).
  - (* rl_files *) reflexivity.
  - (* rl_live *) constructor.
  - (* rl_ub *) intros r1 r2 [].
  - (* AllCtx *) intros r [].
Qed.

Lemma orel_bodies_legacy fs : forall s t, ORel s t -> (forall p, In p fs -> In (fst p) (map fst (s_files s))) ->
  ORel (fold_left (fun s p => run_body all_off true false (fst p) (snd p) (set_inc s (fst p) (s_next s))) fs s)
       (fold_left (fun t p => ref_body (fst p) (snd p) t) fs t).
Proof.
  induction fs as [|p fs IH]; intros s t HO HL; cbn [fold_left]; [assumption|].
  apply IH.
  - apply (lrel_exit (fst p)), (lrel_body true false), lrel_enter; [apply orel_set_inc, HO|apply HL; left; reflexivity].
  - intros q Hq. rewrite run_body_files. apply HL. right. assumption.
Qed.

Lemma orel_reload_legacy s t w oracle : ORel s t ->
  ORel (run_op all_off true s (OReloadAll w oracle)) (ref_op t (OReloadAll w oracle)).
Proof.
  intros HO. destruct (reload_prefix true s t w HO) as (HO2 & Efl & _). unfold run_op, ref_op. cbn zeta in *. cbv iota. rewrite Efl.
  set (s1 := fold_left (stop_ctx all_off true) (map fst (s_files s)) s) in *.
  set (fl := fold_left (fun l p => file_set (fst p) (snd p) l) w (s_files s1)) in *. change (s_files (set_files s1 fl)) with fl.
  apply finish_op, orel_bodies_legacy; [exact HO2|]. intros p Hp. apply in_map. assumption.
Qed.

(* a function of the files before alone ([ref_op_files]) *)
Definition files_after (fl : list (cid * list stmt)) (o : op) : list (cid * list stmt) :=
  match o with
  | OExec _ _ => fl
  | OLoad c b _ => file_set c b fl
  | OUnload c => if existsb (fun p => N.eqb (fst p) c) fl then file_del c fl else fl
  | OReloadAll w _ => fold_left (fun l p => file_set (fst p) (snd p) l) w fl
  end.

(* left out: in the new subsystem, a reload of everything / start-up that leaves more than one script file (several contexts
   waiting for start at the same time) *)
Definition op_ok (legacy : bool) (fl : list (cid * list stmt)) (o : op) : Prop :=
  legacy = true \/ match o with OReloadAll _ _ => (length (files_after fl o) <= 1)%nat | _ => True end.
Fixpoint ops_ok (legacy : bool) (ops : list op) (fl : list (cid * list stmt)) : Prop :=
  match ops with [] => True | o :: r => op_ok legacy fl o /\ ops_ok legacy r (files_after fl o) end.

(* at most one file: there is none, or loading them all is [load_core] of that one *)
Lemma load_small oracle s2 t2 : ORel s2 t2 -> (length (s_files s2) <= 1)%nat ->
  let s3 := fold_left (fun s p => run_body all_off false false (fst p) (snd p) (set_inc s (fst p) (s_next s))) (s_files s2) s2 in
  ORel (prune (gc all_off false (start_all all_off oracle s3 (map fst (s_files s3)))))
       (fold_left (fun t p => ref_body (fst p) (snd p) t) (s_files s2) t2).
Proof.
  intros HO Hlen. cbn zeta. destruct (s_files s2) as [|[c b] [|q fl']] eqn:Efs; [| |cbn in Hlen; lia]; cbn [fold_left fst snd].
  - rewrite Efs. apply finish_op, HO.
  - rewrite run_body_files. cbn [set_inc s_files]. rewrite Efs. cbn [map fst fold_left].
    apply (load_core false); [apply orel_set_inc, HO|cbn; rewrite Efs; left; reflexivity].
Qed.

Lemma orel_reload_new_small s t w oracle : ORel s t -> op_ok false (s_files s) (OReloadAll w oracle) ->
  ORel (run_op all_off false s (OReloadAll w oracle)) (ref_op t (OReloadAll w oracle)).
Proof.
  intros HO [E|Hlen]; [discriminate|]. cbn [files_after] in Hlen. destruct (reload_prefix false s t w HO) as (HO2 & Efl & Efi1).
  unfold run_op, ref_op. cbn zeta in *. cbv iota. rewrite Efl. apply load_small; [exact HO2|]. cbn. rewrite Efi1. exact Hlen.
Qed.

Lemma ref_body_files c b : forall t, t_files (ref_body c b t) = t_files t.
Proof. intros t. unfold ref_body. apply (fold_left_inv (fun t' => t_files t' = t_files t)); [|reflexivity]. intros a x _ <-. destruct x; reflexivity. Qed.

Lemma ref_bodies_files fs : forall t, t_files (fold_left (fun t p => ref_body (fst p) (snd p) t) fs t) = t_files t.
Proof. intros t. apply (fold_left_inv (fun t' => t_files t' = t_files t)); [|reflexivity]. intros a p _ <-. apply ref_body_files. Qed.

Lemma ref_op_files t o : t_files (ref_op t o) = files_after (t_files t) o.
Proof.
  destruct o as [c b|c b oracle|c|w oracle]; cbn [ref_op files_after].
  - destruct (ref_loaded t c); [apply ref_body_files|reflexivity].
  - rewrite ref_body_files. reflexivity.
  - unfold ref_loaded. destruct (existsb (fun p => N.eqb (fst p) c) (t_files t)); reflexivity.
  - rewrite ref_bodies_files. reflexivity.
Qed.

Lemma orel_op legacy s t o : ORel s t -> op_ok legacy (s_files s) o -> ORel (run_op all_off legacy s o) (ref_op t o).
Proof.
  intros H Hok. destruct o as [c b|c b oracle|c|w oracle].
  - apply orel_exec; assumption.
  - apply orel_load; assumption.
  - apply orel_unload; assumption.
  - destruct legacy; [apply orel_reload_legacy|apply orel_reload_new_small]; assumption.
Qed.

Theorem refines legacy ops : forall s t, ORel s t -> ops_ok legacy ops (s_files s) ->
  ORel (run_ops all_off legacy ops s) (fold_left ref_op ops t).
Proof.
  unfold run_ops. induction ops as [|o ops IH]; intros s t H Hok; cbn [fold_left]; [assumption|].
  destruct Hok as (Ho & Hr). pose proof (orel_op legacy s t o H Ho) as H'.
  apply IH; [assumption|].
  rewrite <- (rl_files _ _ (proj1 H')), ref_op_files, (rl_files _ _ (proj1 H)). assumption.
Qed.

Lemma ops_ok_legacy ops : forall fl, ops_ok true ops fl.
Proof. induction ops as [|o ops IH]; intros fl; cbn; [exact I|]. split; [left; reflexivity|apply IH]. Qed.

Theorem refines_legacy ops : forall s t, ORel s t -> ORel (run_ops all_off true ops s) (fold_left ref_op ops t).
Proof. intros s t H. apply refines; [assumption|apply ops_ok_legacy]. Qed.

Lemma orel_init : ORel init_st init_rst.
Proof.
  split; [constructor; cbn|intros r []].
  - (* rl_winv *) split; [apply core_init|intros r []].
  - (* rl_nopend *) intros r [].
  - (* rl_next *) reflexivity.
  - (* rl_files *) reflexivity.
  - (* rl_live *) constructor.
  - (* rl_ub *) intros r1 r2 [].
Qed.

(* the observation: registered or not, and which generation answers *)
Definition handler_gen (s : st) (k : key) : option gen := option_map fst (s_reg s k).
Definition ref_gen (t : rst) (k : key) : option gen := option_map r_gen (ref_handler t k).

Lemma rel_handler s t k : Rel s t -> handler_gen s k = ref_gen t k.
Proof.
  intros [(HC & HF) _ _ _ HL _]. unfold handler_gen, ref_gen, ref_handler. change rlater with (later_by r_gen).
  destruct (s_reg s k) as [[g m]|] eqn:Er; cbn [option_map fst].
  - (* the declaration of HA's handler is the most recent one with k *)
    destruct (w_hand _ HC k g m Er) as (r0 & Hr0 & <- & _ & Hm0 & Hmax0).
    destruct (F2_in_l _ _ _ r0 HL (holder_live s r0 k HF Hr0 Hm0)) as (d0 & Hd0 & _ & _ & Eg0 & Hmd0).
    rewrite <- Eg0. symmetry. apply latest_by_max; [apply filter_In; rewrite Hmd0; auto|].
    intros d Hd. apply filter_In in Hd. destruct Hd as (Hd & Hk).
    destruct (F2_in_r _ _ _ d HL Hd) as (r & Hr & _ & _ & Eg & Hm). rewrite Hm in Hk. apply lv_in in Hr. rewrite Eg, Eg0. apply Hmax0; tauto.
  - (* nobody holds k, so no declaration has it *)
    rewrite filter_none; [reflexivity|]. intros d Hd. destruct (memN k (r_eff d)) eqn:Hk; [exfalso|reflexivity].
    destruct (F2_in_r _ _ _ d HL Hd) as (r & Hr & _ & _ & _ & Hm). rewrite Hm in Hk. apply lv_in in Hr.
    apply (w_reg _ HC) in Er. rewrite (w_cnt _ HC) in Er. assert (0 < hcount k (s_funcs s)) by (apply hcount_pos; exists r; tauto). lia.
Qed.

(* what a call then does with the generation that answers is [LifeServices.calls_current] for the Model and
   [ServicesSpec.spec_call] for the Spec; no theorem joins the two *)
Theorem refines_observations legacy ops : ops_ok legacy ops [] ->
  forall k, handler_gen (run_ops all_off legacy ops init_st) k = ref_gen (fold_left ref_op ops init_rst) k.
Proof.
  intros Hok k. apply rel_handler. apply (refines legacy ops init_st init_rst orel_init Hok).
Qed.

Corollary refines_observations_legacy ops k :
  handler_gen (run_ops all_off true ops init_st) k = ref_gen (fold_left ref_op ops init_rst) k.
Proof. apply refines_observations, ops_ok_legacy. Qed.

(* the side condition admits non-trivial new-subsystem sequences *)
Example ops_ok_instance :
  ops_ok false [OReloadAll [(0, [SDef 0 [1; 2] DOpt; SDef 1 [1] DAbs])] []; OLoad 1 [SDef 0 [1; 3] DAbs; SDel 0; SDef 2 [3] DOnly] [];
                OExec 0 [SDefRt 2 [4] DAbs; SDel 1]; OLoad 0 [SDef 0 [3]  DAbs] []; OUnload 1; OExec 0 [SDef 0 [3; 5] DAbs]] [].
Proof. cbn. repeat split; auto; right; cbn; auto. Qed.
