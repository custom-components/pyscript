(* The trace validator of Trig/EventFlowCheck.v is sound: the labels recorded for a trace that [ecase_model_ok] accepts are a
   path of the LTS to a state with every queue empty ([replay_end_path]), where the runs started per decorator are the Model's
   ([replay_end_runs]).  [on_path] is the invariant of the replay.  At the end: an accepted trace of the real code. *)
From PV Require Import Common.Util Trig.EventBase Gen.EventFlowConsts Trig.EventFlow Trig.EventFlowCheck Proofs.TrigEventFlow.
From Coq Require Import Lia.

(* [rs_path] is kept newest first *)
Definition on_path (Sy : sys) (rs : rstate) : Prop := run_lts Sy (rev (rs_path rs)) = Some (rs_st rs).

Lemma do_step_on_path Sy rs l rs' : on_path Sy rs -> do_step Sy rs l = Some rs' -> on_path Sy rs'.
Proof.
  unfold on_path, do_step, run_lts, run_from. intros W E. destruct (step Sy (rs_st rs) l) as [st'|] eqn:ES; [|discriminate].
  inversion E; subst rs'; clear E. cbn [rs_path rs_st rev]. rewrite fold_left_opt_app, W. cbn. rewrite ES. reflexivity.
Qed.

Lemma bookkeeping_on_path Sy rs l (f : rstate -> rstate) rs' :
  (forall x, rs_st (f x) = rs_st x /\ rs_path (f x) = rs_path x) -> on_path Sy rs ->
  match do_step Sy rs l with Some x => Some (f x) | None => None end = Some rs' -> on_path Sy rs'.
Proof.
  intros Hf W E. destruct (do_step Sy rs l) as [x|] eqn:Ex; [|discriminate]. injection E as <-.
  apply (do_step_on_path Sy rs l x W) in Ex. unfold on_path in *. destruct (Hf x) as [-> ->]. exact Ex.
Qed.

Lemma drain_on_path Sy : forall fuel rs T, on_path Sy rs -> on_path Sy (drain Sy fuel rs T).
Proof.
  induction fuel as [|fuel IH]; intros rs T W; cbn [drain]; [exact W|].
  destruct (trig_at Sy T) as [tr|]; [|exact W].
  destruct (st_q (rs_st rs) T) as [|m q]; [exact W|].
  destruct (sy_legacy Sy && negb (passes tr (m_args m))); [|exact W].
  destruct (do_step Sy rs (LConsume T 0)) as [rs'|] eqn:E; [|exact W].
  apply IH. eapply do_step_on_path; eassumption.
Qed.

(* destructs every [match] and [if] at the head of [E] up to the [do_step], dropping the failing branches *)
Ltac break E :=
  repeat (cbv zeta in E;
          match type of E with
          | match do_step _ _ _ with _ => _ end = _ => fail 1
          | match ?x with _ => _ end = _ => destruct x eqn:?; try discriminate
          | (if ?x then _ else _) = _ => destruct x eqn:?; try discriminate
          end).

Lemma replay_obs_on_path c Sy rs ob rs' : on_path Sy rs -> replay_obs c Sy rs ob = Some rs' -> on_path Sy rs'.
Proof.
  intros W E. destruct ob as [o|T f kw cx|rid f kw cx|rid ai key data cx ep|rid ai cx|rid ai cx]; cbn [replay_obs] in E.
  - (* OBus *) exact (do_step_on_path Sy rs _ rs' W E).
  - (* ORunning: the step comes first, the tests look at the run it started *)
    cbv zeta in E. destruct (do_step Sy (drain_all Sy rs T) _) as [rs2|] eqn:E2; [|discriminate].
    break E. injection E as <-. exact (do_step_on_path Sy _ _ _ (drain_on_path Sy _ rs T W) E2).
  - (* OBegin *) break E. refine (bookkeeping_on_path Sy rs _ _ rs' _ W E). intros x. split; reflexivity.
  - (* OFire *) break E. refine (bookkeeping_on_path Sy rs _ _ rs' _ W E). intros x. split; reflexivity.
  - (* OSet *) break E. refine (bookkeeping_on_path Sy rs _ _ rs' _ W E). intros x. split; reflexivity.
  - (* OCall *) break E. refine (bookkeeping_on_path Sy rs _ _ rs' _ W E). intros x. split; reflexivity.
Qed.

Lemma replay_on_path c Sy : forall l rs n n' rs' b, on_path Sy rs -> replay c Sy rs l n = (n', rs', b) -> on_path Sy rs'.
Proof.
  induction l as [|ob l IH]; intros rs n n' rs' b W E; cbn [replay] in E.
  - inversion E; subst; exact W.
  - destruct (replay_obs c Sy rs ob) as [rs1|] eqn:E1.
    + eapply IH; [eapply replay_obs_on_path; eassumption|exact E].
    + inversion E; subst; exact W.
Qed.

Lemma fold_drain_on_path Sy : forall Ts rs, on_path Sy rs -> on_path Sy (fold_left (drain_all Sy) Ts rs).
Proof. intros Ts rs. apply fold_left_inv. intros a T _. apply drain_on_path. Qed.

(* the state in which [ecase_model_ok] ends *)
Definition replay_end (cfg : deviations) (c : ecase) : rstate :=
  let Sy := case_sys cfg c in
  let '(_, rs, _) := replay c Sy rs_init (ec_obs c) 0 in fold_left (drain_all Sy) (seq 0 (length (ec_trigs c))) rs.

Theorem replay_end_path : forall cfg c, ecase_model_ok cfg c = true ->
  let rs := replay_end cfg c in
  run_lts (case_sys cfg c) (rev (rs_path rs)) = Some (rs_st rs)
  /\ forall T, (T < length (ec_trigs c))%nat -> st_q (rs_st rs) T = [].
Proof.
  intros cfg c H. unfold ecase_model_ok, replay_end in *. cbv zeta in *.
  destruct (replay c (case_sys cfg c) rs_init (ec_obs c) 0) as [[n rs] b] eqn:ER.
  destruct b; [|discriminate].
  split; [exact (fold_drain_on_path _ _ rs (replay_on_path c _ _ rs_init _ _ _ _ eq_refl ER))|].
  unfold final_ok in H. cbv zeta in H. apply andb_true_iff in H. destruct H as [HQ _].
  intros T HT. rewrite forallb_forall in HQ.
  specialize (HQ T). rewrite in_seq in HQ. specialize (HQ ltac:(lia)).
  destruct (st_q _ T); [reflexivity|discriminate].
Qed.

(* [model_ok_path], [model_ok_exact]: the statements of Properties/C08.v, which bind path and state existentially *)
Theorem model_ok_path : forall cfg c, ecase_model_ok cfg c = true ->
  exists ls st, run_lts (case_sys cfg c) ls = Some st /\ forall T, (T < length (ec_trigs c))%nat -> st_q st T = [].
Proof. intros cfg c H. eexists _, _. exact (replay_end_path cfg c H). Qed.

Theorem replay_end_runs : forall cfg c, ecase_model_ok cfg c = true ->
  let st := rs_st (replay_end cfg c) in
  forall T, (T < length (ec_trigs c))%nat -> started st T = model_runs (case_sys cfg c) T (st_occs st).
Proof.
  intros cfg c H st T HT. destruct (replay_end_path cfg c H) as [E HQ].
  exact (quiescent_model _ _ _ T E (empty_queue_drained _ _ T (HQ T HT))).
Qed.

Corollary model_ok_exact : forall c, ecase_model_ok all_off c = true ->
  exists ls st, run_lts (case_sys all_off c) ls = Some st /\
    forall T tr, nth_error (ec_trigs c) T = Some tr -> started st T = spec_runs tr (st_occs st).
Proof.
  intros c H. eexists _, _. split; [exact (proj1 (replay_end_path all_off c H))|]. intros T tr ET.
  rewrite (replay_end_runs all_off c H T) by (apply nth_error_Some; congruence).
  apply model_runs_spec; [apply mk_sys_conformant|exact ET].
Qed.

(* a trace of the real code (legacy subsystem: two events, one passing the filter; the body fires one event) *)
Definition ex_case : ecase :=
  {| ec_legacy := true;
     ec_trigs := [ {| t_func := 100; t_dm := 100; t_epochs := [0%N]; t_kind := KEvent; t_key := 20; t_filter := Some (FCmp CmpEq 24 (VInt 1)); t_kwargs := [(25%N, VInt 5)] |} ];
     ec_order := [];
     ec_scripts := [(100%N, [SSleep; SFire 21 [(22%N, VInt 1)] CNone])];
     ec_obs := [ OBus {| o_kind := KEvent; o_key := 20; o_epoch := 0; o_ctx := Some 1%N; o_attrs := []; o_data := [(24%N, VInt 2)]; o_opt := None |};
                 OBus {| o_kind := KEvent; o_key := 20; o_epoch := 0; o_ctx := Some 2%N; o_attrs := []; o_data := [(24%N, VInt 1)]; o_opt := None |};
                 ORunning 0 100 [(1%N, VStr 4); (2%N, VStr 20); (3%N, VCtx 2); (24%N, VInt 1); (25%N, VInt 5)] {| c_id := 3; c_parent := Some 2%N |};
                 OBegin 1 100 [(25%N, VInt 5); (1%N, VStr 4); (2%N, VStr 20); (3%N, VCtx 2); (24%N, VInt 1)] {| c_id := 3; c_parent := Some 2%N |};
                 OFire 1 1 21 [(13%N, VInt 1); (14%N, VInt 1); (22%N, VInt 1)] {| c_id := 3; c_parent := Some 2%N |} 0 ] |}.

Example model_ok_example : ecase_model_ok all_off ex_case = true /\ ecase_spec_ok ex_case = true /\
                           length (ecase_path all_off ex_case) = 6%nat.
Proof. vm_compute. repeat split. Qed.
