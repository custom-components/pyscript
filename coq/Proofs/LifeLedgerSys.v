(* C09: every change to one unit, to the status of functions and to the function table preserves [Inv].  Relations between two
   worlds are records ([unit_frame], [stopped], [started]; [same_units], [svc_frame], [retired], [shrink]); [Inv_x] carries [Inv]
   across relation x and, where x is a case of [does] (LifeLedgerDoes.v), concludes [shrink] with it, so that it is that case of
   [does_inv]; [o_x], [o_inv]: the model's operation o is related by x or keeps [Inv]. *)
From Coq Require Import List NArith Bool Lia.
From PV Require Import Common.Util Life.Ledger Proofs.LifeLedger.
Import ListNotations.
Local Open Scope N_scope.

Lemma Inv_parts W : Inv W -> ids_ok W /\ stat_ok W /\ led_ok W.
Proof. exact (fun H => H). Qed.

(* the two switches under which a stop leaves entries behind: the early `return` of State.notify_del (D16), the prologue of a task
   stopped before it ran (D91) *)
Definition leak_free (cfg : deviations) : Prop := d16_notify_del_return cfg = false /\ d91_pending_subscribes cfg = false.

Lemma all_off_leak_free cfg : all_off cfg -> leak_free cfg.
Proof. intros [D16 [_ [D91 _]]]. exact (conj D16 D91). Qed.

Lemma all_off_d21 cfg : all_off cfg -> d21_handler_stays cfg = false.
Proof. intros [_ [_ [_ [D21 _]]]]. exact D21. Qed.

Lemma In_all_units W u : In u (all_units W) <-> exists f, owns W f u.
Proof. unfold all_units, owns. apply in_flat_map. Qed.

Lemma find_unit_some W id u : find_unit W id = Some u -> exists f, owns W f u /\ u_id u = id.
Proof.
  unfold find_unit. intros H. apply find_some in H. destruct H as [H E]. apply N.eqb_eq in E.
  apply In_all_units in H. destruct H as [f H]. exists f. split; [exact H|exact E].
Qed.

Lemma find_func_some W g f : find_func W g = Some f -> In f (w_funcs W) /\ f_gen f = g.
Proof. apply (find_key_Some _ N.eqb_eq). Qed.

(* [J pre s] relates the elements already processed to the state reached *)
Lemma fold_left_ind {A S} (J : list A -> S -> Prop) (op : S -> A -> S) l s :
  J [] s -> (forall pre a post s', l = pre ++ a :: post -> J pre s' -> J (pre ++ [a]) (op s' a)) -> J l (fold_left op l s).
Proof.
  intros H0 HS.
  assert (G : forall post pre s', l = pre ++ post -> J pre s' -> J l (fold_left op post s')).
  { induction post as [|a r IH]; intros pre s' E Hj; cbn [fold_left].
    - rewrite E, app_nil_r. exact Hj.
    - apply (IH (pre ++ [a])); [rewrite <- app_assoc; exact E|apply (HS pre a r); assumption]. }
  apply (G l [] s); [reflexivity|exact H0].
Qed.

Lemma firstn_In {A} n (l : list A) x : In x (firstn n l) -> In x l.
Proof. intros H. rewrite <- (firstn_skipn n l). apply in_or_app. left; exact H. Qed.

Lemma firstn_nodup {A} n (l : list A) : NoDup l -> NoDup (firstn n l).
Proof.
  revert l. induction n as [|n IH]; intros [|a l] H; cbn; try constructor; inversion H; subst; [|apply IH; assumption].
  intros K. apply firstn_In in K. contradiction.
Qed.

(* ids are only ever compared with the counter from below *)
Lemma ids_ok_mono W W' : w_funcs W' = w_funcs W -> w_next W <= w_next W' -> ids_ok W -> ids_ok W'.
Proof.
  intros EF EN I. constructor; unfold owns; rewrite ?EF.
  - pose proof (io_next W I). lia.
  - intros f Hf. destruct (io_gen W I f Hf). split; lia.
  - intros f u O. destruct (io_unit W I f u O) as [A [B C]]. repeat split; [exact A|exact B|lia].
  - apply (io_uniq W I).
  - apply (io_guniq W I).
Qed.

Lemma owns_same W W' f u : w_funcs W' = w_funcs W -> owns W' f u <-> owns W f u.
Proof. intros E. unfold owns. rewrite E. tauto. Qed.

(* what no operation on a single unit changes *)
Record unit_frame (W W' : world) : Prop := {
  uf_funcs : w_funcs W' = w_funcs W;
  uf_next : w_next W' = w_next W;
  uf_active : w_active W' = w_active W;
  uf_delayed : w_delayed W' = w_delayed W;
  uf_zombie : w_zombie W' = w_zombie W;
  uf_svc : l_svc (w_led W') = l_svc (w_led W)
}.

Lemma unit_frame_refl W : unit_frame W W.
Proof. constructor; reflexivity. Qed.

Lemma unit_frame_trans A B C : unit_frame A B -> unit_frame B C -> unit_frame A C.
Proof. intros [a1 a2 a3 a4 a5 a6] [b1 b2 b3 b4 b5 b6]. constructor; congruence. Qed.

(* units stop or die, entries and tasks go, nothing is added *)
Lemma Inv_subset W W' : Inv W -> unit_frame W W' ->
  (forall x, In x (w_running W') -> In x (w_running W)) -> (forall x, In x (w_pending W') -> In x (w_pending W)) ->
  (forall t p, In p (tab t (w_led W')) -> In p (tab t (w_led W)) /\ (In (snd p) (w_running W) -> In (snd p) (w_running W'))) ->
  bus0_ok (l_event (w_led W')) (l_bus (w_led W')) ->
  (forall t, In t (l_tasks (w_led W')) -> In t (l_reap (w_led W')) \/ In t (w_pending W') \/ In t (w_running W')) ->
  Inv W'.
Proof.
  intros [I [S L]] [TF TN EA ED EZ EV] HR HP HE HZ HT.
  split; [exact (ids_ok_mono W W' TF (N.eq_le_incl _ _ (eq_sym TN)) I)|split].
  - constructor; unfold owns; rewrite ?TF, ?EA, ?ED, ?EZ.
    + intros id H. exact (so_run W S id (HR id H)).
    + intros id H. exact (so_pend W S id (HP id H)).
    + intros id H C. exact (so_disj W S id (HP id H) (HR id C)).
    + exact (so_act W S).
    + exact (so_zomb W S).
  - apply led_ok_of_held; [|exact HZ|exact HT|].
    + unfold held, owns. rewrite TF. intros t p H. destruct (HE t p H) as [H0 R].
      destruct (led_held W t p L H0) as [Z|[R0 X]]; [left; exact Z|right]. split; [exact (R R0)|exact X].
    + unfold svc_held. rewrite TF, EA, ED, EV. exact (ok_svc W L).
Qed.

Lemma Inv_log W rs : Inv W -> Inv (led_log W (w_led W, rs)).
Proof.
  intros HI. pose proof HI as [_ [_ L]].
  apply (Inv_subset W _ HI); wsimpl; auto; [constructor; reflexivity|apply bus0_inv, HI|apply (ok_tasks W L)].
Qed.

(* kept by every operation but a definition: a function once stopped stays stopped.  [w_next] may grow: a legacy definition whose
   service is refused uses up ids ([D_status]). *)
Record shrink (W W' : world) : Prop := {
  sh_funcs : w_funcs W' = w_funcs W;
  sh_next : w_next W <= w_next W';
  sh_active : forall x, In x (w_active W') -> In x (w_active W)
}.

Lemma shrink_refl W : shrink W W.
Proof. constructor; [reflexivity|apply N.le_refl|auto]. Qed.

Lemma shrink_trans A B C : shrink A B -> shrink B C -> shrink A C.
Proof. intros [T1 N1 S1] [T2 N2 S2]. constructor; [congruence|lia|auto]. Qed.

Lemma unit_frame_shrink W W' : unit_frame W W' -> shrink W W'.
Proof. intros F. constructor; rewrite ?(uf_next _ _ F), ?(uf_active _ _ F); [exact (uf_funcs _ _ F)|apply N.le_refl|auto]. Qed.

(* what stopping the units [ids] leaves as it was; they are neither started nor pending afterwards *)
Definition stop_frame (W W' : world) (ids : list N) : Prop :=
  same_tables W W' /\ w_active W' = w_active W /\ w_delayed W' = w_delayed W /\
  (forall x, In x (w_running W') -> In x (w_running W) /\ ~ In x ids) /\
  (forall x, In x (w_pending W') -> In x (w_pending W) /\ ~ In x ids) /\
  l_svc (w_led W') = l_svc (w_led W) /\
  (forall t, In t (l_tasks (w_led W')) -> In t (l_tasks (w_led W))).

Lemma stop_frame_res W W' ids : Inv W -> stop_frame W W' ids -> True.
Proof. trivial. Qed.

(* TrigInfo.stop for a trigger of a legacy function / Decorator.stop for a decorator of a manager, if it is started *)
Definition stop_unit (cfg : deviations) (f : func) : world -> unit_ -> world :=
  if f_new f then stop_if_running cfg else leg_unit_stop cfg.

(* W' is W after unit u has been stopped.  [sp_log]: a decorator logs its shutdown run if started and its dispatch does not raise *)
Record stopped (nw : bool) (u : unit_) (W W' : world) : Prop := {
  sp_frame : unit_frame W W';
  sp_released : released nw u (w_led W) (w_led W');
  sp_log : exists r0, w_log W' = w_log W ++ r0 /\ (r0 = shutdown_run u \/ nw = true /\ r0 = []);
  sp_running : forall x, In x (w_running W') <-> In x (w_running W) /\ x <> u_id u;
  sp_pending : forall x, In x (w_pending W') <-> In x (w_pending W) /\ x <> u_id u;
  sp_reap : l_reap (w_led W') = l_reap (w_led W) \/ l_reap (w_led W') = addn (u_id u) (l_reap (w_led W));
  sp_task : In (u_id u) (l_tasks (w_led W')) -> In (u_id u) (l_reap (w_led W'))
}.

Lemma Inv_stopped W W' f u : Inv W -> owns W f u -> stopped (f_new f) u W W' -> Inv W'.
Proof.
  intros HI O [F [RE RZ RT] _ HR HP RQ RI]. pose proof HI as [_ [_ L]].
  apply (Inv_subset W _ HI F).
  - intros x H. apply HR, H.
  - intros x H. apply HP, H.
  - (* an entry that stays is not one of u, so its owner is still started *)
    intros t p H. destruct (RE t p H) as [H0 N]. split; [exact H0|]. intros R. apply HR. split; [exact R|].
    intros E. exact (N (own_entry W f u t p HI O H0 E)).
  - apply RZ, bus0_inv, HI.
  - intros t H. destruct (N.eq_dec t (u_id u)) as [->|NE]; [left; exact (RI H)|].
    destruct (ok_tasks W L t (RT t H)) as [X|[X|X]]; [left|right; left; apply HP; auto|right; right; apply HR; auto].
    destruct RQ as [->| ->]; [exact X|apply In_addn; auto].
Qed.

(* a unit that is not started holds nothing *)
Lemma released_idle W f u : Inv W -> owns W f u -> ~ In (u_id u) (w_running W) -> released (f_new f) u (w_led W) (w_led W).
Proof.
  intros HI O NR. pose proof HI as [I [_ L]]. constructor; auto.
  intros t p H. split; [exact H|]. intros E. apply NR.
  destruct (led_held W t p L H) as [[_ Z]|[R _]]; rewrite (entry_id _ _ _ _ E) in *; [destruct (unit_id_nz W f u I O Z)|exact R].
Qed.

Lemma stop_unit_stopped cfg f : leak_free cfg -> forall W u, Inv W -> owns W f u -> stopped (f_new f) u W (stop_unit cfg f W u).
Proof.
  intros [D16 D91] W u HI O. pose proof HI as [_ [S L]]. pose proof (released_idle W f u HI O) as RI.
  assert (OUT : forall l : list N, ~ In (u_id u) l -> forall x, In x l <-> In x l /\ x <> u_id u).
  { intros l N x. split; [|tauto]. intros H. split; [exact H|]. intros ->. exact (N H). }
  (* neither started nor pending: only the log may change *)
  assert (IDLE : ~ In (u_id u) (w_running W) -> ~ In (u_id u) (w_pending W) -> forall r0, r0 = shutdown_run u \/ f_new f = true /\ r0 = [] ->
            forall W', unit_frame W W' -> w_led W' = w_led W -> w_running W' = w_running W -> w_pending W' = w_pending W ->
            w_log W' = w_log W ++ r0 -> stopped (f_new f) u W W').
  { intros NR NP r0 R0 W' F EL ER EP EG. constructor; rewrite ?EL, ?ER, ?EP.
    - (* sp_frame *) exact F.
    - (* sp_released *) exact (RI NR).
    - (* sp_log *) exists r0. auto.
    - (* sp_running *) apply (OUT _ NR).
    - (* sp_pending *) apply (OUT _ NP).
    - (* sp_reap *) auto.
    - (* sp_task *) intros H. destruct (ok_tasks W L _ H) as [X|[X|X]]; [exact X|destruct (NP X)|destruct (NR X)]. }
  unfold stop_unit. destruct (f_new f) eqn:NF.
  - pose proof (new_not_pending W f u HI O NF) as NP. unfold stop_if_running. destruct (memn (u_id u) (w_running W)) eqn:MR.
    + unfold dec_unit_stop. constructor; wsimpl.
      * (* sp_frame *) constructor; wsimpl; rewrite ?dec_stop_nf; reflexivity.
      * (* sp_released *) exact (dec_stop_released cfg u (w_led W) D16).
      * (* sp_log *) rewrite dec_stop_nf. exists (if u_crash u then [] else shutdown_run u). split; [reflexivity|destruct (u_crash u); auto].
      * (* sp_running *) intros x. apply In_deln.
      * (* sp_pending *) apply (OUT _ NP).
      * (* sp_reap *) rewrite dec_stop_nf. auto.
      * (* sp_task *) rewrite dec_stop_nf. intros H. destruct (not_in_deln_self _ _ H).
    + apply memn_false in MR. apply (IDLE MR NP []); auto using unit_frame_refl. symmetry. apply app_nil_r.
  - unfold leg_unit_stop. rewrite D91.
    destruct (memn (u_id u) (w_pending W)) eqn:MP; [|destruct (memn (u_id u) (w_running W)) eqn:MR].
    + (* its task has not run: nothing is subscribed yet *)
      apply memn_In in MP. pose proof (so_disj W S _ MP) as NR.
      pose proof (leg_stop_pending_idle u (w_led W) (fun ev _ H => NR (proj1 (ok_event W L ev _ H)))) as EV.
      constructor; wsimpl; rewrite ?EV; wsimpl.
      * (* sp_frame *) constructor; wsimpl; rewrite ?EV; reflexivity.
      * (* sp_released *) exact (released_set_reap _ _ _ _ _ (RI NR)).
      * (* sp_log *) exists (shutdown_run u). auto.
      * (* sp_running *) apply (OUT _ NR).
      * (* sp_pending *) intros x. apply In_deln.
      * (* sp_reap *) auto.
      * (* sp_task *) intros _. apply In_addn. auto.
    + apply memn_false in MP. constructor; wsimpl; rewrite ?leg_stop_running_nf; wsimpl.
      * (* sp_frame *) constructor; wsimpl; rewrite ?leg_stop_running_nf, ?leg_unsub_nf; reflexivity.
      * (* sp_released *) exact (released_set_reap _ _ _ _ _ (leg_unsub_released cfg u (w_led W) D16)).
      * (* sp_log *) exists (shutdown_run u). auto.
      * (* sp_running *) intros x. apply In_deln.
      * (* sp_pending *) apply (OUT _ MP).
      * (* sp_reap *) auto.
      * (* sp_task *) intros _. apply In_addn. auto.
    + (* task is None: only the shutdown run *)
      apply memn_false in MP, MR. apply (IDLE MR MP (shutdown_run u)); auto. constructor; reflexivity.
Qed.

(* W' is W after unit u has been started: a decorator by its manager, a legacy trigger by its task running to its first wait *)
Record started (nw : bool) (u : unit_) (W W' : world) : Prop := {
  sr_frame : unit_frame W W';
  sr_acquired : acquired nw u (w_led W) (w_led W');
  sr_log : w_log W' = w_log W ++ startup_run u;
  sr_running : forall x, In x (w_running W') <-> In x (w_running W) \/ x = u_id u;
  sr_pending : forall x, In x (w_pending W') <-> In x (w_pending W) /\ x <> u_id u
}.

Lemma Inv_started W W' f u : Inv W -> owns W f u -> In (f_gen f) (w_active W) -> ~ In (f_gen f) (w_delayed W) ->
  started (f_new f) u W W' -> Inv W' /\ shrink W W'.
Proof.
  intros HI O A ND [F [QE QZ QT QR] _ HR HP]. split; [|exact (unit_frame_shrink _ _ F)].
  destruct F as [TF TN EA ED EZ EV]. pose proof HI as [I [S L]].
  assert (RID : In (u_id u) (w_running W')) by (apply HR; auto).
  assert (RM : forall x, In x (w_running W) -> In x (w_running W')) by (intros x H; apply HR; auto).
  split; [exact (ids_ok_mono W W' TF (N.eq_le_incl _ _ (eq_sym TN)) I)|split].
  - constructor; unfold owns; rewrite ?TF, ?EA, ?ED, ?EZ.
    + (* so_run *) intros x H. apply HR in H. destruct H as [H| ->]; [exact (so_run W S x H)|]. exists f, u. auto.
    + (* so_pend *) intros x H. apply HP in H. exact (so_pend W S x (proj1 H)).
    + (* so_disj *) intros x H C. apply HP in H. apply HR in C.
      destruct C as [C|C]; [exact (so_disj W S x (proj1 H) C)|exact (proj2 H C)].
    + exact (so_act W S).
    + exact (so_zomb W S).
  - apply led_ok_of_held.
    + unfold held, owns. rewrite TF. intros t p H. destruct (QE t p H) as [H0|[K|K]]; [|right|left; exact K].
      * destruct (led_held W t p L H0) as [K|[R X]]; [left; exact K|right; split; [exact (RM _ R)|exact X]].
      * rewrite (entry_id _ _ _ _ K). split; [exact RID|]. exists f, u. auto.
    + exact (QZ (bus0_inv W HI)).
    + rewrite QR. intros t H. destruct (QT t H) as [H0| ->]; [|auto].
      destruct (N.eq_dec t (u_id u)) as [->|NE]; [auto|].
      destruct (ok_tasks W L t H0) as [X|[X|X]]; [auto|right; left; apply HP; auto|auto].
    + unfold svc_held. rewrite TF, EA, ED, EV. exact (ok_svc W L).
Qed.

Lemma dec_unit_start_frame W u : unit_frame W (dec_unit_start W u).
Proof. constructor; try reflexivity. unfold dec_unit_start. wsimpl. rewrite dec_start_nf. reflexivity. Qed.

Lemma dec_unit_started W f u : Inv W -> owns W f u -> f_new f = true -> started (f_new f) u W (dec_unit_start W u).
Proof.
  intros HI O NF. constructor; [apply dec_unit_start_frame|unfold dec_unit_start; wsimpl..].
  - (* sr_acquired *) rewrite NF. exact (dec_start_acquired u (w_led W) (unit_id_nz W f u (proj1 HI) O)).
  - (* sr_log *) rewrite dec_start_nf. reflexivity.
  - (* sr_running *) intros x. apply In_addn.
  - (* sr_pending: a decorator is never pending *)
    intros x. split; [|tauto]. intros H. split; [exact H|]. intros ->. exact (new_not_pending W f u HI O NF H).
Qed.

Lemma dec_unit_start_fields W a :
  w_log (dec_unit_start W a) = w_log W ++ snd (dec_start a (w_led W)) /\ w_pending (dec_unit_start W a) = w_pending W /\
  w_delayed (dec_unit_start W a) = w_delayed W /\ w_active (dec_unit_start W a) = w_active W /\
  w_funcs (dec_unit_start W a) = w_funcs W /\ w_next (dec_unit_start W a) = w_next W /\
  w_starting (dec_unit_start W a) = w_starting W /\
  w_running (dec_unit_start W a) = addn (u_id a) (w_running W).
Proof. repeat split; reflexivity. Qed.

(* creating the task of a legacy unit adds no entry and starts nothing *)
Lemma leg_unit_start_inv W f u : Inv W -> owns W f u -> f_new f = false -> In (f_gen f) (w_active W) ->
  ~ In (f_gen f) (w_delayed W) -> ~ In (u_id u) (w_running W) ->
  Inv (leg_unit_start W u) /\ shrink W (leg_unit_start W u).
Proof.
  intros [I [S L]] O NF A ND NR. unfold leg_unit_start, leg_start. split; [split; [|split]|].
  - apply (ids_ok_mono W); [reflexivity|apply N.le_refl|exact I].
  - destruct S as [SR SP SD SA SZ]. constructor; wsimpl; try assumption.
    + (* so_pend *) intros x Hx. apply In_addn in Hx. destruct Hx as [Hx| ->]; [apply SP; exact Hx|]. exists f, u. auto.
    + (* so_disj *) intros x Hx. apply In_addn in Hx. destruct Hx as [Hx| ->]; [apply SD; exact Hx|exact NR].
  - destruct L as [KS KE KB KT KV]. constructor; wsimpl; try assumption.
    (* ok_tasks *) intros t Ht. rewrite !In_addn. apply In_addn in Ht. destruct Ht as [Ht| ->]; [|auto].
    destruct (KT t Ht) as [H|[H|H]]; auto.
  - apply unit_frame_shrink. constructor; reflexivity.
Qed.

Lemma Inv_less W L' : Inv W -> less (w_led W) L' -> Inv (set_led W L') /\ shrink W (set_led W L').
Proof.
  intros HI [HE HZ _ HT HV]. pose proof HI as [_ [_ L]].
  assert (F : unit_frame W (set_led W L')) by (constructor; try reflexivity; exact HV).
  split; [|exact (unit_frame_shrink _ _ F)].
  apply (Inv_subset W _ HI F); wsimpl; auto; [apply HZ, bus0_inv, HI|].
  intros t H. destruct (HT t H) as [H0 Q]. destruct (ok_tasks W L t H0) as [X|X]; [left; exact (Q X)|right; exact X].
Qed.

(* no unit or table entry changed; function status, the service table, [w_auto], the log and used-up ids may differ *)
Definition same_res (W W' : world) : Prop :=
  w_funcs W' = w_funcs W /\ w_next W <= w_next W' /\ w_pending W' = w_pending W /\ w_zombie W' = w_zombie W /\
  w_running W' = w_running W /\ l_state (w_led W') = l_state (w_led W) /\ l_event (w_led W') = l_event (w_led W) /\
  l_bus (w_led W') = l_bus (w_led W) /\ l_tasks (w_led W') = l_tasks (w_led W) /\ l_reap (w_led W') = l_reap (w_led W).

(* [same_res] without its clauses on the function table: functions may be added *)
Record same_units (W W' : world) : Prop := {
  su_pending : w_pending W' = w_pending W;
  su_zombie : w_zombie W' = w_zombie W;
  su_running : w_running W' = w_running W;
  su_state : l_state (w_led W') = l_state (w_led W);
  su_event : l_event (w_led W') = l_event (w_led W);
  su_bus : l_bus (w_led W') = l_bus (w_led W);
  su_tasks : l_tasks (w_led W') = l_tasks (w_led W);
  su_reap : l_reap (w_led W') = l_reap (w_led W)
}.

Lemma same_res_funcs W W' : same_res W W' -> w_funcs W' = w_funcs W.
Proof. intros [E _]. exact E. Qed.

Lemma same_res_next W W' : same_res W W' -> w_next W <= w_next W'.
Proof. intros [_ [E _]]. exact E. Qed.

Lemma same_res_units W W' : same_res W W' -> same_units W W'.
Proof. intros [_ [_ [EP [EZ [ER [ES [EE [EB [ET EQ]]]]]]]]]. constructor; assumption. Qed.

Lemma same_res_refl W : same_res W W.
Proof. repeat split; reflexivity. Qed.

Lemma same_res_trans A B C : same_res A B -> same_res B C -> same_res A C.
Proof.
  intros [a1 [a2 [a3 [a4 [a5 [a6 [a7 [a8 [a9 a10]]]]]]]]] [b1 [b2 [b3 [b4 [b5 [b6 [b7 [b8 [b9 b10]]]]]]]]].
  repeat split; try congruence; lia.
Qed.

Lemma same_res_shrink W W' : same_res W W' -> (forall x, In x (w_active W') -> In x (w_active W)) -> shrink W W'.
Proof. intros SR SA. constructor; [exact (same_res_funcs _ _ SR)|exact (same_res_next _ _ SR)|exact SA]. Qed.

Definition keeps_busy (W W' : world) : Prop :=
  forall f u, owns W f u -> In (u_id u) (w_running W) \/ In (u_id u) (w_pending W) ->
    In (f_gen f) (w_active W) -> ~ In (f_gen f) (w_delayed W) -> In (f_gen f) (w_active W') /\ ~ In (f_gen f) (w_delayed W').

(* function status changes, functions may be added *)
Lemma Inv_status W W' : Inv W -> ids_ok W' -> incl (w_funcs W) (w_funcs W') -> same_units W W' -> keeps_busy W W' ->
  (forall g, In g (w_active W') -> exists f, In f (w_funcs W') /\ f_gen f = g) ->
  (forall g, In g (l_svc (w_led W')) -> svc_held W' g) ->
  Inv W'.
Proof.
  intros [I [S L]] I' FI [EP EZ ER ES EE EB ET EQ] HST HAC HSV.
  assert (OM : forall f u, owns W f u -> owns W' f u) by (intros f u [A B]; split; [apply FI, A|exact B]).
  assert (TB : forall t, tab t (w_led W') = tab t (w_led W)) by (intros []; assumption).
  split; [exact I'|split].
  - constructor; rewrite ?EP, ?EZ, ?ER.
    + (* so_run *) intros id H. destruct (so_run W S id H) as [f [u [O [<- [A D]]]]]. exists f, u.
      split; [exact (OM f u O)|split; [reflexivity|apply (HST f u O); auto]].
    + (* so_pend *) intros id H. destruct (so_pend W S id H) as [f [u [O [<- [NF [A D]]]]]]. exists f, u.
      split; [exact (OM f u O)|split; [reflexivity|split; [exact NF|apply (HST f u O); auto]]].
    + apply (so_disj W S).
    + (* so_act *) exact HAC.
    + apply (so_zomb W S).
  - apply led_ok_of_held; rewrite ?EE, ?EB, ?ET, ?EQ, ?EP, ?ER.
    + unfold held. rewrite ER. intros t p H. rewrite TB in H.
      destruct (led_held W t p L H) as [X|[R [f [u [O X]]]]]; [left; exact X|right]. split; [exact R|]. exists f, u. auto.
    + exact (bus0_inv W (conj I (conj S L))).
    + apply (ok_tasks W L).
    + exact HSV.
Qed.

Lemma Inv_res W W' : Inv W -> same_res W W' -> keeps_busy W W' ->
  (forall g, In g (w_active W') -> exists f, In f (w_funcs W') /\ f_gen f = g) ->
  (forall g, In g (l_svc (w_led W')) -> svc_held W' g) ->
  Inv W'.
Proof.
  intros HI SR HST HAC HSV. pose proof HI as [I _]. pose proof (same_res_funcs W W' SR) as EF. pose proof (same_res_next W W' SR) as EN.
  apply (Inv_status W W' HI); auto using same_res_units; [exact (ids_ok_mono W W' EF EN I)|rewrite EF; apply incl_refl].
Qed.

Lemma Inv_relax W W' : Inv W -> same_res W W' -> w_active W' = w_active W ->
  (forall g, In g (w_delayed W') -> In g (w_delayed W)) ->
  (forall g, In g (l_svc (w_led W')) -> In g (l_svc (w_led W)) \/ svc_held W' g) -> Inv W' /\ shrink W W'.
Proof.
  intros HI SR EA DL EV. pose proof HI as [_ [S L]]. pose proof (same_res_funcs W W' SR) as EF.
  split; [|apply (same_res_shrink _ _ SR); rewrite EA; auto].
  apply (Inv_res W W' HI SR).
  - intros f u O _ A D. rewrite EA. split; [exact A|]. intros C. exact (D (DL _ C)).
  - rewrite EA, EF. apply (so_act W S).
  - intros g Hg. destruct (EV g Hg) as [Hg'|H]; [|exact H]. unfold svc_held. rewrite EA, EF.
    destruct (ok_svc W L g Hg') as [A [f' [Hf' [E' [SV' ND']]]]]. split; [exact A|]. exists f'. repeat split; try assumption.
    intros NF C. exact (ND' NF (DL _ C)).
Qed.

(* what Function.service_remove / service_register leave as it was (they change [l_svc] and [w_hdl]) *)
Record svc_frame (W W' : world) : Prop := {
  sf_res : same_res W W';
  sf_active : w_active W' = w_active W;
  sf_delayed : w_delayed W' = w_delayed W;
  sf_log : w_log W' = w_log W
}.

Lemma svc_frame_refl W : svc_frame W W.
Proof. constructor; [apply same_res_refl|reflexivity..]. Qed.

Lemma svc_register_spec W f : svc_frame W (svc_register W f) /\
  forall g, In g (l_svc (w_led (svc_register W f))) -> In g (l_svc (w_led W)) \/ g = f_gen f.
Proof. unfold svc_register. destruct (f_svc f) as [n|]; (split; [constructor; repeat split; reflexivity|]); [intros g; apply In_addn|auto]. Qed.

Lemma not_in_map_id us (x : N) : ~ In x (map u_id us) -> forall u, In u us -> u_id u <> x.
Proof. intros H u Hu C. apply H. apply in_map_iff. exists u. split; assumption. Qed.

Definition idle (us : list unit_) (W : world) : Prop :=
  forall u, In u us -> ~ In (u_id u) (w_running W) /\ ~ In (u_id u) (w_pending W).

Record retired (f : func) (V W' : world) : Prop := {
  rt_res : same_res V W';
  rt_log : w_log W' = w_log V;
  rt_active : forall g, In g (w_active W') <-> In g (w_active V) /\ g <> f_gen f;
  rt_delayed : forall g, In g (w_delayed W') -> In g (w_delayed V);
  rt_svc : forall g, In g (l_svc (w_led W')) -> In g (l_svc (w_led V)) /\ g <> f_gen f
}.

Lemma Inv_retired W W' f : Inv W -> In f (w_funcs W) -> idle (f_units f) W -> retired f W W' -> Inv W' /\ shrink W W'.
Proof.
  intros HI Hf NU [SR _ AC DL SV]. pose proof HI as [I [S L]]. pose proof (same_res_funcs W W' SR) as EF.
  split; [apply (Inv_res W W' HI SR); unfold svc_held; rewrite ?EF|].
  - (* a function other than f with a busy unit stays active; f has none *)
    intros f' u' O' HR A D. split.
    + apply AC. split; [exact A|]. intros C. destruct O' as [Hf' Hu']. pose proof (io_guniq W I f' f Hf' Hf C). subst f'.
      destruct (NU u' Hu') as [N1 N2]. tauto.
    + intros C. apply D. apply DL. exact C.
  - intros g Hg. apply AC in Hg. apply (so_act W S). tauto.
  - intros g Hg. destruct (SV g Hg) as [Hg' NE]. destruct (ok_svc W L g Hg') as [A [f' [Hf' [E' [SV' ND']]]]].
    split; [apply AC; split; assumption|]. exists f'. repeat split; try assumption. intros NF C. apply (ND' NF). apply DL. exact C.
  - apply (same_res_shrink _ _ SR). intros g Hg. apply AC in Hg. apply Hg.
Qed.

Lemma svc_remove_spec W f : Inv W -> In f (w_funcs W) -> svc_frame W (svc_remove W f) /\
  forall g, In g (l_svc (w_led (svc_remove W f))) -> In g (l_svc (w_led W)) /\ g <> f_gen f.
Proof.
  intros [I [S L]] Hf. unfold svc_remove. destruct (f_svc f) as [n|] eqn:SV.
  - cbv zeta. destruct (Nat.eqb _ 0); (split; [constructor; repeat split; reflexivity|]); intros g; apply In_deln.
  - (* a function without @service is not in the table *)
    split; [apply svc_frame_refl|]. intros g Hg. split; [exact Hg|]. intros ->.
    destruct (ok_svc W L _ Hg) as [_ [f' [Hf' [E' [SV' _]]]]].
    pose proof (io_guniq W I f' f Hf' Hf E'). subst f'. rewrite SV in SV'. discriminate.
Qed.

Lemma delayed_not_running W f : Inv W -> In f (w_funcs W) -> In (f_gen f) (w_delayed W) ->
  forall u, In u (f_units f) -> ~ In (u_id u) (w_running W).
Proof. intros HI Hf HD u Hu C. exact (proj2 (running_unit W f u HI (conj Hf Hu) C) HD). Qed.

Lemma new_delayed_no_svc W f : Inv W -> In f (w_funcs W) -> f_new f = true -> In (f_gen f) (w_delayed W) ->
  ~ In (f_gen f) (l_svc (w_led W)).
Proof.
  intros [I [S L]] Hf NF HD Hg. destruct (ok_svc W L _ Hg) as [_ [f' [Hf' [E' [_ ND']]]]].
  pose proof (io_guniq W I f' f Hf' Hf E'). subst f'. exact (ND' NF HD).
Qed.

(* the suspended start of generation g continues *)
Lemma dm_resume_cases g W : dm_resume g W = W \/ exists f, In f (w_funcs W) /\ f_gen f = g /\ f_new f = true /\
  (dm_resume g W = set_starting W (deln g (w_starting W)) \/
   In g (w_active W) /\ ~ In g (w_delayed W) /\
   dm_resume g W = fold_left start_if_idle (f_units f) (set_starting W (deln g (w_starting W)))).
Proof.
  unfold dm_resume. destruct (find_func W g) as [f|] eqn:FF; [|auto]. destruct (find_func_some W g f FF) as [Hf <-].
  destruct (memn (f_gen f) (w_starting W) && f_new f) eqn:C; [|auto]. apply andb_true_iff in C.
  right. exists f. split; [exact Hf|split; [reflexivity|split; [apply C|]]]. cbv zeta.
  destruct (memn (f_gen f) (w_active W) && negb (memn (f_gen f) (w_delayed W))) eqn:C2; [|auto].
  apply andb_true_iff in C2. destruct C2 as [CA CD]. apply memn_In in CA. apply negb_true_iff, memn_false in CD. auto.
Qed.

Lemma number_units_in cr gen : forall ps id u, In u (number_units cr gen id ps) ->
  u_gen u = gen /\ id <= u_id u /\ u_id u < id + N.of_nat (length ps).
Proof.
  induction ps as [|[[st ev] tm] r IH]; intros id u Hu; cbn [number_units] in Hu; [contradiction|].
  destruct Hu as [<-|Hu].
  - cbn [mk_unit u_gen u_id length]. lia.
  - destruct (IH _ _ Hu) as [A [B C]]. cbn [length]. lia.
Qed.

Lemma number_units_nodup cr gen : forall ps id, NoDup (map u_id (number_units cr gen id ps)).
Proof.
  induction ps as [|[[st ev] tm] r IH]; intros id; cbn [number_units map]; constructor; [|apply IH].
  intros K. apply in_map_iff in K. destruct K as [u [E Hu]]. destruct (number_units_in _ _ _ _ _ Hu) as [_ [B _]].
  cbn [mk_unit u_id] in E. lia.
Qed.

Lemma number_units_length cr gen : forall ps id, length (number_units cr gen id ps) = length ps.
Proof. induction ps as [|[[st ev] tm] r IH]; intros id; cbn [number_units length]; [reflexivity|rewrite IH; reflexivity]. Qed.

(* [define] in three stages: the function object with its ids ([define_obj]); registered, active and delayed ([define_mid]);
   started, if its context is ([define_nf]) *)
Definition new_func (c : N) (newsys : bool) (s : fspec) (W : world) : func :=
  {| f_gen := w_next W; f_ctx := c; f_new := newsys;
     f_units := number_units (s_crash s) (w_next W) (w_next W + 1) (if newsys then new_protos s else legacy_protos s);
     f_svc := s_svc s; f_pos := s_pos s; f_inline := memn c (w_auto W) |}.

Definition define_obj (c : N) (newsys : bool) (s : fspec) (W : world) : world :=
  {| w_led := w_led W; w_funcs := w_funcs W ++ [new_func c newsys s W]; w_active := w_active W; w_delayed := w_delayed W;
     w_pending := w_pending W; w_zombie := w_zombie W; w_running := w_running W; w_starting := w_starting W;
     w_hdl := w_hdl W; w_auto := w_auto W;
     w_next := w_next W + 1 + N.of_nat (length (f_units (new_func c newsys s W))); w_log := w_log W |}.

Definition define_mid (c : N) (newsys : bool) (s : fspec) (W : world) : world :=
  let Wf := define_obj c newsys s W in
  let Ws := if newsys then Wf else svc_register Wf (new_func c newsys s W) in
  set_delayed (set_active Ws (w_active Ws ++ [w_next W])) (w_delayed Ws ++ [w_next W]).

Lemma define_nf cfg c n s W : define cfg c n s W =
  if negb n && svc_refused (define_obj c n s W) (new_func c n s W) then set_next W (w_next (define_obj c n s W))
  else if memn c (w_auto W) then ctx_start_func cfg (define_mid c n s W) (new_func c n s W) else define_mid c n s W.
Proof. reflexivity. Qed.

(* W' is W after a function has been defined, not yet started.  [df_svc]: a legacy definition with @service registers at once *)
Record defined (c : N) (n : bool) (s : fspec) (W W' : world) : Prop := {
  df_funcs : w_funcs W' = w_funcs W ++ [new_func c n s W];
  df_next : w_next W' = w_next (define_obj c n s W);
  df_active : w_active W' = w_active W ++ [w_next W];
  df_delayed : w_delayed W' = w_delayed W ++ [w_next W];
  df_log : w_log W' = w_log W;
  df_units : same_units W W';
  df_svc : forall g, In g (l_svc (w_led W')) -> In g (l_svc (w_led W)) \/ g = w_next W /\ n = false /\ is_some (s_svc s) = true
}.

Lemma define_mid_spec c n s W : defined c n s W (define_mid c n s W).
Proof.
  constructor; unfold define_mid, svc_register; cbn [new_func f_svc f_gen]; destruct n, (s_svc s); try reflexivity; auto;
    try (constructor; reflexivity).
  intros g Hg. apply In_addn in Hg. destruct Hg; auto.
Qed.

Lemma ids_ok_add W W' f : ids_ok W -> w_funcs W' = w_funcs W ++ [f] -> f_gen f = w_next W -> w_next W < w_next W' ->
  (forall u, In u (f_units f) -> u_gen u = f_gen f /\ f_gen f < u_id u /\ u_id u < w_next W') ->
  NoDup (map u_id (f_units f)) -> ids_ok W'.
Proof.
  intros I EF EG NX HU UQ. pose proof (io_next W I) as P0.
  assert (OG : forall f', In f' (w_funcs W) -> 0 < f_gen f' < w_next W) by apply (io_gen W I).
  assert (OU : forall f' u', owns W f' u' -> u_id u' < w_next W) by (intros f' u' O; apply (io_unit W I f' u' O)).
  assert (FC : forall f', In f' (w_funcs W') -> In f' (w_funcs W) \/ f' = f).
  { intros f' H. rewrite EF in H. apply in_app_or in H. destruct H as [H|[<-|[]]]; auto. }
  constructor.
  - lia.
  - intros f' H. destruct (FC f' H) as [H'| ->]; [destruct (OG f' H')|]; lia.
  - intros f' u' [H Hu]. destruct (FC f' H) as [H'| ->]; [|exact (HU u' Hu)].
    destruct (io_unit W I f' u' (conj H' Hu)) as [A [B C]]. repeat split; [exact A|exact B|lia].
  - intros f1 u1 f2 u2 [H1 U1] [H2 U2] E. destruct (FC f1 H1) as [K1| ->], (FC f2 H2) as [K2| ->].
    + exact (io_uniq W I f1 u1 f2 u2 (conj K1 U1) (conj K2 U2) E).
    + pose proof (OU f1 u1 (conj K1 U1)). destruct (HU u2 U2) as [_ [B _]]. lia.
    + pose proof (OU f2 u2 (conj K2 U2)). destruct (HU u1 U1) as [_ [B _]]. lia.
    + split; [reflexivity|exact (NoDup_map_inj u_id _ u1 u2 UQ U1 U2 E)].
  - intros f1 f2 H1 H2 E. destruct (FC f1 H1) as [K1| ->], (FC f2 H2) as [K2| ->].
    + exact (io_guniq W I f1 f2 K1 K2 E).
    + destruct (OG f1 K1). lia.
    + destruct (OG f2 K2). lia.
    + reflexivity.
Qed.

Lemma define_mid_inv c n s W : Inv W -> Inv (define_mid c n s W).
Proof.
  intros HI. pose proof HI as [I [S L]]. destruct (define_mid_spec c n s W) as [EF EN EA ED _ SU SV].
  set (f := new_func c n s W) in *. set (W1 := define_mid c n s W) in *. set (gen := w_next W) in *.
  assert (NG : forall f', In f' (w_funcs W) -> f_gen f' <> gen) by (intros f' H; destruct (io_gen W I f' H); lia).
  cbn [define_obj w_next new_func f_units] in EN. rewrite number_units_length in EN. fold gen in EN.
  apply (Inv_status W W1 HI).
  - (* ids_ok: the new ids lie between the old counter and the new one *)
    apply (ids_ok_add W W1 f I EF eq_refl); fold gen; [lia| |exact (number_units_nodup _ _ _ _)].
    intros u Hu. destruct (number_units_in _ _ _ _ _ Hu) as [A [B C]]. fold gen in A, B, C. cbn [f new_func f_gen]. fold gen. lia.
  - rewrite EF. apply incl_appl, incl_refl.
  - exact SU.
  - (* keeps_busy: the generation added to both lists is no old one *)
    intros f' u' [Hf' _] _ A D. rewrite EA, ED, !in_app_iff. cbn [In]. pose proof (NG f' Hf') as NE.
    split; [left; exact A|]. intros [C|[C|[]]]; [exact (D C)|exact (NE (eq_sym C))].
  - (* so_act *) intros g Hg. rewrite EA in Hg. apply in_app_or in Hg. destruct Hg as [Hg|[<-|[]]]; [|exists f; rewrite EF; auto using in_elt].
    destruct (so_act W S g Hg) as [f' [Hf' E']]. exists f'. rewrite EF. auto using in_or_app.
  - (* ok_svc *) intros g Hg. unfold svc_held. rewrite EA, ED, EF. destruct (SV g Hg) as [Hg'|[-> [NS SS]]].
    + destruct (ok_svc W L g Hg') as [A [f' [Hf' [E' [SV' ND']]]]]. split; [apply in_or_app; auto|].
      exists f'. split; [apply in_or_app; auto|]. repeat split; auto. intros NF C. apply in_app_or in C.
      destruct C as [C|[C|[]]]; [exact (ND' NF C)|]. apply (NG f' Hf'). congruence.
    + split; [apply in_elt|]. exists f. split; [apply in_elt|]. repeat split; auto. cbn [f new_func f_new]. congruence.
Qed.

Lemma settle_reap_empty W : l_reap (w_led (settle W)) = [].
Proof. reflexivity. Qed.
