(* C07, the guard pipeline.  With the switches off, one step of either subsystem is one step of the Spec ([sp_step]): the
   legacy one on the same "last accepted run", the default one under [nw_inv], which ties
   TimeActiveDecorator.last_trig_time to it ([pipeline]).  Then: direct calls, the Spec's verdicts position by position, a
   witness per deviation (D15, D70, D71, D72), the bridge to the case checker.  [lia] here reads boolean comparisons
   ([ZifyBool]). *)
From PV Require Import Common.Util Gen.GuardConsts Time.Windows Trig.Guards Trig.GuardsCheck Proofs.TimeWindows.
From Coq Require Import Lia ZifyBool.

Local Open Scope Z_scope.

Lemma consts_hold : lg_hold_cmp = CmpLt /\ nw_hold_cmp = CmpLt.
Proof. split; reflexivity. Qed.

Lemma env_get_al e k : env_get e k = al_get N.eqb k e.
Proof. induction e as [|[k' v] r IH]; cbn [env_get al_get]; [|rewrite IH]; reflexivity. Qed.

Lemma env_get_app a b k :
  env_get (a ++ b) k = match env_get a k with Some v => Some v | None => env_get b k end.
Proof. rewrite !env_get_al. apply al_get_app. Qed.

Lemma sa_eval_ext e v1 v2 cur : (forall k, lookup v1 cur k = lookup v2 cur k) -> sa_eval e v1 cur = sa_eval e v2 cur.
Proof.
  intros H. induction e as [b|k v|a IHa|a IHa b IHb|a IHa b IHb]; cbn [sa_eval].
  - reflexivity.
  - rewrite H. reflexivity.
  - rewrite IHa. reflexivity.
  - rewrite IHa, IHb. reflexivity.
  - rewrite IHa, IHb. reflexivity.
Qed.

Lemma lookup_snoc acc cur k a x :
  x = opt_join (env_get cur a) -> lookup (acc ++ [(a, x)]) cur k = lookup acc cur k.
Proof.
  intros Ex. unfold lookup. rewrite env_get_app. destruct (env_get acc k); [reflexivity|].
  cbn [env_get]. destruct (N.eqb_spec k a) as [->|_]; [|reflexivity]. exact Ex.
Qed.

Lemma notify_var_get_lookup names last cur :
  (forall k v, env_get last k = Some v -> opt_join (env_get cur k) = v) ->
  forall acc k, lookup (notify_var_get names last cur acc) cur k = lookup acc cur k.
Proof.
  intros Hlast. induction names as [|a r IH]; intros acc k; cbn [notify_var_get]; [reflexivity|].
  destruct (env_get acc a); [apply IH|].
  destruct (env_get last a) as [v|] eqn:El.
  - rewrite IH. apply lookup_snoc. symmetry. apply Hlast. assumption.
  - destruct (opt_join (env_get cur a)) eqn:Ec; [apply IH|].
    rewrite IH. apply lookup_snoc. symmetry. assumption.
Qed.

(* @state_active: notify_var_get + name resolution = "triggering values, else current state" *)
Lemma sa_check_off cfg e tbl o : d_stale_active_vars cfg = false -> occ_ok o ->
  sa_check cfg e tbl o = (state_active_spec e o, notify_var_get (sa_names e) (o_last o) (o_cur o) (o_trig o)).
Proof.
  intros Hc Ho. unfold sa_check, state_active_spec. rewrite Hc. f_equal.
  apply sa_eval_ext. intros k. apply notify_var_get_lookup. exact Ho.
Qed.

(* the three conditions of [sp_step], named so that the lemmas on the handlers can speak of one at a time *)
Definition sa_ok (g : guards) (o : occ) : bool := match g_sa g with Some e => state_active_spec e o | None => true end.
Definition ta_ok (g : guards) (st : Z) (sun : suntab) (o : occ) : bool :=
  match g_ta g with Some specs => active_spec_b specs st sun (o_wall o) | None => true end.
Definition too_soon (g : guards) (sp : option Z) (o : occ) : bool :=
  match hold_of g, sp with Some n, Some l => o_mono o - l <? n | _, _ => false end.

Lemma sp_step_eq g st sun sp o : sp_step g st sun sp o =
  if is_direct o then (true, sp)
  else if sa_ok g o && ta_ok g st sun o && negb (too_soon g sp o) then (true, Some (o_mono o)) else (false, sp).
Proof. reflexivity. Qed.

Lemma hold_cmp_lt (m l n : Z) : (m <? l + n) = (m - l <? n).
Proof. lia. Qed.

(* legacy: one step of trigger_watch *)
Lemma lg_core_spec cfg g st sun last tbl o : d_stale_active_vars cfg = false -> occ_ok o ->
  exists tbl', lg_core cfg g st sun (last, tbl) o = (fst (sp_step g st sun last o), (snd (sp_step g st sun last o), tbl')).
Proof.
  intros H71 Ho. destruct consts_hold as [Hl _].
  rewrite sp_step_eq. unfold lg_core. destruct (is_direct o); [eexists; reflexivity|].
  assert (fst (match g_sa g with Some e => sa_check cfg e tbl o | None => (true, tbl) end) = sa_ok g o) as Hsa
    by (unfold sa_ok; destruct (g_sa g); [rewrite sa_check_off by assumption|]; reflexivity).
  assert (match g_ta g with Some ((_ :: _) as specs) => active_check specs st sun (o_wall o) | _ => true end = ta_ok g st sun o)
    as Hta by (unfold ta_ok; destruct (g_ta g) as [[|s r]|]; cbv beta iota; [reflexivity|apply active_check_spec|reflexivity]).
  rewrite Hta. destruct (match g_sa g with Some e => sa_check cfg e tbl o | None => (true, tbl) end) as [ok1 tbl'].
  cbn [fst] in Hsa. rewrite <- Hsa. unfold too_soon. exists tbl'.
  destruct ok1, (ta_ok g st sun o); cbn [andb negb fst snd]; try reflexivity.
  destruct (hold_of g) as [n|], last as [l|]; try reflexivity.
  rewrite Hl. cbn [cmpZ]. rewrite hold_cmp_lt. destruct (o_mono o - l <? n); reflexivity.
Qed.

(* the TrigInfo plumbing: without D72 the function-wide reference is what counts *)
Lemma lg_step_spec cfg g st sun glast plast tbls o :
  d_stale_active_vars cfg = false -> d_hold_per_trigger cfg = false -> occ_ok o ->
  exists plast' tbls', lg_step cfg g st sun (glast, plast, tbls) o =
                       (fst (sp_step g st sun glast o), (snd (sp_step g st sun glast o), plast', tbls')).
Proof.
  intros H71 H72 Ho. unfold lg_step. destruct (is_direct o) eqn:Ed.
  - unfold sp_step. rewrite Ed. eauto.
  - rewrite H72. destruct (lg_core_spec cfg g st sun glast (match aget tbls (o_grp o) with Some t => t | None => [] end) o H71 Ho)
      as (tbl' & ->). eauto.
Qed.

Lemma legacy_run cfg g st sun : d_stale_active_vars cfg = false -> d_hold_per_trigger cfg = false ->
  forall occs glast plast tbls, Forall occ_ok occs ->
  run (lg_step cfg g st sun) (glast, plast, tbls) occs = run (sp_step g st sun) glast occs.
Proof.
  intros H71 H72. induction occs as [|o r IH]; intros glast plast tbls Hok; cbn [run]; [reflexivity|].
  inversion Hok as [|? ? Ho Hr]; subst.
  destruct (lg_step_spec cfg g st sun glast plast tbls o H71 H72 Ho) as (plast' & tbls' & ->).
  destruct (sp_step g st sun glast o) as [b l2]. cbn [fst snd]. f_equal. apply IH. assumption.
Qed.

(* what the dispatches keep true of the Spec's "last accepted run" [sp] and TimeActiveDecorator.last_trig_time [last] when the
   monotonic clock has reached [lo].  The decorator writes "never ran" as last_trig_time = 0.0 and asks [0 <? last], so a
   recorded instant must be positive: hence [0 < lo], [0 < l] and the theorems' [nondecr 1].  Without @time_active nobody
   writes or reads [last]: the first disjunct. *)
Definition nw_inv (g : guards) (lo : Z) (sp : option Z) (last : Z) : Prop :=
  0 < lo /\ (forall l, sp = Some l -> 0 < l <= lo) /\ (g_ta g = None \/ last = match sp with Some l => l | None => 0 end).

Lemma nw_inv_mono g lo lo' sp last : lo <= lo' -> nw_inv g lo sp last -> nw_inv g lo' sp last.
Proof. intros L (H0 & Hl & Hta). split; [lia|]. split; [intros l E; specialize (Hl l E); lia|exact Hta]. Qed.

(* an accepted occurrence at [m]: both sides record [m], the decorator only if it exists *)
Lemma nw_inv_accept g m last : 0 < m -> nw_inv g m (Some m) (match g_ta g with Some _ => m | None => last end).
Proof. intros H. split; [exact H|]. split; [intros l [= <-]; lia|]. destruct (g_ta g); [right|left]; reflexivity. Qed.

(* TimeActiveDecorator's own hold_off test *)
Definition held_b (hold : option Z) (last mono : Z) : bool :=
  match hold with Some n => (0 <? last) && (0 <? n) && (mono - last <? n) | None => false end.

(* a hold_off of zero or less holds nothing back on either side *)
Lemma held_eq g sp last o : nw_inv g (o_mono o) sp last -> held_b (hold_of g) last (o_mono o) = too_soon g sp o.
Proof.
  intros (_ & Hl & Hta). unfold too_soon, hold_of, held_b. destruct (g_ta g) as [specs|]; [|reflexivity].
  destruct Hta as [Hta| ->]; [discriminate|]. destruct (g_hold g) as [n|]; [|reflexivity].
  destruct sp as [l|]; [specialize (Hl l eq_refl)|]; lia.
Qed.

Lemma handle_ta cfg st sun o : d_time_active_per_arg cfg = false -> forall specs hold last tbl,
  let ok := negb (held_b hold last (o_mono o)) && active_spec_b specs st sun (o_wall o) in
  handle cfg st sun o (HTa specs hold) (last, tbl) = (ok, (if ok then o_mono o else last, tbl)).
Proof.
  intros H specs hold last tbl. destruct consts_hold as [_ Hn]. cbn [handle]. unfold ta_handle, held_b. rewrite H, Hn. cbn [cmpZ].
  destruct (match hold with Some n => _ | None => _ end); [reflexivity|].
  destruct specs as [|s r]; [reflexivity|]. rewrite active_check_spec. destruct (active_spec_b _ _ _ _); reflexivity.
Qed.

(* the decorator stack, in either order *)
Lemma dispatch_off cfg g st sun o last tbl : d_time_active_per_arg cfg = false -> d_stale_active_vars cfg = false -> occ_ok o ->
  let ok := sa_ok g o && ta_ok g st sun o && negb (held_b (hold_of g) last (o_mono o)) in
  exists last' tbl', dispatch_fold cfg st sun o (handlers_of g) (last, tbl) = (ok, (last', tbl')) /\
                     (ok = true -> last' = match g_ta g with Some _ => o_mono o | None => last end).
Proof.
  intros H15 H71 Ho. unfold handlers_of, sa_ok, ta_ok, hold_of.
  pose proof (handle_ta cfg st sun o H15) as HT. pose proof (fun e tbl => sa_check_off cfg e tbl o H71 Ho) as HS. cbv zeta in HT.
  destruct (g_sa g) as [e|], (g_ta g) as [specs|].
  - destruct (g_ta_first g); cbn [app dispatch_fold];
      [rewrite HT; cbn [handle]; rewrite HS
      |cbn [handle]; rewrite HS; cbv beta iota; rewrite HT];
      destruct (state_active_spec e o), (active_spec_b _ _ _ _), (held_b _ _ _); do 2 eexists; (split; [reflexivity|easy]).
  - destruct (g_ta_first g); cbn [app dispatch_fold handle]; rewrite HS;
      destruct (state_active_spec e o); do 2 eexists; (split; [reflexivity|easy]).
  - destruct (g_ta_first g); cbn [app dispatch_fold]; rewrite HT;
      destruct (active_spec_b _ _ _ _), (held_b _ _ _); do 2 eexists; (split; [reflexivity|easy]).
  - destruct (g_ta_first g); do 2 eexists; split; reflexivity.
Qed.

Lemma nw_step_spec cfg g st sun sp last tbl o :
  d_time_active_per_arg cfg = false -> d_hold_early_update cfg = false -> d_stale_active_vars cfg = false ->
  occ_ok o -> nw_inv g (o_mono o) sp last ->
  exists last' tbl', nw_step cfg g st sun (last, tbl) o = (fst (sp_step g st sun sp o), (last', tbl')) /\
                     nw_inv g (o_mono o) (snd (sp_step g st sun sp o)) last'.
Proof.
  intros H15 H70 H71 Ho Inv. pose proof (dispatch_off cfg g st sun o last tbl H15 H71 Ho) as DO. clear H15 H71.
  rewrite sp_step_eq. unfold nw_step. destruct (is_direct o); [eauto|].
  destruct DO as (last' & tbl' & -> & E). cbv zeta in E.
  rewrite (held_eq g sp last o Inv) in *.
  rewrite H70. destruct (sa_ok g o && ta_ok g st sun o && negb (too_soon g sp o)); cbn [fst snd]; [|eauto].
  exists last', tbl'. split; [reflexivity|]. rewrite (E eq_refl). apply nw_inv_accept, (proj1 Inv).
Qed.

Lemma new_run cfg g st sun :
  d_time_active_per_arg cfg = false -> d_hold_early_update cfg = false -> d_stale_active_vars cfg = false ->
  forall occs lo sp last tbl, nondecr lo occs -> nw_inv g lo sp last -> Forall occ_ok occs ->
  run (nw_step cfg g st sun) (last, tbl) occs = run (sp_step g st sun) sp occs.
Proof.
  intros H15 H70 H71. induction occs as [|o r IH]; intros lo sp last tbl Hnd Inv Hok; cbn [run]; [reflexivity|].
  inversion Hok as [|? ? Ho Hr]; subst. destruct Hnd as [Hm Hnd].
  destruct (nw_step_spec cfg g st sun sp last tbl o H15 H70 H71 Ho (nw_inv_mono g lo _ sp last Hm Inv)) as (last' & tbl' & -> & Inv').
  destruct (sp_step g st sun sp o) as [b sp']. cbn [fst snd] in *. f_equal. apply (IH (o_mono o)); assumption.
Qed.

Theorem pipeline_legacy cfg g st sun occs : all_off cfg -> Forall occ_ok occs ->
  accepted_legacy cfg g st sun occs = accepted_spec g st sun occs.
Proof. intros (_ & _ & H71 & H72) Hok. apply legacy_run; assumption. Qed.

Theorem pipeline_new cfg g st sun occs : all_off cfg -> Forall occ_ok occs -> nondecr 1 occs ->
  accepted_new cfg g st sun occs = accepted_spec g st sun occs.
Proof.
  intros (H15 & H70 & H71 & _) Hok Hnd. apply (new_run cfg g st sun H15 H70 H71 occs 1); try assumption.
  split; [lia|]. split; [discriminate|right; reflexivity].
Qed.

(* neither half reads [hold_nonneg] ([held_eq]) *)
Theorem pipeline cfg legacy g st sun occs : all_off cfg -> Forall occ_ok occs -> nondecr 1 occs -> hold_nonneg g ->
  accepted_model legacy cfg g st sun occs = accepted_spec g st sun occs.
Proof.
  intros. destruct legacy; cbn [accepted_model]; [apply pipeline_legacy|apply pipeline_new]; assumption.
Qed.

(* [mk_occ kind grp mono wall trig last x y]: [last] is State.notify_var_last, [x] and [y] the current values of entities 0 and 1 *)
Definition ex_occ (k : okind) (mono wall : Z) (y : option N) : occ := mk_occ k 0 mono wall [] [(1%N, y)] None y.
Example pipeline_hyps_inhabited :
  let occs := [ex_occ KEvent 1048576 1709553601000000 (Some 0%N); ex_occ KState 2097152 1709553602000000 (Some 1%N)] in
  let g := mk_guards (Some (SEq 1 1)) (Some [(false, daily 0 (DAY - 1))]) (Some 1048576) true in
  Forall occ_ok occs /\ nondecr 1 occs /\ hold_nonneg g /\ all_off cfg_off /\
  accepted_spec g 0 [] occs = [false; true].
Proof.
  cbv zeta. split; [|split; [|split; [|split]]].
  - (* occ_ok *) apply Forall_cons; [|apply Forall_cons; [|apply Forall_nil]]; intros k v; cbn;
      (destruct (N.eqb_spec k 1) as [->|_]; [|discriminate]); intros E; inversion E; reflexivity.
  - (* nondecr *) cbn; lia.
  - (* hold_nonneg *) intros n E. inversion E. lia.
  - (* all_off *) repeat split.
  - (* the verdicts *) vm_compute. reflexivity.
Qed.

Lemma run_length {S} (step : S -> occ -> bool * S) occs : forall s, length (run step s occs) = length occs.
Proof.
  induction occs as [|o r IH]; intros s; cbn [run]; [reflexivity|].
  destruct (step s o) as [a s']. cbn [length]. rewrite IH. reflexivity.
Qed.

Lemma run_direct {S} (step : S -> occ -> bool * S) :
  (forall s o, is_direct o = true -> step s o = (true, s)) ->
  forall occs s,
    run step s (filter (fun o => negb (is_direct o)) occs) =
    map snd (filter (fun p => negb (is_direct (fst p))) (combine occs (run step s occs))).
Proof.
  intros Hd. induction occs as [|o r IH]; intros s; cbn [run filter combine map]; [reflexivity|].
  destruct (is_direct o) eqn:Ed; cbn [negb].
  - rewrite (Hd s o Ed). cbn [combine filter fst]. rewrite Ed. cbn [negb]. apply IH.
  - cbn [run]. destruct (step s o) as [a s']. cbn [combine filter fst]. rewrite Ed. cbn [negb map snd]. f_equal. apply IH.
Qed.

Lemma run_direct_true {S} (step : S -> occ -> bool * S) :
  (forall s o, is_direct o = true -> step s o = (true, s)) ->
  forall occs s i o, nth_error occs i = Some o -> is_direct o = true -> nth_error (run step s occs) i = Some true.
Proof.
  intros Hd. induction occs as [|o' r IH]; intros s i o Hn Ho; [destruct i; discriminate|].
  cbn [run]. destruct i as [|i]; cbn [nth_error] in *.
  - injection Hn as ->. rewrite (Hd s o Ho). reflexivity.
  - destruct (step s o') as [a s']. cbn [nth_error]. eapply IH; eassumption.
Qed.

Lemma lg_step_direct cfg g st sun s o : is_direct o = true -> lg_step cfg g st sun s o = (true, s).
Proof. intros H. unfold lg_step. rewrite H. reflexivity. Qed.
Lemma nw_step_direct cfg g st sun s o : is_direct o = true -> nw_step cfg g st sun s o = (true, s).
Proof. intros H. unfold nw_step. rewrite H. reflexivity. Qed.

(* for any switches: a direct call always runs, and taking the direct calls out of a history changes no other verdict *)
Theorem direct_calls legacy cfg g st sun occs :
  (forall i o, nth_error occs i = Some o -> is_direct o = true ->
               nth_error (accepted_model legacy cfg g st sun occs) i = Some true) /\
  accepted_model legacy cfg g st sun (filter (fun o => negb (is_direct o)) occs) =
  map snd (filter (fun p => negb (is_direct (fst p))) (combine occs (accepted_model legacy cfg g st sun occs))) /\
  length (accepted_model legacy cfg g st sun occs) = length occs.
Proof.
  destruct legacy; cbn [accepted_model]; unfold accepted_legacy, accepted_new; repeat split.
  - intros i o. apply run_direct_true. intros s o'. apply lg_step_direct.
  - apply run_direct. intros s o'. apply lg_step_direct.
  - apply run_length.
  - intros i o. apply run_direct_true. intros s o'. apply nw_step_direct.
  - apply run_direct. intros s o'. apply nw_step_direct.
  - apply run_length.
Qed.

Lemma sp_step_verdict g st sun sp o :
  sp_step g st sun sp o =
  (verdict_spec g st sun sp o, if verdict_spec g st sun sp o && negb (is_direct o) then Some (o_mono o) else sp).
Proof.
  unfold sp_step, verdict_spec. destruct (is_direct o); [reflexivity|]. cbn [orb negb].
  destruct (guards_spec g st sun o); cbn [andb]; [|reflexivity].
  destruct (hold_of g) as [n|], sp as [l|]; cbn [negb andb]; try reflexivity.
  destruct (o_mono o - l <? n); reflexivity.
Qed.

Lemma spec_run_meaning g st sun : forall occs sp i o, nth_error occs i = Some o ->
  nth_error (run (sp_step g st sun) sp occs) i =
  Some (verdict_spec g st sun (last_from sp (firstn i occs) (firstn i (run (sp_step g st sun) sp occs))) o).
Proof.
  induction occs as [|o' r IH]; intros sp i o Hn; [destruct i; discriminate|].
  cbn [run]. rewrite sp_step_verdict. destruct i as [|i]; cbn [nth_error firstn last_from] in *.
  - injection Hn as ->. reflexivity.
  - apply IH. assumption.
Qed.

(* every verdict of the Spec is: a direct call, or all guards true and not less than hold_off after the last accepted run *)
Theorem spec_meaning g st sun occs i o : nth_error occs i = Some o ->
  nth_error (accepted_spec g st sun occs) i =
  Some (verdict_spec g st sun (last_accepted (firstn i occs) (firstn i (accepted_spec g st sun occs))) o).
Proof. apply spec_run_meaning. Qed.

Definition only_D15 : deviations := {| d_time_active_per_arg := true; d_hold_early_update := false; d_stale_active_vars := false; d_hold_per_trigger := false |}.
Definition only_D70 : deviations := {| d_time_active_per_arg := false; d_hold_early_update := true; d_stale_active_vars := false; d_hold_per_trigger := false |}.
Definition only_D71 : deviations := {| d_time_active_per_arg := false; d_hold_early_update := false; d_stale_active_vars := true; d_hold_per_trigger := false |}.
Definition only_D72 : deviations :=
  {| d_time_active_per_arg := false; d_hold_early_update := false; d_stale_active_vars := false; d_hold_per_trigger := true |}.

(* D15: @time_active("range(10:00, 13:00)", "not range(11:30, 12:30)"), an event at 12:00:00 on 2024-03-04 *)
Definition w15_guards : guards :=
  mk_guards None (Some [(false, daily (hms 10 0 0) (hms 13 0 0)); (true, daily (hms 11 30 0) (hms 12 30 0))]) None true.
Definition w15_occs : list occ := [mk_occ KEvent 0 10485760 (D0 + hms 12 0 0) [] [] None None].
Lemma refuted_D15 : exists g st sun occs, Forall occ_ok occs /\ nondecr 1 occs /\ hold_nonneg g /\
  accepted_new only_D15 g st sun occs <> accepted_spec g st sun occs.
Proof.
  exists w15_guards, 0, [], w15_occs. split; [|split; [|split]].
  - repeat constructor. intros k v E. discriminate.
  - cbn; lia.
  - intros n E. discriminate.
  - vm_compute. discriminate.
Qed.

(* D70: @time_active(hold_off=5) above @state_active("pyscript.y == '1'"); y is '0' at t=1 s, '1' at t=2 s *)
Definition w70_guards : guards := mk_guards (Some (SEq 1 1)) (Some []) (Some 5242880) true.
Definition w70_occs : list occ :=
  [mk_occ KEvent 0 1048576 (D0 + hms 12 0 1) [] [] None (Some 0%N); mk_occ KEvent 0 2097152 (D0 + hms 12 0 2) [] [] None (Some 1%N)].
Lemma refuted_D70 : exists g st sun occs, Forall occ_ok occs /\ nondecr 1 occs /\ hold_nonneg g /\
  accepted_new only_D70 g st sun occs <> accepted_spec g st sun occs.
Proof.
  exists w70_guards, 0, [], w70_occs. split; [|split; [|split]].
  - repeat constructor; intros k v E; discriminate.
  - cbn; lia.
  - intros n E. inversion E. lia.
  - vm_compute. discriminate.
Qed.

(* D71: @state_active("not (pyscript.y == '1')"); y does not exist at the first occurrence and is '1' at the second *)
Definition w71_guards : guards := mk_guards (Some (SNot (SEq 1 1))) None None false.
Definition w71_occs : list occ :=
  [mk_occ KEvent 0 1048576 (D0 + hms 12 0 1) [] [] None None; mk_occ KEvent 0 3145728 (D0 + hms 12 0 3) [] [] None (Some 1%N)].
Lemma refuted_D71 : exists g st sun occs, Forall occ_ok occs /\ nondecr 1 occs /\ hold_nonneg g /\
  accepted_legacy only_D71 g st sun occs <> accepted_spec g st sun occs /\
  accepted_new only_D71 g st sun occs <> accepted_spec g st sun occs.
Proof.
  exists w71_guards, 0, [], w71_occs. split; [|split; [|split; [|split]]].
  - repeat constructor; intros k v E; discriminate.
  - cbn; lia.
  - intros n E. discriminate.
  - vm_compute. discriminate.
  - vm_compute. discriminate.
Qed.

(* D72 (legacy): @time_active(hold_off=5) with two @event_trigger decorators; the second trigger occurs 1 s after an
   accepted occurrence of the first *)
Definition w72_guards : guards := mk_guards None (Some []) (Some 5242880) true.
Definition w72_occs : list occ :=
  [mk_occ KEvent 0 1048576 (D0 + hms 12 0 1) [] [] None None; mk_occ KEvent 1 2097152 (D0 + hms 12 0 2) [] [] None None].
Lemma refuted_D72 : exists g st sun occs, Forall occ_ok occs /\ nondecr 1 occs /\ hold_nonneg g /\
  accepted_legacy only_D72 g st sun occs <> accepted_spec g st sun occs.
Proof.
  exists w72_guards, 0, [], w72_occs. split; [|split; [|split]].
  - repeat constructor; intros k v E; discriminate.
  - cbn; lia.
  - intros n E. inversion E. lia.
  - vm_compute. discriminate.
Qed.

Definition gcase_wf (c : gcase) : Prop :=
  Forall occ_ok (gc_occs c) /\ nondecr 1 (gc_occs c) /\ hold_nonneg (gc_guards c).

(* a case the conformant Model reproduces satisfies the Spec *)
Theorem gcase_model_implies_spec cfg c : all_off cfg -> gcase_wf c -> gcase_model_ok cfg c = true -> gcase_spec_ok c = true.
Proof.
  intros Hc (H1 & H2 & H3) Hm. unfold gcase_model_ok, gcase_model in Hm. unfold gcase_spec_ok, gcase_spec.
  rewrite pipeline in Hm by assumption.
  apply andb_true_iff in Hm. destruct Hm as [Hm _]. exact Hm.
Qed.

Theorem mcase_model_implies_spec cfg (m : mcase) : all_off cfg -> Forall gcase_wf m ->
  mcase_model_ok cfg m = true -> mcase_spec_ok m = true.
Proof.
  intros Hc Hwf Hm. unfold mcase_model_ok, mcase_spec_ok in *. rewrite forallb_forall in *.
  rewrite Forall_forall in Hwf. intros c Hin. apply (gcase_model_implies_spec cfg); auto.
Qed.
