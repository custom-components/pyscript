(* Section ExecInv: executing files preserves every property of (context table, load events) that survives "discard the
   context of that name, record the load event" and "enter the new context" ([mod_ok], [auto_ok]), whether or not the
   execution succeeds; LifeReloadThms instantiates it.  Here it gives [reload_untouched]: what a reload neither discards
   nor loads stays in the table as the same object, at most with its triggers armed. *)
From PV Require Import Common.Util Life.ReloadBase Gen.ReloadConsts Life.Modules Life.Reload Life.ReloadPlanSpec
  Proofs.LifeReloadBase.

Lemma find_loaded_Some st cs n : find_loaded st cs = Some n ->
  exists c cnd, In c st /\ c_ismod c = true /\ In cnd cs /\ cd_name cnd = c_name c /\ n = c_name c.
Proof.
  induction cs as [|x cs IH]; cbn [find_loaded]; [discriminate|].
  assert (Hrest : find_loaded st cs = Some n ->
            exists c cnd, In c st /\ c_ismod c = true /\ In cnd (x :: cs) /\ cd_name cnd = c_name c /\ n = c_name c).
  { intros H. destruct (IH H) as (c & cnd & A & B & C & D). exists c, cnd. cbn. auto. }
  destruct (st_get st (cd_name x)) as [y|] eqn:G; [|exact Hrest]. destruct (c_ismod y) eqn:My; [|exact Hrest].
  intros [= <-]. apply st_get_Some in G. destruct G as [Hy Ey]. exists y, x. cbn. auto.
Qed.

Lemma find_loaded_None st cs : uniq_ctx st -> find_loaded st cs = None ->
  forall cnd c, In cnd cs -> In c st -> c_name c = cd_name cnd -> c_ismod c = false.
Proof.
  intros Hu. induction cs as [|x cs IH]; cbn [find_loaded]; intros H cnd c Hcnd Hc En; [destruct Hcnd|].
  destruct Hcnd as [->|Hcnd].
  - rewrite <- En, (uniq_get st c Hu Hc) in H. destruct (c_ismod c); [discriminate|reflexivity].
  - destruct (st_get st (cd_name x)) as [y|]; [destruct (c_ismod y); [discriminate|]|]; eapply IH; eassumption.
Qed.

Lemma find_file_In t cs c f : find_file t cs = Some (c, f) -> In c cs /\ tree_get t (cd_path c) = Some f.
Proof.
  induction cs as [|x cs IH]; cbn [find_file]; [discriminate|].
  destruct (tree_get t (cd_path x)) as [g|] eqn:G.
  - intros H; inversion H; subst. cbn; auto.
  - intros H. destruct (IH H). cbn; auto.
Qed.

(* the contexts that load_module and load_one enter (their record literals) *)
Definition mod_ctx (born : N) (started : bool) (cnd : cand) (f : file) (imps : list cname) : gctx :=
  {| c_name := cd_name cnd; c_gen := f_gen f; c_mtime := f_mtime f; c_cfg := None; c_imports := imps; c_ismod := true;
     c_rel := cd_rel cnd; c_born := born; c_started := started; c_cnt := 0 |}.
Definition auto_ctx (born : N) (s : sfile) (imps : list cname) : gctx :=
  {| c_name := sf_name s; c_gen := sf_gen s; c_mtime := sf_mtime s; c_cfg := sf_cfg s; c_imports := imps; c_ismod := false;
     c_rel := sf_rel s; c_born := born; c_started := false; c_cnt := 0 |}.

(* what imports_loop knows of a module file it loads.  Weaker than [find_file t cs = Some (cnd, f)] (the first existing
   file): no instance needs more. *)
Definition imported (dv : deviations) (t : tree) (cnd : cand) (f : file) (st : state) : Prop :=
  exists sn sr i cs, candidates dv sn sr i = Some cs /\ In cnd cs /\ find_loaded st cs = None
                     /\ tree_get t (cd_path cnd) = Some f.

Section ExecInv.
  Variables (dv : deviations) (t : tree) (born : N).
  Variable Inv : state -> list event -> Prop.
  Definition mod_ok (cnd : cand) (f : file) : Prop := forall st ev, imported dv t cnd f st -> Inv st ev ->
      Inv (st_del st (cd_name cnd)) (ev ++ [(cd_name cnd, f_gen f)])
      /\ forall started st2 ev2 imps, Inv st2 ev2 -> Inv (st_set st2 (mod_ctx born started cnd f imps)) ev2.
  Hypothesis Imod : forall cnd f, mod_ok cnd f.

  Definition xres_inv (r : xres) : Prop :=
    match r with XOk st ev _ | XFail st ev => Inv st ev | XFuel => True end.

  Lemma imports_loop_inv load sn sr :
    (forall cnd f st ev, imported dv t cnd f st -> Inv st ev -> xres_inv (load cnd f st ev)) ->
    forall imps st ev acc, Inv st ev -> xres_inv (imports_loop load dv t sn sr imps st ev acc).
  Proof.
    intros Hload. induction imps as [|i rest IH]; intros st ev acc H; cbn [imports_loop]; [exact H|].
    destruct (candidates dv sn sr i) as [cs|] eqn:Ec; [|exact H].
    destruct (find_loaded st cs) as [n|] eqn:El; [apply IH; exact H|].
    destruct (find_file t cs) as [[cnd f]|] eqn:Ef; [|exact H].
    destruct (find_file_In _ _ _ _ Ef) as [Hcnd Hf].
    assert (Hg : xres_inv (load cnd f st ev)) by (apply Hload; [exists sn, sr, i, cs; auto|exact H]).
    destruct (load cnd f st ev); cbn in Hg |- *; [apply IH; exact Hg|exact Hg|exact I].
  Qed.

  Lemma load_module_inv started : forall fuel cnd f st ev, imported dv t cnd f st -> Inv st ev ->
    xres_inv (load_module fuel dv t born started cnd f st ev).
  Proof.
    induction fuel as [|fuel IH]; intros cnd f st ev Hi H; cbn [load_module]; [exact I|].
    destruct (Imod cnd f st ev Hi H) as [Hopen Hclose].
    pose proof (imports_loop_inv _ (cd_name cnd) (cd_rel cnd) (IH) (f_imps f) _ _ [] Hopen) as Hloop.
    destruct (imports_loop _ dv t (cd_name cnd) (cd_rel cnd) (f_imps f) _ _ []); cbn in Hloop |- *;
      [apply Hclose; exact Hloop|exact Hloop|exact I].
  Qed.

  Lemma exec_body_inv fuel started sn sr imps st ev : Inv st ev ->
    xres_inv (exec_body fuel dv t born started sn sr imps st ev).
  Proof. apply imports_loop_inv. intros. apply load_module_inv; assumption. Qed.

  Definition auto_ok (s : sfile) : Prop := forall st ev, Inv st ev ->
    Inv (st_del st (sf_name s)) (ev ++ [(sf_name s, sf_gen s)])
    /\ forall st2 ev2 imps, Inv st2 ev2 -> Inv (st_set st2 (auto_ctx born s imps)) ev2.

  Lemma load_one_inv w s : Inv (st_del (w_st w) (sf_name s)) (w_ev w ++ [(sf_name s, sf_gen s)]) ->
    (forall st2 ev2 imps, Inv st2 ev2 -> Inv (st_set st2 (auto_ctx born s imps)) ev2) ->
    Inv (w_st (load_one dv t born w s)) (w_ev (load_one dv t born w s)).
  Proof.
    intros Hopen Hclose. unfold load_one.
    pose proof (exec_body_inv (exec_fuel t) false (sf_name s) (sf_rel s) (sf_imps s) _ _ Hopen) as Hx.
    destruct (exec_body _ dv t born false (sf_name s) (sf_rel s) (sf_imps s) _ _); cbn in Hx |- *;
      [apply Hclose; exact Hx|exact Hx|exact Hopen].
  Qed.

  Lemma load_fold_inv L : (forall s, In s L -> auto_ok s) -> forall w, Inv (w_st w) (w_ev w) ->
    let w' := fold_left (load_one dv t born) L w in Inv (w_st w') (w_ev w').
  Proof.
    intros HL. apply (fold_left_inv (fun w => Inv (w_st w) (w_ev w))).
    intros w s Hs H. destruct (HL s Hs _ _ H). apply load_one_inv; assumption.
  Qed.

  Lemma reload_inv st k a : let pl := plan dv st (discover t k) a in
    Inv (delete_phase st (p_del pl)) [] -> (forall s, In s (load_list (p_files pl)) -> auto_ok s) ->
    exists st1, r_st (reload dv born st t k a) = start_phase dv a st1 /\ Inv st1 (r_ev (reload dv born st t k a)).
  Proof.
    intros pl H0 HL. unfold reload. fold pl. destruct (p_ok pl) eqn:Eok; cbn [negb r_st r_ev].
    - eexists. split; [reflexivity|]. apply (load_fold_inv _ HL {| w_st := _; w_ev := [] |} H0).
    - exists st. split; [reflexivity|]. destruct (plan_not_ok _ _ _ _ Eok) as [Ed _]. fold pl in Ed.
      rewrite Ed in H0. exact H0.
  Qed.
End ExecInv.

Lemma delete_phase_In st del c : In c (delete_phase st del) <->
  In c st /\ ~ (In (c_name c) del /\ In (c_name c) (map c_name (ctx_all st))).
Proof.
  unfold delete_phase. generalize (map c_name (ctx_all st)). intros all. revert st.
  induction del as [|n del IH]; intros st; cbn [fold_left In]; [tauto|].
  rewrite IH. destruct (nl_mem n all) eqn:Em.
  - apply nl_mem_In in Em. rewrite st_del_In. split.
    + intros [[H Hne] Hn]. split; [exact H|]. intros [[E|Hd] Ha]; [congruence|tauto].
    + intros [H Hn]. split; [split; [exact H|]|tauto]. intros E. apply Hn. rewrite E. auto.
  - apply nl_mem_false in Em. split; intros [H Hn]; (split; [exact H|]).
    + intros [[E|Hd] Ha]; [apply Em; rewrite E; exact Ha|tauto].
    + tauto.
Qed.

Lemma delete_phase_uniq st del : uniq_ctx st -> uniq_ctx (delete_phase st del).
Proof.
  apply fold_left_inv. intros s n _ H. destruct (nl_mem n _); [apply uniq_st_del; exact H|exact H].
Qed.

Lemma uniq_map_names (g : gctx -> gctx) st : (forall c, c_name (g c) = c_name c) -> uniq_ctx st -> uniq_ctx (map g st).
Proof. intros Hg. unfold uniq_ctx. rewrite map_map, (map_ext _ c_name Hg). auto. Qed.

Lemma ping_uniq st : uniq_ctx st -> uniq_ctx (ping st).
Proof. apply uniq_map_names. intros c. destruct (c_started c); reflexivity. Qed.

(* start_global_contexts arms triggers and changes nothing else *)
Lemma start_phase_spec dv a st : exists g, start_phase dv a st = map g st /\ forall c, g c = c \/ g c = set_started c.
Proof.
  eexists. split; [reflexivity|]. intros c. cbv beta.
  destruct (negb _); [auto|]. destruct a; auto. destruct (d_named_start dv); auto. destruct (prefix_of n (c_name c)); auto.
Qed.

Lemma start_phase_In dv a st c' : In c' (start_phase dv a st) -> exists c, In c st /\ (c' = c \/ c' = set_started c).
Proof.
  destruct (start_phase_spec dv a st) as (g & -> & Hg). intros H. apply in_map_iff in H.
  destruct H as (c & <- & Hc). eauto.
Qed.

Lemma start_phase_uniq dv a st : uniq_ctx st -> uniq_ctx (start_phase dv a st).
Proof.
  destruct (start_phase_spec dv a st) as (g & -> & Hg). apply uniq_map_names.
  intros c. destruct (Hg c) as [->| ->]; reflexivity.
Qed.

Lemma start_phase_keeps dv a st c : In c st -> In c (start_phase dv a st) \/ In (set_started c) (start_phase dv a st).
Proof.
  destruct (start_phase_spec dv a st) as (g & -> & Hg). intros Hc. apply (in_map g) in Hc.
  destruct (Hg c) as [<-|<-]; auto.
Qed.

(* no import statement can make module_import load a file under the name [n]; a non-module context needs this to stay *)
Definition safe_name (dv : deviations) (t : tree) (n : cname) : Prop :=
  forall self_name self_rel i cs cnd, candidates dv self_name self_rel i = Some cs -> In cnd cs -> cd_name cnd = n ->
    tree_get t (cd_path cnd) = None.

Definition keeps (c : gctx) (st st' : state) : Prop := In c st -> In c st'.

Theorem reload_untouched dv born st t k a c :
  uniq_ctx st -> In c st -> (c_ismod c = true \/ safe_name dv t (c_name c)) ->
  let pl := plan dv st (discover t k) a in
  ~ In (c_name c) (p_del pl) -> ~ In (c_name c) (map sf_name (load_list (p_files pl))) ->
  let st' := r_st (reload dv born st t k a) in
  In c st' \/ In (set_started c) st'.
Proof.
  intros Hu Hc Hsafe pl Hdel Hload.
  destruct (reload_inv dv t born (fun st _ => uniq_ctx st /\ In c st)) with (st := st) (k := k) (a := a)
    as (st1 & E & _ & Hc1).
  - (* mod_ok: an imported module has another name than [c] *)
    intros cnd f st0 ev (sn & sr & i & cs & Ec & Hin & El & Hf) [Hu0 Hc0].
    assert (Hne : c_name c <> cd_name cnd).
    { intros En. destruct Hsafe as [Hm|Hs].
      - rewrite (find_loaded_None st0 cs Hu0 El cnd c Hin Hc0 En) in Hm. discriminate.
      - rewrite (Hs sn sr i cs cnd Ec Hin (eq_sym En)) in Hf. discriminate. }
    split; [split; [apply uniq_st_del, Hu0|apply st_del_In; auto]|].
    intros started st2 ev2 imps [Hu2 Hc2]. split; [apply uniq_st_set, Hu2|apply st_set_In; auto].
  - (* delete phase *)
    split; [apply delete_phase_uniq, Hu|]. apply delete_phase_In. tauto.
  - (* auto_ok *)
    intros s Hs st0 ev [Hu0 Hc0].
    assert (Hne : c_name c <> sf_name s) by (intros En; apply Hload; rewrite En; apply in_map, Hs).
    split; [split; [apply uniq_st_del, Hu0|apply st_del_In; auto]|].
    intros st2 ev2 imps [Hu2 Hc2]. split; [apply uniq_st_set, Hu2|apply st_set_In; auto].
  - (* start_global_contexts *)
    cbv zeta. rewrite E. apply start_phase_keeps, Hc1.
Qed.
