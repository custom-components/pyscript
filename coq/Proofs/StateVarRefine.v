(* C16.  [change] lists what one step of the Model can do to hass.states and the captured values under any switches
   ([model_step_change]); hence [snapshot_immutable].  Section Refine: switches off, each operation equals the documented
   rule ([model_op_spec]) under [wf_state], which [change] keeps; hence [run_refines].  Tail: the checker's str() tables meet
   the hypotheses ([strtab_ok_hyps]), a concrete host and state, the runs that refute D160, D161, D7, an instance of
   [priority]. *)
From PV Require Import Common.Util Gen.StateConsts StateVar.StateModel StateVar.Resolve StateVar.Spec StateVar.StateCheck.

Lemma ename_eqb_spec a b : reflect (a = b) (ename_eqb a b).
Proof. exact (eqb_spec_of _ (prod_eqb_eq _ _ N.eqb_eq N.eqb_eq) a b). Qed.
Lemma ename_eqb_neq a b : ename_eqb a b = false <-> a <> b.
Proof. destruct (ename_eqb_spec a b); split; congruence. Qed.

Lemma alookup_aset k k' v a : alookup k (aset k' v a) = if N.eqb k k' then Some v else alookup k a.
Proof.
  (* [aset] writes the new key where [al_set] keeps the old one (equal keys, other text): hence not [al_get_set] *)
  apply (get_set_eqs N.eqb N.eqb_eq None Some alookup aset); try reflexivity.
  intros k1 v1 k2 v2 r. cbn [aset]. destruct (N.eqb_spec k1 k2) as [->|]; reflexivity.
Qed.

Lemma amem_In k a : amem k a = true <-> In k (map fst a).
Proof. unfold amem. rewrite <- (existsb_eqb_In _ N.eqb_eq), (al_get_keys N.eqb). reflexivity. Qed.
Lemma alookup_notin k a : ~ In k (map fst a) -> alookup k a = None.
Proof. exact (proj2 (al_get_None N.eqb N.eqb_eq k a)). Qed.

Lemma mem_ident_In k l : mem_ident k l = true <-> In k l.
Proof. exact (existsb_eqb_In _ N.eqb_eq k l). Qed.

Lemma alookup_aupdate k a kw : NoDup (map fst kw) ->
  alookup k (aupdate a kw) = match alookup k kw with Some v => Some v | None => alookup k a end.
Proof.
  revert a; induction kw as [|[k0 v0] r IH]; intros a ND; [reflexivity|].
  change (aupdate a ((k0, v0) :: r)) with (aupdate (aset k0 v0 a) r). inversion ND as [|? ? Hn ND']; subst.
  rewrite IH, alookup_aset by assumption. cbn [alookup].
  destruct (N.eqb_spec k k0) as [->|N]; [rewrite (alookup_notin k0 r Hn)|]; reflexivity.
Qed.

Lemma adiscard_cons ks : forall x a,
  adiscard ks (x :: a) = if mem_ident (fst x) ks then adiscard ks a else x :: adiscard ks a.
Proof.
  induction ks as [|k ks IH]; intros [k0 v0] a; [reflexivity|].
  change (adiscard (k :: ks) ((k0, v0) :: a)) with (adiscard ks (adel k ((k0, v0) :: a))).
  cbn [adel fst mem_ident existsb]. rewrite N.eqb_sym. destruct (N.eqb k0 k); [reflexivity|apply IH].
Qed.
Lemma adiscard_filter ks a :
  adiscard ks a = filter (fun kv : ident * vid => negb (mem_ident (fst kv) ks)) a.
Proof.
  induction a as [|x a IH]; [induction ks; [reflexivity|assumption]|].
  rewrite adiscard_cons. cbn [filter]. destruct (mem_ident (fst x) ks); cbn [negb]; rewrite IH; reflexivity.
Qed.

Lemma fold_left_map {A B C} (f : A -> C -> A) (g : B -> C) l a :
  fold_left f (map g l) a = fold_left (fun x y => f x (g y)) l a.
Proof. revert a; induction l as [|y r IH]; intros a; cbn; [reflexivity | apply IH]. Qed.

(* the generated constants (attributes discarded, fields StateVal.__new__ sets) are the documented four *)
Lemma consts_virtual_same k : mem_ident k state_virtual_attrs = mem_ident k doc_virtual_attrs.
Proof.
  (* the same four comparisons, or-ed in another order *)
  unfold mem_ident, state_virtual_attrs, doc_virtual_attrs; cbn [existsb].
  destruct (N.eqb k 100), (N.eqb k 101), (N.eqb k 102), (N.eqb k 103); reflexivity.
Qed.
(* codes: 0 entity_id, 1 last_changed, 2 last_updated, 3 last_reported *)
Lemma consts_fields_doc : stateval_new_fields = [(100, 0); (102, 2); (101, 1); (103, 3)]%N.
Proof. reflexivity. Qed.
Lemma doc_virtual_attrs_nodup : NoDup doc_virtual_attrs.
Proof.
  unfold doc_virtual_attrs.
  repeat (constructor; [cbn; intuition discriminate|]). constructor.
Qed.

Lemma adiscard_spec d : adiscard state_virtual_attrs d = without_virtual d.
Proof.
  rewrite adiscard_filter. apply filter_ext. intros kv. rewrite consts_virtual_same. reflexivity.
Qed.

Lemma aupdate_or_same (a kw : attrs) : match kw with [] => a | _ => aupdate a kw end = aupdate a kw.
Proof. destruct kw; reflexivity. Qed.

Lemma ha_get_put m e st e' : ha_get (ha_put m e st) e' = if ename_eqb e' e then Some st else ha_get m e'.
Proof.
  apply (get_set_eqs ename_eqb (prod_eqb_eq _ _ N.eqb_eq N.eqb_eq) None Some (fun k l => ha_get l k) (fun k v l => ha_put l k v)); try reflexivity.
  intros k1 v1 k2 v2 r. cbn [ha_put]. destruct (ename_eqb_spec k1 k2) as [->|]; reflexivity.
Qed.

Lemma ha_get_del m e e' : ha_get (ha_del m e) e' = if ename_eqb e' e then None else ha_get m e'.
Proof.
  induction m as [|[e0 st0] r IH]; cbn [ha_del ha_get]; [destruct (ename_eqb e' e); reflexivity|].
  destruct (ename_eqb_spec e e0) as [<-|N0]; [rewrite IH; destruct (ename_eqb e' e); reflexivity|].
  cbn [ha_get]. destruct (ename_eqb_spec e' e0) as [->|N1]; [|exact IH]. destruct (ename_eqb_spec e0 e); [congruence|reflexivity].
Qed.

Lemma slot_get_set j' j p t : slot_get j' (slot_set j p t) = if N.eqb j' j then p else slot_get j' t.
Proof.
  apply (get_set_eqs N.eqb N.eqb_eq (PVal v_none) (fun p => p) slot_get slot_set); try reflexivity.
  intros k1 v1 k2 v2 r. cbn [slot_set]. destruct (N.eqb_spec k1 k2) as [->|]; reflexivity.
Qed.

Definition writes_slot (j : N) (s : step) : bool :=
  match s with
  | SScript _ (ORead _ (Some j')) | SScript _ (OGet _ (Some j')) => N.eqb j j'
  | _ => false
  end.

(* state.py writes hass.states through async_set (which stringifies) and async_remove only *)
Inductive ha_change (H : host) (now : N) (m : hamap) : hamap -> Prop :=
  | hc_set e v a : ha_change H now m (ha_async_set H now m e v a)
  | hc_del e : ha_change H now m (ha_del m e).

Definition stored_snap (m : hamap) (p : pyval) : Prop :=
  match p with PSnap v _ => exists e s, ha_get m e = Some s /\ hs_val s = v | _ => True end.

(* what a step [s] can do to hass.states and to the captured values, which is all of [st] that [change_slots] and
   [change_wf] read; a captured snapshot is that of a stored state *)
Inductive change (H : host) (now : N) (st : mstate) (s : step) : mstate -> Prop :=
  | ch_frame st' : ms_ha st' = ms_ha st -> ms_slots st' = ms_slots st -> change H now st s st'
  | ch_ha m : ha_change H now (ms_ha st) m -> change H now st s (with_ha st m)
  | ch_slot j p : writes_slot j s = true -> stored_snap (ms_ha st) p ->
      change H now st s (with_slots st (slot_set j p (ms_slots st))).

Lemma ch_none H now st s : change H now st s st.
Proof. apply ch_frame; reflexivity. Qed.

Definition res_all {A} (P : A -> Prop) (r : res A) : Prop := match r with Ok a => P a | Raise _ => True end.
Definition ev_all (P : pyval -> Prop) (r : evalres) : Prop := match r with EV p => P p | _ => True end.

Lemma ev_all_of_res P r : res_all P r -> ev_all P (of_res r).
Proof. destruct r; exact (fun W => W). Qed.

Section Change.
  Variable H : host.
  Variable now : N.

  Lemma state_set_change m nm value na kw : res_all (ha_change H now m) (state_set H now m nm value na kw).
  Proof.
    destruct nm as [|d [|n [|x r]]]; try exact I. unfold state_set. destruct (fst _); try exact I. apply hc_set.
  Qed.

  Lemma state_setattr_change dv sa m nm v : res_all (ha_change H now m) (state_setattr dv H now sa m nm v).
  Proof.
    destruct nm as [|d [|n [|k [|x r]]]]; try exact I. unfold state_setattr.
    destruct (negb _); [exact I|]. destruct (_ && _); [apply state_set_change|].
    destruct (_ && _); [exact I|apply state_set_change].
  Qed.

  Lemma state_delete_change m nm : res_all (ha_change H now m) (state_delete H now m nm).
  Proof.
    destruct nm as [|d [|n [|k [|x r]]]]; try exact I; unfold state_delete, ha_async_remove;
      (destruct (ha_get m (d, n)) as [s|]; [|exact I]).
    - apply hc_del.
    - destruct (amem k _); [apply state_set_change|exact I].
  Qed.

  (* the match by which [assign_dn] and [state_delete_st] make state.py's result the step's *)
  Definition lift_ha_res (st : mstate) (r : res hamap) : res mstate :=
    match r with Ok m => Ok (with_ha st m) | Raise x => Raise x end.

  Lemma lift_ha_res_change st s r :
    res_all (ha_change H now (ms_ha st)) r -> res_all (change H now st s) (lift_ha_res st r).
  Proof. destruct r; [apply ch_ha|exact (fun W => W)]. Qed.

  Lemma lift_ha_change st s r : res_all (ha_change H now (ms_ha st)) r -> change H now st s (snd (lift_ha st r)).
  Proof. destruct r; [apply ch_ha|intros _; apply ch_none]. Qed.

  Lemma lift_st_change st s r : res_all (change H now st s) r -> change H now st s (snd (lift_st st r)).
  Proof. destruct r; [exact (fun W => W)|intros _; apply ch_none]. Qed.

  Lemma capture_change st s cap r :
    match cap with Some j => writes_slot j s = true | None => True end -> ev_all (stored_snap (ms_ha st)) r ->
    change H now st s (snd (capture st cap r)).
  Proof.
    intros Hc W. destruct r as [p| |x]; try apply ch_none. destruct cap as [j|]; [|apply ch_none].
    destruct p; try apply ch_none; apply ch_slot; (exact Hc || exact W || exact I).
  Qed.

  Lemma change_slots st s st' j : change H now st s st' -> writes_slot j s = false ->
    slot_get j (ms_slots st') = slot_get j (ms_slots st).
  Proof.
    intros C Hw. destruct C as [st' _ ->|m _|j' p Hj _]; try reflexivity.
    cbn [with_slots ms_slots]. rewrite slot_get_set. destruct (N.eqb_spec j j') as [->|]; [congruence|reflexivity].
  Qed.

End Change.

Section ModelChange.
  Variable cf : config.
  Variables (locals : pyvars) (st : mstate) (now : N).

  Lemma assign_dn_change s e val : res_all (change (cf_host cf) now st s) (assign_dn cf locals st now e val).
  Proof.
    destruct e as [h|p a]; cbn [assign_dn]; [exact I|].
    destruct (collapse locals st (DAttr p a)) as [[|d [|n [|k [|x r]]]]|]; try exact I.
    - apply lift_ha_res_change, state_set_change.
    - destruct val; try exact I. apply lift_ha_res_change, state_setattr_change.
    - destruct p as [h|p' a']; [destruct val; try exact I|destruct (aeval_dn cf locals st _) as [[]| |]; exact I].
      unfold set_var_attr. destruct (vlookup h locals); [|destruct (vlookup h _)]; apply ch_frame; reflexivity.
  Qed.

  Lemma delete_dn_change s e : res_all (change (cf_host cf) now st s) (delete_dn cf locals st now e).
  Proof.
    destruct e as [h|p a]; cbn [delete_dn]; [exact I|]. unfold state_delete_st.
    destruct (d_del_ignores_pyvar _); [apply lift_ha_res_change, state_delete_change|].
    destruct (collapse locals st (DAttr p a)); [apply lift_ha_res_change, state_delete_change|].
    destruct p as [h|p' a']; [|destruct (aeval_dn cf locals st _) as [[]| |]; exact I].
    unfold del_var_attr. destruct (vlookup h locals); [|destruct (vlookup h _); [|exact I]].
    all: destruct (amem a _); [apply ch_frame; reflexivity|exact I].
  Qed.

  Lemma snap_getattr_stored H d k : res_all (stored_snap (ms_ha st)) (snap_getattr H d k).
  Proof. unfold snap_getattr. destruct (alookup k d); [exact I|]. destruct (_ || _); exact I. Qed.

  Lemma state_get_stored H sa nm : res_all (stored_snap (ms_ha st)) (state_get H sa (ms_ha st) nm).
  Proof.
    destruct nm as [|d [|n [|k [|x r]]]]; try exact I; unfold state_get;
      (destruct (ha_get (ms_ha st) (d, n)) as [s|] eqn:Eg; [|exact I]).
    - exists (d, n), s. split; [exact Eg|reflexivity].
    - destruct (svc_method sa d k); [exact I|apply snap_getattr_stored].
  Qed.

  Lemma py_getattr_stored v k : res_all (stored_snap (ms_ha st)) (py_getattr cf v k).
  Proof.
    destruct v as [x|x d| | | |o]; try exact I; cbn [py_getattr].
    - destruct (h_pyattr _ x k); exact I.
    - apply snap_getattr_stored.
    - destruct (alookup k o); exact I.
  Qed.

  Lemma aeval_dn_stored e : ev_all (stored_snap (ms_ha st)) (aeval_dn cf locals st e).
  Proof.
    assert (P : forall h, ev_all (stored_snap (ms_ha st)) (ast_name_plain locals st h)).
    { intros h. unfold ast_name_plain. destruct (vlookup h locals); [exact I|]. destruct (vlookup h _); exact I. }
    destruct e as [h|p a]; cbn [aeval_dn]; [apply P|].
    (* a callable, or State.get; failing that, getattr on the value of the prefix *)
    assert (D : ev_all (stored_snap (ms_ha st)) match collapse locals st (DAttr p a) with
                                                 | Some parts => ast_name_dotted cf st parts | None => EName end).
    { destruct (collapse locals st (DAttr p a)) as [parts|]; [|exact I]. unfold ast_name_dotted.
      destruct (function_get cf st parts); [exact I|].
      destruct parts as [|d [|n [|k [|x r]]]]; try exact I; [|destruct (state_exist _ _ _); [|exact I]];
        apply ev_all_of_res, state_get_stored. }
    destruct (match collapse locals st (DAttr p a) with Some _ => _ | None => _ end); [exact D| |exact I].
    destruct (aeval_dn cf locals st p); try exact I. apply ev_all_of_res, py_getattr_stored.
  Qed.
End ModelChange.

Lemma model_step_change cf now st s : change (cf_host cf) now st s (snd (model_step cf now st s)).
Proof.
  destruct s as [x|locals o]; cbn [model_step snd].
  - destruct x as [e v a|e|e|e|e|]; cbn [ext_op].
    + (* XSet *) apply ch_ha, hc_set.
    + (* XRemove *) unfold ha_async_remove. destruct (ha_get (ms_ha st) e); [apply ch_ha, hc_del|apply ch_frame; reflexivity].
    + (* XReg *) destruct (mem_ename e (ms_svcs st)); apply ch_frame; reflexivity.
    + (* XRegM *) destruct (mem_ename e (ms_svcs st)); apply ch_frame; reflexivity.
    + (* XUnreg *) apply ch_frame; reflexivity.
    + (* XRefresh *) apply ch_frame; reflexivity.
  - destruct o as [e cap|nm cap|e rhs|nm value nattr kw|nm v|e|nm|nm|nm|j|dom|j|j k]; cbn [model_op];
      try apply ch_none;                                  (* OExist ... OReadSlotAttr return the state they were given *)
      try (destruct (dn_len_ok e); [|apply ch_none]).     (* ORead, OAssign, ODel: an unmodelled name raises *)
    + (* ORead *) apply capture_change; [destruct cap; [apply N.eqb_refl|exact I]|apply aeval_dn_stored].
    + (* OGet *) apply capture_change; [destruct cap; [apply N.eqb_refl|exact I]|apply ev_all_of_res, state_get_stored].
    + (* OAssign *) apply lift_st_change, assign_dn_change.
    + (* OSet *) apply lift_ha_change, state_set_change.
    + (* OSetattr *) apply lift_ha_change, state_setattr_change.
    + (* ODel *) apply lift_st_change, delete_dn_change.
    + (* ODelete *) apply lift_ha_change, state_delete_change.
Qed.

Lemma run_model_slots cf steps : forall now st j, forallb (fun s => negb (writes_slot j s)) steps = true ->
  slot_get j (ms_slots (snd (run_model cf now st steps))) = slot_get j (ms_slots st).
Proof.
  induction steps as [|s r IH]; intros now st j Hall; cbn [run_model snd]; [reflexivity|].
  cbn [forallb] in Hall. apply andb_true_iff in Hall. destruct Hall as [Hs Hr].
  rewrite IH by exact Hr. apply (change_slots _ _ _ _ _ _ (model_step_change cf now st s)).
  destruct (writes_slot j s); [discriminate | reflexivity].
Qed.

(* a snapshot captured from entity d.n by state.get holds the value and attributes the entity had then, and reading the
   variable after any later steps that do not reassign it returns that snapshot *)
Theorem snapshot_immutable : forall cf now st d n j s later,
  ha_get (ms_ha st) (d, n) = Some s ->
  forallb (fun x => negb (writes_slot j x)) later = true ->
  let snap := stateval_new (cf_host cf) (d, n) s in
  let st1 := snd (model_step cf now st (SScript [] (OGet [d; n] (Some j)))) in
  let st2 := snd (run_model cf (N.succ now) st1 later) in
  forall now', fst (model_step cf now st (SScript [] (OGet [d; n] (Some j)))) = Some (Ok snap) /\
  fst (model_step cf now' st2 (SScript [] (OReadSlot j))) = Some (Ok snap).
Proof.
  intros cf now st d n j s later Eg Hl. cbn zeta. intros now'.
  assert (E1 : model_step cf now st (SScript [] (OGet [d; n] (Some j)))
               = (Some (Ok (stateval_new (cf_host cf) (d, n) s)),
                  with_slots st (slot_set j (stateval_new (cf_host cf) (d, n) s) (ms_slots st)))).
  { cbn [model_step model_op state_get]. rewrite Eg. reflexivity. }
  rewrite E1. cbn [fst snd]. split; [reflexivity|].
  cbn [model_step model_op fst]. rewrite run_model_slots by exact Hl.
  cbn [with_slots ms_slots]. rewrite slot_get_set, N.eqb_refl. reflexivity.
Qed.

(* the routing of eval.py for a two-part name d.n, under any switches *)
Lemma aeval_routed cf locals st d n :
  aeval_dn cf locals st (DAttr (DHead d) n) =
  match denote (cf_funcs cf) locals st d n with
  | DPyLocal o | DPyGlobal o => of_res (obj_attr o n)
  | DCallable => EV PFunc
  | DState => of_res (state_get (cf_host cf) (ms_svcargs st) (ms_ha st) [d; n])
  end.
Proof.
  cbn [aeval_dn]. unfold collapse. cbn [dn_head dn_parts app]. unfold ast_name_plain, denote.
  destruct (vlookup d locals) as [o|]; [reflexivity|]. destruct (vlookup d (ms_globals st)) as [o|]; [reflexivity|].
  unfold ast_name_dotted, function_get. destruct (mem_ename (d, n) (cf_funcs cf) || mem_ename (d, n) (ms_svcs st)); [reflexivity|].
  destruct (state_get _ _ _ _); reflexivity.
Qed.

Lemma dn_shape e : dn_len_ok e = true ->
  (exists d n, e = DAttr (DHead d) n) \/ (exists d n k, e = DAttr (DAttr (DHead d) n) k).
Proof.
  unfold dn_len_ok. intros E. apply andb_true_iff in E. destruct E as [E1 E2].
  apply Nat.leb_le in E1. apply Nat.leb_le in E2.
  destruct e as [h|[h|[h|p a1] a2] a3]; cbn [dn_parts length app] in *; [lia | left; eauto | right; eauto |].
  rewrite !app_length in E1. cbn in E1.
  assert (1 <= length (dn_parts p))%nat by (destruct p; cbn; [lia | rewrite app_length; cbn; lia]). lia.
Qed.

(* stores and deletions do not distinguish a callable's name from a state's *)
Lemma callable_or_state {A} (b : bool) (x y : attrs -> A) (z : A) :
  match (if b then DCallable else DState) with DPyLocal o => x o | DPyGlobal o => y o | _ => z end = z.
Proof. destruct b; reflexivity. Qed.

Section Refine.
  Variable H : host.
  Variable funcs : list ename.
  Variable now : N.
  Hypothesis Hidem : forall v, h_str H (h_str H v) = h_str H v.
  Hypothesis Hnn : forall v, h_str H v <> v_none.

  Let cf : config := {| cf_dev := all_off; cf_host := H; cf_funcs := funcs |}.

  Lemma is_none_str v : is_none (h_str H v) = false.
  Proof. unfold is_none. apply N.eqb_neq. apply Hnn. Qed.

  (* stored states are strings; the string of a captured snapshot is not None *)
  Definition wf_ha (m : hamap) : Prop := forall e s, ha_get m e = Some s -> h_str H (hs_val s) = hs_val s.
  Definition wf_val (p : pyval) : Prop := match p with PSnap v _ => is_none v = false | _ => True end.
  Definition wf_slots (t : list (N * pyval)) : Prop := forall j, wf_val (slot_get j t).
  Definition wf_state (st : mstate) : Prop := wf_ha (ms_ha st) /\ wf_slots (ms_slots st).

  Lemma wf_ha_not_none m e s : wf_ha m -> ha_get m e = Some s -> is_none (hs_val s) = false.
  Proof. intros W E. rewrite <- (W e s E). apply is_none_str. Qed.

  Lemma wf_ha_write m e s a : wf_ha m -> h_str H s = s -> wf_ha (ha_write H now m e s a).
  Proof.
    intros W Hs e' s' E. unfold ha_write in E.
    destruct (ha_get m e) as [s0|] eqn:Eg; rewrite ha_get_put in E;
      (destruct (ename_eqb e' e); [injection E as <-; exact Hs | exact (W e' s' E)]).
  Qed.

  Lemma wf_ha_del m e : wf_ha m -> wf_ha (ha_del m e).
  Proof.
    intros W e' s' E. rewrite ha_get_del in E. destruct (ename_eqb e' e); [discriminate | exact (W e' s' E)].
  Qed.

  Lemma wf_slots_set t j p : wf_slots t -> wf_val p -> wf_slots (slot_set j p t).
  Proof. intros W Wp j'. rewrite slot_get_set. destruct (N.eqb j' j); [exact Wp | apply W]. Qed.

  Lemma stateval_new_spec e s : stateval_new H e s = snapshot_of H e s.
  Proof.
    unfold stateval_new, snapshot_of, aupdate, virtual_fields. rewrite consts_fields_doc. reflexivity.
  Qed.

  (* getattr on a snapshot: a state attribute, else what every str has *)
  Definition entity_or_str (e : ename) (s : hastate) (k : ident) : res pyval :=
    match entity_attr H e s k with
    | Ok v => Ok v
    | Raise _ => if h_strattr H k then Ok PFunc else Raise EAttributeError
    end.

  Lemma snap_getattr_spec e s k :
    snap_getattr H (aupdate (hs_attrs s) (virtual_fields H e s)) k = entity_or_str e s k.
  Proof.
    (* the keys of [virtual_fields H e s] compute to [doc_virtual_attrs] *)
    unfold snap_getattr, entity_or_str, entity_attr. rewrite alookup_aupdate by exact doc_virtual_attrs_nodup.
    destruct (alookup k (virtual_fields H e s)); [reflexivity|]. destruct (alookup k (hs_attrs s)); [reflexivity|].
    destruct (mem_ident k state_callable_attrs); reflexivity.
  Qed.

  Lemma amem_virtual e s k : amem k (virtual_fields H e s) = mem_ident k doc_virtual_attrs.
  Proof. apply eq_true_iff_eq. rewrite amem_In, mem_ident_In. reflexivity. Qed.

  (* state.exist's test says whether the attribute lookup succeeds *)
  Lemma entity_attr_exists e s k :
    if amem k (hs_attrs s) || mem_ident k doc_virtual_attrs || mem_ident k state_callable_attrs
    then exists v, entity_attr H e s k = Ok v else entity_attr H e s k = Raise EAttributeError.
  Proof.
    rewrite <- (amem_virtual e s). unfold entity_attr, amem.
    destruct (alookup k (virtual_fields H e s)), (alookup k (hs_attrs s)), (mem_ident k state_callable_attrs); cbn; eauto.
  Qed.

  Lemma entity_attr_raise e s k x : entity_attr H e s k = Raise x -> x = EAttributeError.
  Proof.
    intros E. pose proof (entity_attr_exists e s k) as X. rewrite E in X.
    destruct (_ || _ || _); [destruct X; discriminate|injection X as X; exact X].
  Qed.

  Lemma state_get_spec st nm : state_get H (ms_svcargs st) (ms_ha st) nm = spec_get H st nm.
  Proof.
    destruct nm as [|d [|n [|k [|x r]]]]; [reflexivity | reflexivity | | | reflexivity]; unfold state_get, spec_get.
    - destruct (ha_get (ms_ha st) (d, n)) as [s|]; [rewrite stateval_new_spec|]; reflexivity.
    - destruct (ha_get (ms_ha st) (d, n)) as [s|]; [|reflexivity].
      destruct (svc_method (ms_svcargs st) d k); [reflexivity|].
      rewrite stateval_new_spec. unfold snapshot_of. apply snap_getattr_spec.
  Qed.

  Lemma state_exist_spec svcargs m nm : state_exist svcargs m nm = spec_exist svcargs m nm.
  Proof.
    destruct nm as [|d [|n [|k [|x r]]]]; try reflexivity. unfold state_exist, spec_exist.
    destruct (ha_get m (d, n)) as [s|]; [rewrite consts_virtual_same|]; reflexivity.
  Qed.

  Lemma state_set_spec m nm value na kw : wf_ha m -> wf_val value ->
    state_set H now m nm value na kw = spec_set H now m nm value na kw.
  Proof.
    intros W Wv. destruct nm as [|d [|n [|x r]]]; try reflexivity. destruct value as [v|v dct| | | |]; try reflexivity;
      unfold state_set, spec_set; cbn [fst snd]; rewrite aupdate_or_same; unfold ha_async_set, cur_attrs.
    - (* plain value: None stands for "omitted", and a stored value is its own str() *)
      destruct (is_none v) eqn:En; cbn [orb].
      + destruct (ha_get m (d, n)) as [s|] eqn:Eg.
        * rewrite (W _ _ Eg). destruct na; reflexivity.
        * apply N.eqb_eq in En. subst v. destruct na; reflexivity.
      + destruct na as [a|]; [reflexivity|]. destruct (ha_get m (d, n)) as [s|]; reflexivity.
    - (* StateVal: its string is never None *)
      cbn [wf_val] in Wv. rewrite Wv. destruct na; cbn [orb]; rewrite ?adiscard_spec; reflexivity.
  Qed.

  Lemma state_setattr_spec svcargs m nm v : wf_ha m ->
    state_setattr all_off H now svcargs m nm v = spec_setattr H now m nm v.
  Proof.
    intros W. destruct nm as [|d [|n [|k [|x r]]]]; try reflexivity. unfold state_setattr, spec_setattr.
    cbn [state_exist d_setattr_param_clash all_off andb].
    destruct (ha_get m (d, n)) as [s|] eqn:Eg; cbn [negb]; [|reflexivity].
    rewrite state_set_spec by (assumption || exact I).
    unfold spec_set, cur_attrs. rewrite Eg. cbn. reflexivity.
  Qed.

  Lemma state_delete_spec m nm : wf_ha m -> state_delete H now m nm = spec_delete H now m nm.
  Proof.
    intros W. destruct nm as [|d [|n [|k [|x r]]]]; try reflexivity; unfold state_delete, spec_delete, ha_async_remove.
    - destruct (ha_get m (d, n)); reflexivity.
    - destruct (ha_get m (d, n)) as [s|] eqn:Eg; [|reflexivity].
      destruct (amem k (hs_attrs s)); [|reflexivity].
      rewrite state_set_spec by (assumption || exact I).
      unfold spec_set. rewrite (wf_ha_not_none m _ s W Eg), (W _ _ Eg). reflexivity.
  Qed.

  Lemma state_getattr_spec m arg : state_getattr m arg = spec_getattr m arg.
  Proof.
    destruct arg as [p|nm]; [destruct p|]; try reflexivity. unfold state_getattr. rewrite adiscard_spec. reflexivity.
  Qed.

  Lemma aeval_dn2_spec locals st d n :
    aeval_dn cf locals st (DAttr (DHead d) n) = of_res (spec_read H funcs locals st [d; n]).
  Proof.
    rewrite aeval_routed. cbn [cf_funcs cf_host cf]. unfold spec_read. destruct (denote funcs locals st d n); [reflexivity..|].
    rewrite state_get_spec. unfold spec_get. destruct (ha_get (ms_ha st) (d, n)); reflexivity.
  Qed.

  Lemma aeval_dn3_spec locals st d n k :
    aeval_dn cf locals st (DAttr (DAttr (DHead d) n) k) = of_res (spec_read H funcs locals st [d; n; k]).
  Proof.
    pose proof (aeval_dn2_spec locals st d n) as E2. cbn [aeval_dn] in E2 |- *. rewrite E2. clear E2.
    unfold collapse. cbn [dn_head dn_parts app]. unfold ast_name_plain, spec_read, denote.
    destruct (vlookup d locals) as [o|]; [|destruct (vlookup d (ms_globals st)) as [o|]].
    1,2: unfold obj_attr; destruct (alookup n o); [|reflexivity]; cbn [of_res py_getattr cf_host cf];
      destruct (h_pyattr H v k); reflexivity.
    unfold ast_name_dotted, function_get. cbn [cf_host cf]. rewrite state_exist_spec, state_get_spec. unfold spec_exist, spec_get.
    (* a three-part name is never a callable.  Where the entity has k both sides return it whatever d.n denotes; where not,
       the code takes getattr of the value of d.n *)
    destruct (mem_ename (d, n) funcs || mem_ename (d, n) (ms_svcs st)).
    all: destruct (ha_get (ms_ha st) (d, n)) as [s|]; [|reflexivity].
    all: destruct (svc_method (ms_svcargs st) d k); [reflexivity|]; cbn [orb].
    all: pose proof (entity_attr_exists (d, n) s k) as X; destruct (amem k _ || _ || _); [destruct X as [v ->]; reflexivity|rewrite X].
    - (* d.n a callable: a function has no attribute *) reflexivity.
    - (* d.n a state: its snapshot has the attributes of a str *)
      unfold snapshot_of. cbn [of_res py_getattr cf_host cf]. rewrite snap_getattr_spec. unfold entity_or_str. rewrite X. reflexivity.
  Qed.

  Lemma aeval_dn_spec locals st e : dn_len_ok e = true ->
    aeval_dn cf locals st e = of_res (spec_read H funcs locals st (dn_parts e)).
  Proof.
    intros L. destruct (dn_shape e L) as [(d & n & ->)|(d & n & k & ->)]; [apply aeval_dn2_spec | apply aeval_dn3_spec].
  Qed.

  Lemma assign_dn_spec locals st e val : dn_len_ok e = true -> wf_ha (ms_ha st) -> wf_val val ->
    assign_dn cf locals st now e val = spec_assign H funcs now locals st (dn_parts e) val.
  Proof.
    intros L W Wv. destruct (dn_shape e L) as [(d & n & ->)|(d & n & k & ->)];
      cbn [assign_dn]; unfold collapse; cbn [dn_head dn_parts app]; unfold ast_name_plain, spec_assign, denote.
    - unfold set_var_attr.
      destruct (vlookup d locals) as [o|]; [destruct val; reflexivity|].
      destruct (vlookup d (ms_globals st)) as [o|]; [destruct val; reflexivity|].
      rewrite callable_or_state. unfold assign_value. cbn [cf_host cf_dev cf d_assign_none_omitted all_off].
      destruct val as [v|v dct| | | |]; try reflexivity.
      + destruct (is_none v) eqn:En; rewrite state_set_spec by (assumption || exact I); unfold spec_set.
        * rewrite is_none_str, Hidem. apply N.eqb_eq in En. subst v. reflexivity.
        * rewrite En. reflexivity.
      + rewrite state_set_spec by assumption. reflexivity.
    - destruct (vlookup d locals) as [o|] eqn:El; [|destruct (vlookup d (ms_globals st)) as [o|] eqn:Eg].
      1,2: rewrite aeval_dn2_spec; unfold spec_read, denote; rewrite El, ?Eg; unfold obj_attr; destruct (alookup n o); reflexivity.
      rewrite callable_or_state. cbn [cf_host cf_dev cf]. destruct val as [v| | | | |]; try reflexivity.
      rewrite state_setattr_spec by assumption. unfold spec_setattr. destruct (ha_get (ms_ha st) (d, n)); reflexivity.
  Qed.

  Lemma delete_dn_spec locals st e : dn_len_ok e = true -> wf_ha (ms_ha st) ->
    delete_dn cf locals st now e = spec_del_expr H funcs now locals st (dn_parts e).
  Proof.
    intros L W. destruct (dn_shape e L) as [(d & n & ->)|(d & n & k & ->)];
      cbn [delete_dn cf_dev cf d_del_ignores_pyvar all_off]; unfold collapse; cbn [dn_head dn_parts app];
      unfold ast_name_plain, spec_del_expr, denote.
    - unfold del_var_attr.
      destruct (vlookup d locals) as [o|]; [reflexivity|].
      destruct (vlookup d (ms_globals st)) as [o|]; [reflexivity|].
      rewrite callable_or_state. unfold state_delete_st. cbn [cf_host cf]. rewrite state_delete_spec by assumption. reflexivity.
    - destruct (vlookup d locals) as [o|] eqn:El; [|destruct (vlookup d (ms_globals st)) as [o|] eqn:Eg].
      1,2: rewrite aeval_dn2_spec; unfold spec_read, denote; rewrite El, ?Eg; unfold obj_attr; destruct (alookup n o); reflexivity.
      rewrite callable_or_state. unfold state_delete_st. cbn [cf_host cf]. rewrite state_delete_spec by assumption. reflexivity.
  Qed.

  Lemma wf_eval_vexpr st x : wf_slots (ms_slots st) -> wf_val (eval_vexpr st x).
  Proof. intros W. destruct x as [v|j]; cbn [eval_vexpr]; [exact I | apply W]. Qed.

  Lemma py_getattr_spec p k : py_getattr cf p k = spec_slot_attr H p k.
  Proof. destruct p; reflexivity. Qed.

  Lemma model_op_spec locals st o : wf_state st ->
    model_op cf now locals st o = spec_op H funcs now locals st o.
  Proof.
    intros [W Ws]. pose proof (wf_eval_vexpr st) as We. destruct o; cbn [model_op spec_op cf_host cf_dev cf].
    - (* ORead *) destruct (dn_len_ok e) eqn:L; [rewrite aeval_dn_spec by assumption|]; reflexivity.
    - (* OGet *) rewrite state_get_spec. reflexivity.
    - (* OAssign *) destruct (dn_len_ok e) eqn:L; [rewrite assign_dn_spec by auto|]; reflexivity.
    - (* OSet *) rewrite state_set_spec; [reflexivity|assumption|]. destruct value; [auto|exact I].
    - (* OSetattr *) rewrite state_setattr_spec by assumption. reflexivity.
    - (* ODel *) destruct (dn_len_ok e) eqn:L; [rewrite delete_dn_spec by assumption|]; reflexivity.
    - (* ODelete *) rewrite state_delete_spec by assumption. reflexivity.
    - (* OExist *) rewrite state_exist_spec. reflexivity.
    - (* OGetattr *) rewrite state_getattr_spec. reflexivity.
    - (* OGetattrSlot *) rewrite state_getattr_spec. reflexivity.
    - (* ONames *) reflexivity.
    - (* OReadSlot *) reflexivity.
    - (* OReadSlotAttr *) rewrite py_getattr_spec. reflexivity.
  Qed.

  Lemma model_step_spec st s : wf_state st -> model_step cf now st s = spec_step H funcs now st s.
  Proof.
    intros W. destruct s as [x|locals o]; cbn [model_step spec_step cf_host cf]; [reflexivity|].
    rewrite model_op_spec by assumption. reflexivity.
  Qed.

  Lemma change_wf st s st' : change H now st s st' -> wf_state st -> wf_state st'.
  Proof.
    intros C [W Ws]. destruct C as [st' Eh Es|m [e v a|e]|j p _ Hp].
    - split; [rewrite Eh|rewrite Es]; assumption.
    - split; [apply wf_ha_write; [assumption|apply Hidem]|exact Ws].
    - split; [apply wf_ha_del; assumption|exact Ws].
    - split; [exact W|]. apply wf_slots_set; [exact Ws|].
      destruct p as [|v d| | | |]; try exact I. destruct Hp as (e & s0 & Eg & <-). exact (wf_ha_not_none _ _ _ W Eg).
  Qed.

  Lemma model_step_wf dv st s :
    let c := {| cf_dev := dv; cf_host := H; cf_funcs := funcs |} in wf_state st -> wf_state (snd (model_step c now st s)).
  Proof. intros c. exact (change_wf st s _ (model_step_change c now st s)). Qed.

End Refine.

(* C16_refines: on every sequence of script operations and external changes, from any state whose stored values are
   strings, the Model (switches off) and the documented rules yield the same outputs and final state *)
Theorem run_refines H funcs :
  (forall v, h_str H (h_str H v) = h_str H v) -> (forall v, h_str H v <> v_none) ->
  forall steps now st, wf_state H st ->
  run_model {| cf_dev := all_off; cf_host := H; cf_funcs := funcs |} now st steps = run_spec H funcs now st steps.
Proof.
  intros Hidem Hnn. induction steps as [|s r IH]; intros now st W; cbn [run_model run_spec]; [reflexivity|].
  rewrite IH by (apply model_step_wf; assumption).
  rewrite (model_step_spec H funcs now Hidem Hnn st s W). reflexivity.
Qed.

(* priority: Python variables > functions and existing services > state names; [aeval_routed] read case by case *)
Definition is_pyvar (locals : pyvars) (st : mstate) (d : ident) (o : attrs) : Prop :=
  vlookup d locals = Some o \/ (vlookup d locals = None /\ vlookup d (ms_globals st) = Some o).
Definition no_pyvar (locals : pyvars) (st : mstate) (d : ident) : Prop :=
  vlookup d locals = None /\ vlookup d (ms_globals st) = None.

Theorem priority : forall cf locals st d n,
  (* d a Python variable: whatever states, services, functions exist; assigning d.n leaves the state machine alone *)
  (forall o, is_pyvar locals st d o ->
     aeval_dn cf locals st (DAttr (DHead d) n) = of_res (obj_attr o n) /\
     forall now val st', assign_dn cf locals st now (DAttr (DHead d) n) val = Ok st' ->
                     ms_ha st' = ms_ha st /\ ms_svcs st' = ms_svcs st) /\
  (no_pyvar locals st d -> mem_ename (d, n) (cf_funcs cf) || mem_ename (d, n) (ms_svcs st) = true ->
     aeval_dn cf locals st (DAttr (DHead d) n) = EV PFunc) /\
  (no_pyvar locals st d -> mem_ename (d, n) (cf_funcs cf) || mem_ename (d, n) (ms_svcs st) = false ->
     aeval_dn cf locals st (DAttr (DHead d) n) = of_res (state_get (cf_host cf) (ms_svcargs st) (ms_ha st) [d; n])).
Proof.
  intros cf locals st d n. rewrite aeval_routed. unfold denote. split; [|split].
  - intros o Hv. split; [destruct Hv as [Hl|[Hl Hg]]; rewrite Hl, ?Hg; reflexivity|].
    intros now val st'. cbn [assign_dn]. unfold collapse. cbn [dn_head]. unfold ast_name_plain, set_var_attr.
    destruct Hv as [Hl|[Hl Hg]]; rewrite Hl, ?Hg; destruct val; intros [= <-]; split; reflexivity.
  - intros [Hl Hg] Hc. rewrite Hl, Hg, Hc. reflexivity.
  - intros [Hl Hg] Hc. rewrite Hl, Hg, Hc. reflexivity.
Qed.

(* with D7 off, del d.n on a Python variable does not touch the state machine either *)
Theorem priority_del : forall cf locals st now d n o st',
  d_del_ignores_pyvar (cf_dev cf) = false -> is_pyvar locals st d o ->
  delete_dn cf locals st now (DAttr (DHead d) n) = Ok st' -> ms_ha st' = ms_ha st /\ ms_svcs st' = ms_svcs st.
Proof.
  intros cf locals st now d n o st' Hd Hv. cbn [delete_dn]. rewrite Hd. unfold collapse. cbn [dn_head]. unfold ast_name_plain, del_var_attr.
  destruct Hv as [Hl|[Hl Hg]]; rewrite Hl; [|rewrite Hg]; destruct (amem n o); intros [= <-]; split; reflexivity.
Qed.

Lemma strtab_ok_hyps t et vt vf eqt sa pa : strtab_ok t = true ->
  let H := mk_host t eqt et vt vf sa pa in
  (forall v, h_str H (h_str H v) = h_str H v) /\ (forall v, h_str H v <> v_none).
Proof.
  intros Hok. cbn [mk_host h_str]. apply andb_true_iff in Hok. destruct Hok as [Hall H0]. rewrite forallb_forall in Hall.
  assert (Himg : forall k x, tlookup k t = Some x -> table_fn t x = x /\ x <> 0%N).
  { intros k x E. specialize (Hall _ (al_get_In N.eqb N.eqb_eq k x t E)). cbn [snd] in Hall.
    apply andb_true_iff in Hall. destruct Hall as [A B]. split; [apply N.eqb_eq, A|apply N.eqb_neq, negb_true_iff, B]. }
  split; intros v; unfold table_fn; destruct (tlookup v t) as [x|] eqn:E; try apply (Himg v x E).
  - rewrite E. reflexivity.
  - unfold v_none. intros ->. rewrite E in H0. discriminate.
Qed.

(* The harness's ids (harness/vh/workers/c16_tables.py): domains 1 pvd, 3 pvg (also a global Python object),
   4 state; names 10 e0, 11 e1, 13 meth (an entity service), 14 svc (a service), 15 get; attributes 20 a0, 21 a1, 22 a2,
   23 value ([set_param_value]), 24 count (a str method).  Values, numbered apart: 0 None, 10 "on", 11 "off", 15 "1", 16 1,
   19 True, 20 "True", 21 False, 27 "None", 500.. the strings "DOMAIN.name".
   [ex_state]: pvd.e0 = "on" {a0: 1, a1: "off"}, pvg.e0 = "off"; services pvd.svc and pvd.meth, the latter with entity_id;
   pvg = an object with e0 = "1"; s0 = None *)
Definition ex_host : host :=
  mk_host [(0, 27); (10, 10); (11, 11); (15, 15); (16, 15); (19, 20); (20, 20); (27, 27)]%N [(19, 16)]%N
          [((1, 10), 500); ((1, 11), 501); ((3, 10), 512)]%N 19%N 21%N [24]%N [(10, 24); (11, 24)]%N.
Definition ex_state : mstate :=
  {| ms_ha := [((1, 10), mk_hs 10 [(20, 16); (21, 11)] 1 2 3); ((3, 10), mk_hs 11 [] 1 1 1)]%N; ms_svcs := [(1, 14); (1, 13)]%N; ms_esvcs := [(1, 13)]%N; ms_svcargs := [(1, 13)]%N;
     ms_globals := [(3, [(10, 15)])]%N; ms_slots := [(0, PVal 0)]%N |}.
Definition ex_funcs : list ename := state_function_names.
Definition ex_cfg (dv : deviations) : config :=
  {| cf_dev := dv; cf_host := ex_host; cf_funcs := ex_funcs |}.

Example host_table_ok :
  (forall v, h_str ex_host (h_str ex_host v) = h_str ex_host v) /\ (forall v, h_str ex_host v <> v_none) /\
  wf_state ex_host ex_state.
Proof.
  split; [|split]; [apply strtab_ok_hyps; reflexivity..|]. split; [intros e s E|intros j]; cbn in *.
  - destruct (ename_eqb e (1, 10)%N); [|destruct (ename_eqb e (3, 10)%N); [|discriminate]]; injection E as <-; reflexivity.
  - destruct (N.eqb j 0); exact I.
Qed.

Definition ex_steps : list step :=
  [ SScript [] (ORead (DAttr (DHead 1) 10) (Some 0));
    SExt (XSet (1, 10) 11 [(20, 19)]);
    SScript [] (OAssign (DAttr (DHead 1) 11) (VSlot 0));
    SScript [] (OAssign (DAttr (DAttr (DHead 1) 10) 21) (VLit 16));
    SScript [] (OSet [1; 10] None (Some (Some [(22, 10)])) [(20, 16)]);
    SScript [] (ODel (DAttr (DAttr (DHead 1) 11) 20));
    SScript [] (OReadSlot 0) ]%N.
Example ex_run_nontrivial :
  ms_ha (snd (run_model (ex_cfg all_off) 4 ex_state ex_steps))
  = [((1, 10), mk_hs 11 [(22, 10); (20, 16)] 5 8 8); ((3, 10), mk_hs 11 [] 1 1 1); ((1, 11), mk_hs 10 [(21, 11)] 6 9 9)]%N
  /\ nth_error (fst (run_model (ex_cfg all_off) 4 ex_state ex_steps)) 6
     = Some (Some (Ok (PSnap 10 [(20, 16); (21, 11); (100, 500); (102, 100002); (101, 100001); (103, 100003)])))%N.
Proof. split; vm_compute; reflexivity. Qed.

(* D160: `pvd.e0 = None` keeps the old value; the rules demand "None" *)
Theorem refuted_D160 :
  exists steps, wf_state ex_host ex_state /\
    run_model (ex_cfg (only 160)) 4 ex_state steps <> run_spec ex_host ex_funcs 4 ex_state steps.
Proof.
  exists [SScript [] (OAssign (DAttr (DHead 1%N) 10%N) (VLit 0%N))]. split; [apply host_table_ok|discriminate].
Qed.

(* D161: `pvd.e0.value = 1` sets the state value instead of the attribute `value` *)
Theorem refuted_D161 :
  exists steps, wf_state ex_host ex_state /\
    run_model (ex_cfg (only 161)) 4 ex_state steps <> run_spec ex_host ex_funcs 4 ex_state steps.
Proof.
  exists [SScript [] (OAssign (DAttr (DAttr (DHead 1%N) 10%N) set_param_value) (VLit 16%N))]. split; [apply host_table_ok|discriminate].
Qed.

(* D7: `del pvg.e0` with pvg a global Python object deletes the state entity pvg.e0 *)
Theorem refuted_D7 :
  exists steps, wf_state ex_host ex_state /\
    run_model (ex_cfg (only 7)) 4 ex_state steps <> run_spec ex_host ex_funcs 4 ex_state steps.
Proof.
  exists [SScript [] (ODel (DAttr (DHead 3%N) 10%N))]. split; [apply host_table_ok|discriminate].
Qed.

(* pvg.e0 is the object's attribute although the entity pvg.e0 exists; pvd.svc is a service; (4, 15) is state.get *)
Example priority_instance :
  is_pyvar [] ex_state 3%N [(10, 15)]%N /\ no_pyvar [] ex_state 1%N /\
  aeval_dn (ex_cfg all_off) [] ex_state (DAttr (DHead 3%N) 10%N) = EV (PVal 15%N) /\
  aeval_dn (ex_cfg all_off) [] ex_state (DAttr (DHead 1%N) 14%N) = EV PFunc /\
  aeval_dn (ex_cfg all_off) [] ex_state (DAttr (DHead 4%N) 15%N) = EV PFunc.
Proof. repeat split; try (right; split; reflexivity); reflexivity. Qed.
