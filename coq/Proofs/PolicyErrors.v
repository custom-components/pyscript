(* C18 containment: at every entry point, in both subsystems and for every outcome of the user code the wrappers log once on
   the script's logger, let nothing out and leave the trigger serving.  [occ_clean] says so of one occurrence, [file_clean] of
   one script file; histories, done-callbacks and loads follow by induction for any switches and except classes (a load of clean
   files yields [clean_load], which passes [load_ok]), then with the switches off and, where it holds, as the code is today.
   [gen_classes] is read from the source (Gen/ErrorConsts.v).  Ends with one witness per switch over [today_classes] and
   instances of the theorems' hypotheses. *)
From PV Require Import Common.Util Policy.Errors.

Definition clean_result (o : outcome) : ostate := mkO None (if raises o then [LScript] else []) true SkNone.
Definition clean_callbacks (outs : list outcome) : cbres :=
  mkCb (map (fun _ => true) outs) (map (fun _ => LScript) (filter raises outs)) SkNone.
Definition clean_load (files : list outcome) : lres :=
  mkL (map (fun o => negb (raises o)) files) (map (fun o => if raises o then 1%N else 0%N) files) SkNone.

Lemma site_contained : forall sub e o, run_site all_off sub e o = clean_result o.
Proof. intros sub e o. destruct sub, e, o as [|[|]]; reflexivity. Qed.

Lemma site_contained_today : forall sub e o,
  o <> ORaise KBase -> (sub, e) <> (Dm, ETrigFunc) -> run_site as_is sub e o = clean_result o.
Proof.
  intros sub e o Ho He. destruct o as [|[|]]; [| |congruence]; destruct sub, e; try reflexivity; congruence.
Qed.

Lemma callbacks_clean cl dv : (forall k, catches dv (c_done_callback cl) k = true) -> c_cb_breaks cl && d_cb_break dv = false ->
  forall outs, run_callbacks_c cl dv outs = clean_callbacks outs.
Proof.
  intros Hc Hb. induction outs as [|o r IH]; [reflexivity|].
  cbn [run_callbacks_c]. rewrite IH. destruct o as [|k]; [reflexivity|]. rewrite Hc, Hb. reflexivity.
Qed.

Lemma callbacks_all_off : forall outs, run_callbacks all_off outs = clean_callbacks outs.
Proof. apply callbacks_clean; [intros [|]; reflexivity|apply andb_false_r]. Qed.

Lemma count_script_map {A} (l : list A) : count_logger LScript (map (fun _ => LScript) l) = N.of_nat (length l).
Proof. unfold count_logger. f_equal. induction l as [|a l IH]; [reflexivity|]. cbn. f_equal. exact IH. Qed.

Definition occ_clean (cl : classes) (dv : deviations) (sub : subsystem) (oc : occ) : Prop :=
  match oc with
  | OUser e o | OLate e o => run_site_c cl dv sub e o = clean_result o
  | OCallbacks outs => run_callbacks_c cl dv outs = clean_callbacks outs
  | OReload => True
  end.

Lemma occ_contained_of cl dv sub m oc : occ_clean cl dv sub oc -> (forall e, m e = true) ->
  occ_ok oc (snd (occ_step_c cl dv sub m oc)) = true /\ forall e, fst (occ_step_c cl dv sub m oc) e = true.
Proof.
  intros C Hm. destruct oc as [e o|outs| |e o]; cbn [occ_step_c occ_clean] in *.
  - (* OUser *) rewrite Hm, C. cbn [fst snd]. split.
    + destruct o as [|k]; reflexivity.
    + intros e'. unfold set_alive. cbn. destruct (entry_eqb e e'); [reflexivity|apply Hm].
  - (* OCallbacks *) rewrite C. cbn [fst snd clean_callbacks cb_logs cb_sink cb_ran occ_ok ob_served ob_script_logs ob_sink ob_cb_ran].
    split; [|exact Hm]. rewrite count_script_map, N.eqb_refl, (eqb_refl_of _ (list_eqb_eq _ eqb_true_iff)). reflexivity.
  - (* OReload *) split; reflexivity.
  - (* OLate *) rewrite Hm, C. cbn [fst snd]. split; [|reflexivity].
    destruct o as [|k]; reflexivity.
Qed.

Lemma history_contained_of cl dv sub h : Forall (occ_clean cl dv sub) h -> forall m, (forall e, m e = true) ->
  history_ok h (snd (run_history_c cl dv sub m h)) = true /\ forall e, fst (run_history_c cl dv sub m h) e = true.
Proof.
  induction 1 as [|oc r C _ IH]; intros m Hm; [split; [reflexivity|exact Hm]|].
  cbn [run_history_c]. destruct (occ_contained_of cl dv sub m oc C Hm) as [H1 H2].
  destruct (occ_step_c cl dv sub m oc) as [m1 ob]. cbn [fst snd] in H1, H2.
  destruct (IH m1 H2) as [H3 H4].
  destruct (run_history_c cl dv sub m1 r) as [m2 obs]. cbn [fst snd] in *.
  split; [|exact H4]. cbn [history_ok]. rewrite H1, H3. reflexivity.
Qed.

Lemma history_contained : forall sub h m, (forall e, m e = true) ->
  history_ok h (snd (run_history all_off sub m h)) = true /\ forall e, fst (run_history all_off sub m h) e = true.
Proof.
  intros sub h. apply history_contained_of, Forall_forall. intros oc _.
  destruct oc; cbn [occ_clean]; [apply site_contained|apply callbacks_all_off|exact I|apply site_contained].
Qed.

Lemma others_undisturbed : forall dv sub m oc e',
  (match oc with OUser e _ => e <> e' | OCallbacks _ => True | OReload => False | OLate _ _ => False end) ->
  fst (occ_step dv sub m oc) e' = m e'.
Proof.
  intros dv sub m oc e' H. unfold occ_step. destruct oc as [e o|outs| |e o]; cbn [occ_step_c]; [|reflexivity|contradiction|contradiction].
  destruct (m e) eqn:Em; [|reflexivity]. cbn [fst]. unfold set_alive.
  destruct (entry_eqb e e') eqn:Ee; [|reflexivity]. destruct e, e'; cbn in Ee; try discriminate; congruence.
Qed.

(* the layer list is the one written out inside [load_scripts_c] *)
Definition file_clean (cl : classes) (dv : deviations) (o : outcome) : Prop :=
  fold_left (layer_step dv) [LCatchLogRaise (c_load_file cl); LCatchOther (c_load_scripts cl); LEnd SkHA] (start_of o)
  = mkO None (if raises o then [LScript; LOther] else []) true SkNone.

Lemma load_clean cl dv files : Forall (file_clean cl dv) files -> load_scripts_c cl dv files = clean_load files.
Proof.
  induction 1 as [|o r C _ IH]; [reflexivity|]. unfold file_clean in C. cbn [load_scripts_c]. rewrite C, IH. destruct o as [|k]; reflexivity.
Qed.

Lemma load_ok_of_layers cl dv files : Forall (file_clean cl dv) files -> load_ok files (load_scripts_c cl dv files) = true.
Proof.
  intros H. rewrite (load_clean cl dv files H). unfold load_ok. cbn [clean_load l_sink l_loaded l_script_logs sink_none andb].
  rewrite (eqb_refl_of _ (list_eqb_eq _ eqb_true_iff)). apply (eqb_refl_of _ (list_eqb_eq _ N.eqb_eq)).
Qed.

Lemma load_isolated : forall files, load_ok files (load_scripts all_off files) = true.
Proof. intros files. apply (load_ok_of_layers gen_classes), Forall_forall. intros o _. destruct o as [|[|]]; reflexivity. Qed.

Lemma load_isolated_today : forall files, Forall (fun o => o <> ORaise KBase) files -> load_ok files (load_scripts as_is files) = true.
Proof.
  intros files HF. apply (load_ok_of_layers gen_classes). revert HF. apply Forall_impl.
  intros o Ho. destruct o as [|[|]]; try reflexivity. congruence.
Qed.

Definition only_base : deviations := mkDev true false false.
Definition only_nowrap : deviations := mkDev false true false.
Definition only_break : deviations := mkDev false false true.

(* D181: a BaseException raised by a legacy trigger expression is not logged and ends the trigger *)
Lemma refuted_D181 :
  let h := [OUser EExprEvent (ORaise KBase); OUser EExprEvent ORet] in
  history_ok h (snd (run_history_c today_classes only_base Legacy all_alive h)) = false /\
  map ob_served (snd (run_history_c today_classes only_base Legacy all_alive h)) = [true; false].
Proof. split; reflexivity. Qed.

(* D181, service call: the exception reaches Home Assistant's caller *)
Lemma refuted_D181_service : forall sub, o_sink (run_site_c today_classes only_base sub EService (ORaise KBase)) = SkHA.
Proof. destruct sub; reflexivity. Qed.

(* D180: the default subsystem reports a trigger function's exception on another logger only *)
Lemma refuted_D180 : o_logs (run_site_c today_classes only_nowrap Dm ETrigFunc (ORaise KExc)) = [LOther].
Proof. reflexivity. Qed.

(* D22: the callback after a raising one does not run *)
Lemma refuted_D22 : cb_ran (run_callbacks_c today_classes only_break [ORaise KExc; ORet]) = [true; false].
Proof. reflexivity. Qed.

(* D188 (D181 at load time): the load loop is left, the files after the failing one are not loaded *)
Lemma refuted_D188 :
  l_sink (load_scripts_c today_classes only_base [ORet; ORaise KBase; ORet]) = SkHA /\
  l_loaded (load_scripts_c today_classes only_base [ORet; ORaise KBase; ORet]) = [true; false; false].
Proof. split; reflexivity. Qed.

Example all_alive_alive : forall e, all_alive e = true.
Proof. reflexivity. Qed.
Example today_instance : Forall (fun o => o <> ORaise KBase) [ORet; ORaise KExc; ORet].
Proof. repeat constructor; congruence. Qed.
