(* For lookup, not for reading first: name lists used as sets, lists searched by a name key
   (context tables, discovered files, memo tables), sort_by. *)
From PV Require Import Common.Util Life.ReloadBase Gen.ReloadConsts Life.Modules Life.Reload Life.ReloadPlanSpec Life.ReloadSpec
  Life.ReloadLoaded.
From Coq Require Import Permutation.

Lemma nl_eqb_eq a b : nl_eqb a b = true <-> a = b.
Proof. apply list_eqb_eq. intros; apply N.eqb_eq. Qed.
Lemma nl_eqb_spec a b : reflect (a = b) (nl_eqb a b).
Proof. apply iff_reflect. symmetry. apply nl_eqb_eq. Qed.
Lemma nl_eqb_refl a : nl_eqb a a = true.
Proof. apply nl_eqb_eq; reflexivity. Qed.
Lemma nl_eqb_neq a b : nl_eqb a b = false <-> a <> b.
Proof. destruct (nl_eqb_spec a b); split; congruence. Qed.
Lemma nl_eqb_sym a b : nl_eqb a b = nl_eqb b a.
Proof. exact (eqb_sym_of _ nl_eqb_eq a b). Qed.

Lemma nl_mem_In n l : nl_mem n l = true <-> In n l.
Proof. exact (existsb_eqb_In _ nl_eqb_eq n l). Qed.
Lemma nl_mem_false n l : nl_mem n l = false <-> ~ In n l.
Proof. exact (existsb_eqb_notin _ nl_eqb_eq n l). Qed.

Lemma nl_add_In x n l : In x (nl_add n l) <-> x = n \/ In x l.
Proof. rewrite or_comm. exact (In_add_eqb _ nl_eqb_eq n x l). Qed.

Lemma fold_add_In {X} (p : X -> bool) (g : X -> cname) l : forall acc k,
  In k (fold_left (fun acc x => if p x then nl_add (g x) acc else acc) l acc)
  <-> In k acc \/ exists x, In x l /\ p x = true /\ g x = k.
Proof.
  induction l as [|y l IH]; intros acc k; cbn [fold_left].
  - rewrite ex_In_nil. tauto.
  - rewrite IH, ex_In_cons, <- or_assoc. apply or_iff_compat_r. destruct (p y); [rewrite nl_add_In|]; intuition congruence.
Qed.

Corollary fold_nl_add_In (l acc : list cname) x :
  In x (fold_left (fun acc r => nl_add r acc) l acc) <-> In x acc \/ In x l.
Proof.
  rewrite (fold_add_In (fun _ => true) (fun r => r)).
  split; [intros [H|(y & Hy & _ & <-)]; auto|intros [H|H]; [auto|right; exists x; auto]].
Qed.

Lemma nl_union_In x a b : In x (nl_union a b) <-> In x a \/ In x b.
Proof. apply fold_nl_add_In. Qed.

Lemma nodup_names_NoDup l : nodup_names l = true -> NoDup l.
Proof.
  induction l as [|x l IH]; cbn; [constructor|]. rewrite andb_true_iff, negb_true_iff, nl_mem_false.
  intros [Hx Hl]. constructor; auto.
Qed.

Lemma NoDup_snoc {A} (l : list A) x : NoDup l -> ~ In x l -> NoDup (l ++ [x]).
Proof. intros H Hn. apply (Permutation_NoDup (Permutation_cons_append l x)). constructor; assumption. Qed.

(* the two lookups that take the list first, as Util's [al_get] *)
Lemma tree_get_al t p : tree_get t p = al_get (fun a b => nl_eqb b a) p t.
Proof. induction t as [|[q g] t IH]; cbn; [|rewrite IH]; reflexivity. Qed.
Lemma memo_get_al m n : memo_get m n = al_get (fun a b => nl_eqb b a) n m.
Proof. induction m as [|[k v] m IH]; cbn; [|rewrite IH]; reflexivity. Qed.

Lemma tree_get_In t p f : NoDup (map fst t) -> (tree_get t p = Some f <-> In (p, f) t).
Proof.
  intros Hn. rewrite tree_get_al.
  split; [apply (al_get_In _ (eqb_flip_eq _ nl_eqb_eq))|apply (al_In_get _ (eqb_flip_eq _ nl_eqb_eq)), Hn].
Qed.

Lemma memo_get_set m k v n : memo_get (memo_set m k v) n = if nl_eqb k n then Some v else memo_get m n.
Proof.
  unfold memo_set. rewrite memo_get_al, al_get_app.
  rewrite (al_get_filter _ (eqb_flip_eq _ nl_eqb_eq) (fun x => negb (nl_eqb x k))), <- memo_get_al. cbn [al_get].
  rewrite (nl_eqb_sym n k). destruct (nl_eqb k n); cbn [negb]; [reflexivity|]. destruct (memo_get m n); reflexivity.
Qed.
Lemma memo_get_set_same m k v : memo_get (memo_set m k v) k = Some v.
Proof. rewrite memo_get_set, nl_eqb_refl. reflexivity. Qed.
Lemma memo_get_set_other m k v n : k <> n -> memo_get (memo_set m k v) n = memo_get m n.
Proof. intros H. apply nl_eqb_neq in H. rewrite memo_get_set, H. reflexivity. Qed.

Lemma st_get_Some st n c : st_get st n = Some c -> In c st /\ c_name c = n.
Proof. apply (find_key_Some _ nl_eqb_eq). Qed.
Lemma st_get_None st n : st_get st n = None <-> ~ In n (st_names st).
Proof. apply (find_key_None _ nl_eqb_eq). Qed.
Lemma uniq_get st c : uniq_ctx st -> In c st -> st_get st (c_name c) = Some c.
Proof. apply (find_key_uniq _ nl_eqb_eq). Qed.

Lemma st_del_In st n c : In c (st_del st n) <-> In c st /\ c_name c <> n.
Proof. exact (In_remove_key _ nl_eqb_eq c_name n c st). Qed.
Lemma st_set_In st c x : In x (st_set st c) <-> x = c \/ (In x st /\ c_name x <> c_name c).
Proof.
  unfold st_set. rewrite in_app_iff, st_del_In. cbn. split; [intros [H|[H|[]]]; auto|intros [->|H]; auto].
Qed.

Lemma has_iff st n : has st n <-> exists c, In c st /\ c_name c = n.
Proof. unfold has, st_names. rewrite in_map_iff. split; intros (c & A & B); eauto. Qed.

Lemma st_del_notin st n : ~ has st n -> st_del st n = st.
Proof.
  intros H. apply filter_all. intros c Hc. apply negb_true_iff, nl_eqb_neq. intros E. apply H, has_iff. eauto.
Qed.

Lemma has_del st n m : has st m -> m = n \/ has (st_del st n) m.
Proof.
  intros H. apply has_iff in H. destruct H as (c & Hc & <-).
  destruct (list_eq_dec N.eq_dec (c_name c) n) as [E|E]; [left; exact E|right]. apply has_iff. exists c. split; [apply st_del_In; auto|reflexivity].
Qed.

Lemma has_set st c n : has (st_set st c) n <-> n = c_name c \/ has st n.
Proof.
  rewrite !has_iff. split.
  - intros (x & Hx & En). apply st_set_In in Hx. destruct Hx as [->|[Hx _]]; [auto|right; eauto].
  - intros [->|(x & Hx & En)].
    + exists c. split; [apply st_set_In; auto|reflexivity].
    + destruct (list_eq_dec N.eq_dec (c_name x) (c_name c)) as [E|E].
      * exists c. split; [apply st_set_In; auto|congruence].
      * exists x. split; [apply st_set_In; auto|exact En].
Qed.

Lemma uniq_st_del st n : uniq_ctx st -> uniq_ctx (st_del st n).
Proof. apply NoDup_map_filter. Qed.

Lemma uniq_st_set st c : uniq_ctx st -> uniq_ctx (st_set st c).
Proof.
  intros H. unfold st_set, uniq_ctx. rewrite map_app. apply NoDup_snoc; [apply uniq_st_del, H|].
  intros HI. apply in_map_iff in HI. destruct HI as (x & E & HI). apply st_del_In in HI. tauto.
Qed.

Lemma sf_find_Some fs n s : sf_find fs n = Some s -> In s fs /\ sf_name s = n.
Proof. apply (find_key_Some _ nl_eqb_eq). Qed.
Lemma sf_find_None fs n : sf_find fs n = None <-> ~ In n (map sf_name fs).
Proof. apply (find_key_None _ nl_eqb_eq). Qed.
Lemma sf_find_uniq fs s : uniq_files fs -> In s fs -> sf_find fs (sf_name s) = Some s.
Proof. apply (find_key_uniq _ nl_eqb_eq). Qed.
Lemma sf_has_In fs n : sf_has fs n = true <-> In n (map sf_name fs).
Proof. apply (existsb_key_In _ nl_eqb_eq). Qed.
Lemma sf_find_has fs n : sf_has fs n = true <-> exists s, sf_find fs n = Some s.
Proof.
  rewrite sf_has_In. destruct (sf_find fs n) as [s|] eqn:E.
  - apply sf_find_Some in E. destruct E as [Hs <-]. split; [eauto|]. intros _. apply in_map, Hs.
  - apply sf_find_None in E. split; [tauto|]. intros (s & H). discriminate.
Qed.

Lemma insert_by_perm {A} (key : A -> list N) x l : Permutation (insert_by key x l) (x :: l).
Proof.
  induction l as [|y l IH]; cbn; [apply Permutation_refl|].
  destruct (nl_ltb (key x) (key y)); [apply Permutation_refl|].
  eapply Permutation_trans; [apply perm_skip; exact IH|apply perm_swap].
Qed.

Lemma sort_by_perm {A} (key : A -> list N) l : Permutation (sort_by key l) l.
Proof.
  unfold sort_by. induction l as [|x l IH]; cbn; [apply Permutation_refl|].
  eapply Permutation_trans; [apply insert_by_perm|apply perm_skip; exact IH].
Qed.

Lemma sort_by_In {A} (key : A -> list N) l x : In x (sort_by key l) <-> In x l.
Proof. split; apply Permutation_in; [apply sort_by_perm|apply Permutation_sym, sort_by_perm]. Qed.

Lemma ctx_all_In st c : In c (ctx_all st) <-> In c st /\ in_ctx_roots (c_name c) = true.
Proof. unfold ctx_all. rewrite filter_In, sort_by_In. reflexivity. Qed.

Lemma ctx_all_uniq st : uniq_ctx st -> NoDup (map c_name (ctx_all st)).
Proof.
  intros H. apply NoDup_map_filter. eapply Permutation_NoDup; [|exact H].
  apply Permutation_map, Permutation_sym, sort_by_perm.
Qed.

Lemma load_list_In fs s : In s (load_list fs) <-> In s fs /\ sf_auto s = true /\ sf_force s = true.
Proof. unfold load_list. rewrite filter_In, sort_by_In, andb_true_iff. tauto. Qed.

Lemma plan_not_ok dv st fs a : p_ok (plan dv st fs a) = false -> p_del (plan dv st fs a) = [] /\ p_files (plan dv st fs a) = fs.
Proof.
  unfold plan. destruct (plan_changed dv (ctx_all st) fs a) as [ps1|]; [|cbn; auto].
  destruct (plan_imports dv st (ctx_all st) ps1) as [ps2 fok]. cbn. discriminate.
Qed.
