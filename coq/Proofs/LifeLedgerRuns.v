(* C09: which functions an operation can run and whose tasks it hands to the reaper ([eff], [does_eff]); hence once a function is
   stopped and the reaper has cancelled its tasks ([Dead]), no occurrence runs it ([no_run_after_stop]).  The second half of the
   file uses none of this but [dead_after_settle]: each deviation switch refuted on a witness by evaluation, and the conformant
   model evaluated on the scenarios of the seeded changes. *)
From Coq Require Import List NArith Bool Lia.
From PV Require Import Common.Util Life.Ledger Proofs.LifeLedger Proofs.LifeLedgerSys Proofs.LifeLedgerDoes.
Import ListNotations.
Local Open Scope N_scope.

Definition logged (P : run -> Prop) (W W' : world) : Prop := exists rs, w_log W' = w_log W ++ rs /\ forall r, In r rs -> P r.

Lemma logged_same P W W' : w_log W' = w_log W -> logged P W W'.
Proof. intros E. exists []. rewrite app_nil_r. split; [exact E|intros r []]. Qed.

Lemma logged_trans P A B C : logged P A B -> logged P B C -> logged P A C.
Proof.
  intros [r1 [E1 P1]] [r2 [E2 P2]]. exists (r1 ++ r2). rewrite E2, E1, app_assoc. split; [reflexivity|].
  intros r Hr. apply in_app_or in Hr. destruct Hr as [Hr|Hr]; [apply P1|apply P2]; exact Hr.
Qed.

Definition unit_of (fs : list func) (P : unit_ -> Prop) : Prop := exists f u, In f fs /\ In u (f_units f) /\ P u.

(* only units of [fs] ran or had tasks queued for the reaper; the first clause is [logged], written out *)
Definition eff (W W' : world) (fs : list func) : Prop :=
  (exists rs, w_log W' = w_log W ++ rs /\ forall r, In r rs -> unit_of fs (fun u => r_gen r = u_gen u)) /\
  (forall t, In t (l_reap (w_led W')) -> In t (l_reap (w_led W)) \/ unit_of fs (fun u => u_id u = t)).

Lemma eff_same W W' fs : w_log W' = w_log W -> l_reap (w_led W') = l_reap (w_led W) -> eff W W' fs.
Proof.
  intros E R. split; [exact (logged_same _ W W' E)|]. intros t Ht. left. rewrite <- R. exact Ht.
Qed.

Lemma eff_refl W fs : eff W W fs.
Proof. apply eff_same; reflexivity. Qed.

Lemma eff_trans A B C fs : eff A B fs -> eff B C fs -> eff A C fs.
Proof.
  intros [G1 R1] [G2 R2]. split.
  - exact (logged_trans _ A B C G1 G2).
  - intros t Ht. destruct (R2 t Ht) as [H|H]; [exact (R1 t H)|right; exact H].
Qed.

Lemma eff_mono W W' fs fs' : incl fs fs' -> eff W W' fs -> eff W W' fs'.
Proof.
  intros HI [[rs [E P]] R].
  assert (M : forall Q, unit_of fs Q -> unit_of fs' Q) by (intros Q [f [u [Hf X]]]; exists f, u; split; [exact (HI f Hf)|exact X]).
  split; [exists rs; split; [exact E|intros r Hr; exact (M _ (P r Hr))]|]. intros t Ht. destruct (R t Ht) as [H|H]; [left; exact H|right; exact (M _ H)].
Qed.

Lemma eff_unit W W' fs f u rs : In f fs -> In u (f_units f) -> w_log W' = w_log W ++ rs ->
  (forall r, In r rs -> r_gen r = u_gen u) ->
  (forall t, In t (l_reap (w_led W')) -> In t (l_reap (w_led W)) \/ t = u_id u) -> eff W W' fs.
Proof.
  intros Hf Hu E P R. split.
  - exists rs. split; [exact E|]. intros r Hr. exists f, u. auto.
  - intros t Ht. destruct (R t Ht) as [H| ->]; [left; exact H|right; exists f, u; auto].
Qed.

Lemma started_eff nw W W' f u fs : In f fs -> In u (f_units f) -> started nw u W W' -> eff W W' fs.
Proof.
  intros Hf Hu ST. apply (eff_unit W W' fs f u _ Hf Hu (sr_log _ _ _ _ ST)).
  - intros r Hr. rewrite (startup_run_spec u r Hr). reflexivity.
  - rewrite (aq_reap _ _ _ _ (sr_acquired _ _ _ _ ST)). auto.
Qed.

Lemma leg_unit_start_eff W u fs : eff W (leg_unit_start W u) fs.
Proof. apply eff_same; reflexivity. Qed.

Lemma stopped_eff nw W W' f u fs : In f fs -> In u (f_units f) -> stopped nw u W W' -> eff W W' fs.
Proof.
  intros Hf Hu ST. destruct (sp_log _ _ _ _ ST) as [r0 [EL R0]]. apply (eff_unit W W' fs f u r0 Hf Hu EL).
  - destruct R0 as [->|[_ ->]]; [|intros r []]. intros r Hr. rewrite (shutdown_run_spec u r Hr). reflexivity.
  - destruct (sp_reap _ _ _ _ ST) as [->| ->]; [auto|intros t; apply In_addn].
Qed.

Definition act_funcs (W : world) : list func := filter (fun f => memn (f_gen f) (w_active W)) (w_funcs W).

Lemma In_act_funcs W f : In f (act_funcs W) <-> In f (w_funcs W) /\ In (f_gen f) (w_active W).
Proof. unfold act_funcs. rewrite filter_In, memn_In. reflexivity. Qed.

Lemma act_funcs_shrink W W' : shrink W W' -> incl (act_funcs W') (act_funcs W).
Proof. intros [T _ S] f. rewrite !In_act_funcs, T. intros [Hf A]. split; [exact Hf|exact (S _ A)]. Qed.

(* only functions active before the operation ran or had tasks queued for the reaper *)
Theorem does_eff W W' : does W W' -> Inv W -> eff W W' (act_funcs W).
Proof.
  intros D.
  induction D as [W|A B C D1 IH1 _ IH2|W W' SR _ _ _ EL|W W' f u O CA _ _ ST|W W' f stop HS Hf CA R|W L' LS|W f u _ _ _ _ _];
    intros HI.
  - (* D_refl *) apply eff_refl.
  - (* D_trans: what was active after the first part was active before *)
    destruct (does_inv A B D1 HI) as [HB SB].
    exact (eff_trans _ _ _ _ (IH1 HI) (eff_mono _ _ _ _ (act_funcs_shrink A B SB) (IH2 HB))).
  - (* D_status *) apply eff_same; [exact EL|exact (su_reap _ _ (same_res_units _ _ SR))].
  - (* D_started *) exact (started_eff _ W _ f u _ (proj2 (In_act_funcs W f) (conj (proj1 O) CA)) (proj2 O) ST).
  - (* D_stop: each unit in turn, then nothing is logged or queued *)
    apply (eff_trans _ (fold_left stop (f_units f) W)); [|apply eff_same; [exact (rt_log _ _ _ R)|exact (su_reap _ _ (same_res_units _ _ (rt_res _ _ _ R)))]].
    apply (stop_units_ind f stop W (fun _ V => eff W V (act_funcs W)) HS HI Hf (eff_refl _ _)).
    intros pre u post V V' _ Hu ST EV. exact (eff_trans _ _ _ _ EV (stopped_eff _ V V' f u _ (proj2 (In_act_funcs W f) (conj Hf CA)) Hu ST)).
  - (* D_less *) split; [exact (logged_same _ W (set_led W L') eq_refl)|]. intros t H. left. exact (ls_reap _ _ LS t H).
  - (* D_leg_unit *) apply leg_unit_start_eff.
Qed.

(* generation g was defined, its triggers have been stopped, and the reaper has processed its tasks *)
Definition Dead (g : N) (W : world) : Prop :=
  ~ In g (w_active W) /\ g < w_next W /\
  forall f u, owns W f u -> f_gen f = g -> ~ In (u_id u) (l_reap (w_led W)).

Definition stays_dead (g : N) (W W' : world) : Prop := Dead g W' /\ logged (fun r => r_gen r <> g) W W'.

(* the second part may start from g being dead *)
Lemma stays_dead_trans g A B C : stays_dead g A B -> (Dead g B -> stays_dead g B C) -> stays_dead g A C.
Proof. intros [D1 G1] H. destruct (H D1) as [D2 G2]. exact (conj D2 (logged_trans _ A B C G1 G2)). Qed.

Lemma stays_dead_same g W W' : Dead g W' -> w_log W' = w_log W -> stays_dead g W W'.
Proof. intros D E. exact (conj D (logged_same _ W W' E)). Qed.

(* the functions that acted were active, so none of them is g *)
Lemma does_stays_dead W W' g : does W W' -> Inv W -> Dead g W -> stays_dead g W W'.
Proof.
  intros D HI [NA [LT DR]]. destruct (does_inv W W' D HI) as [_ [TF TN SA]].
  destruct (does_eff W W' D HI) as [[rs [EL PL]] ER]. pose proof HI as [I _].
  assert (NG : forall f, In f (act_funcs W) -> In f (w_funcs W) /\ f_gen f <> g).
  { intros f Hf. apply In_act_funcs in Hf. split; [apply Hf|]. intros E. rewrite E in Hf. exact (NA (proj2 Hf)). }
  split; [split; [intros C; exact (NA (SA _ C))|split; [lia|]]|].
  - intros f u O E Ht. apply (owns_same _ _ f u TF) in O. destruct (ER _ Ht) as [H|[f' [u' [Hf' [Hu' E']]]]]; [exact (DR f u O E H)|].
    destruct (NG f' Hf') as [Hf'' N']. destruct (io_uniq W I f' u' f u (conj Hf'' Hu') O E') as [-> _]. exact (N' E).
  - exists rs. split; [exact EL|]. intros r Hr. destruct (PL r Hr) as [f [u [Hf [Hu E]]]]. destruct (NG f Hf) as [Hf' N'].
    rewrite E, (proj1 (io_unit W I f u (conj Hf' Hu))). exact N'.
Qed.

(* the new function object: nothing runs, and its ids are not below the old counter *)
Lemma define_mid_stays_dead c n s W g : Dead g W -> stays_dead g W (define_mid c n s W).
Proof.
  intros [NA [LT DR]]. destruct (define_mid_spec c n s W) as [EF EN EA _ LG SU _].
  apply stays_dead_same; [split; [|split]|exact LG]; rewrite ?EA, ?EN, ?(su_reap _ _ SU).
  - intros C. apply in_app_or in C. destruct C as [C|[C|[]]]; [exact (NA C)|lia].
  - cbn [define_obj w_next]. lia.
  - intros f u [Hf Hu] E. rewrite EF in Hf. apply in_app_or in Hf. destruct Hf as [Hf|[<-|[]]]; [exact (DR f u (conj Hf Hu) E)|].
    cbn [new_func f_gen] in E. lia.
Qed.

Theorem run_ops_stays_dead cfg ops W g : leak_free cfg -> d21_handler_stays cfg = false -> Inv W -> Dead g W ->
  stays_dead g W (run_ops cfg ops W).
Proof.
  intros LK D21 HI HD.
  apply (run_ops_ind cfg (stays_dead g W) LK); [| | |exact HI|exact (stays_dead_same g W W HD eq_refl)].
  - intros V V' HV D SV. exact (stays_dead_trans g W V V' SV (does_stays_dead V V' g D HV)).
  - (* an occurrence runs active functions or units still waiting for the reaper: none of g *)
    intros V o HV SV. apply (stays_dead_trans g W V _ SV). intros [DA [LT DR]]. split; [exact (conj DA (conj LT DR))|]. exists (occ_runs cfg o V). split; [reflexivity|].
    intros r Hr Eg. destruct (occ_runs_spec cfg V o r D21 HV Hr) as [_ [_ [H|[f [u [O [Ef H]]]]]]]; [rewrite Eg in H; exact (DA H)|].
    apply (DR f u O); [congruence|exact H].
  - intros V c n s _ SV. exact (stays_dead_trans g W V _ SV (define_mid_stays_dead c n s V g)).
Qed.

Theorem no_run_after_stop cfg : leak_free cfg -> d21_handler_stays cfg = false -> forall ops W g, Inv W -> Dead g W ->
  exists rs, w_log (run_ops cfg ops W) = w_log W ++ rs /\ forall r, In r rs -> r_gen r <> g.
Proof. intros LK D21 ops W g HI HD. exact (proj2 (run_ops_stays_dead cfg ops W g LK D21 HI HD)). Qed.

Lemma dead_after_reap W g : Inv W -> ~ In g (w_active W) -> g < w_next W -> Dead g (do_reap W).
Proof.
  intros HI A N. split; [exact A|split; [exact N|]]. intros f u O E H. destruct H.
Qed.

Lemma dead_after_settle W g : ~ In g (w_active W) -> g < w_next W -> Dead g (settle W).
Proof.
  intros A N. unfold settle.
  assert (K : forall id V, w_active (prologue id V) = w_active V /\ w_next (prologue id V) = w_next V).
  { intros id V. unfold prologue. destruct (find_unit V id); [|split; reflexivity].
    destruct (memn id (w_pending V)); [split; reflexivity|]. destruct (memn id (w_zombie V)); split; reflexivity. }
  assert (F : w_active (fold_left (fun W u => prologue u W) (w_pending W ++ w_zombie W) W) = w_active W /\
              w_next (fold_left (fun W u => prologue u W) (w_pending W ++ w_zombie W) W) = w_next W).
  { apply (fold_left_inv (fun V => w_active V = w_active W /\ w_next V = w_next W)); [|split; reflexivity].
    intros V id _ E. destruct (K id V) as [-> ->]. exact E. }
  destruct F as [E1 E2]. split; [|split; [|intros f u O E []]]; unfold do_reap; wsimpl; [rewrite E1|rewrite E2]; assumption.
Qed.

Definition cfg_only16 := {| d16_notify_del_return := true; d90_dropped_dm_started := false; d91_pending_subscribes := false; d21_handler_stays := false;
  d92_cell_import_not_started := false; d93_fault_pins_function := false |}.

Definition cfg_only90 := {| d16_notify_del_return := false; d90_dropped_dm_started := true; d91_pending_subscribes := false; d21_handler_stays := false;
  d92_cell_import_not_started := false; d93_fault_pins_function := false |}.

Definition cfg_only91 := {| d16_notify_del_return := false; d90_dropped_dm_started := false; d91_pending_subscribes := true; d21_handler_stays := false;
  d92_cell_import_not_started := false; d93_fault_pins_function := false |}.

Definition cfg_only21 := {| d16_notify_del_return := false; d90_dropped_dm_started := false; d91_pending_subscribes := false; d21_handler_stays := true;
  d92_cell_import_not_started := false; d93_fault_pins_function := false |}.

Definition cfg_only92 := {| d16_notify_del_return := false; d90_dropped_dm_started := false; d91_pending_subscribes := false;
  d21_handler_stays := false; d92_cell_import_not_started := true; d93_fault_pins_function := false |}.

Definition cfg_only93 := {| d16_notify_del_return := false; d90_dropped_dm_started := false; d91_pending_subscribes := false;
  d21_handler_stays := false; d92_cell_import_not_started := false; d93_fault_pins_function := true |}.

(* the three names {a.b, a.b.old, c.d}: entity 1 with two names, entity 2 with one *)
Definition w_ab := {| i_ent := 1; i_parts := 2; i_tag := 0 |}.

Definition w_ab_old := {| i_ent := 1; i_parts := 3; i_tag := 1 |}.

Definition w_cd := {| i_ent := 2; i_parts := 2; i_tag := 0 |}.

Definition w_unit (order : list ident) : unit_ :=
  {| u_id := 5; u_gen := 4; u_state := Some order; u_event := None; u_periodic := false; u_startup := false; u_shutdown := false; u_crash := false |}.

Lemma wit_fresh : id_fresh 5 ledger0 /\ ledger_wf ledger0.
Proof.
  split.
  - unfold id_fresh. repeat split; cbn; try discriminate; try (intros ? []); try (intros []).
  - unfold ledger_wf. cbn. split; [|split; [reflexivity|repeat split; constructor]].
    intros ev. split; [intros []|]. unfold has_fst. cbn. discriminate.
Qed.

(* with the early `return`, the entity iterated after both names of the first entity keeps its queue ... *)
Lemma refuted_D16_cycle : leg_cycle cfg_only16 (w_unit [w_ab; w_ab_old; w_cd]) ledger0 <> ledger0 /\
                          dec_cycle cfg_only16 (w_unit [w_ab; w_ab_old; w_cd]) ledger0 <> ledger0.
Proof. split; vm_compute; discriminate. Qed.

(* ... while another iteration order of the same set releases everything: the leak depends on the hash seed *)
Lemma D16_order_dependent : leg_cycle cfg_only16 (w_unit [w_cd; w_ab; w_ab_old]) ledger0 = ledger0 /\
                            leg_cycle cfg_only16 (w_unit [w_ab; w_cd; w_ab_old]) ledger0 = ledger0.
Proof. split; vm_compute; reflexivity. Qed.

Definition wit_spec_svc (order : list ident) (svc : option N) (pos : nat) : fspec :=
  {| s_states := [order]; s_events := [1]; s_times := [{| ts_periodic := false; ts_startup := true; ts_shutdown := true |}];
     s_svc := svc; s_pos := pos; s_crash := false |}.

Definition wit_spec (order : list ident) : fspec := wit_spec_svc order (Some 7) 3.

(* D16 at system level: define in one cell, delete in the next, unload: entity 2 keeps a dead queue *)
Lemma refuted_D16_baseline :
  w_led (unload cfg_only16 (run_ops cfg_only16
     [OCtxAuto 0 false; ODefine 0 false (wit_spec [w_ab; w_ab_old; w_cd]); OCtxStart 0 []; OSettle; ODropped 1; OSettle] world0)) <> ledger0.
Proof. vm_compute. discriminate. Qed.

(* D90: new subsystem, a function redefined in the cell that defined it: the dropped generation 1 still runs *)
Definition ops_D90 : list op :=
  [OCtxAuto 0 false; ODefine 0 true (wit_spec [w_ab]); ODefine 0 true (wit_spec [w_ab]); ODropped 1; OCtxStart 0 []; OResumeAll; OSettle; OState 1].

Lemma refuted_D90 :
  existsb (fun r => N.eqb (r_gen r) 1 && N.eqb (rkind_code (r_kind r)) 0) (w_log (run_ops cfg_only90 ops_D90 world0)) = true /\
  existsb (fun r => N.eqb (r_gen r) 1 && N.eqb (rkind_code (r_kind r)) 0) (w_log (run_ops cfg_off ops_D90 world0)) = false.
Proof. split; vm_compute; reflexivity. Qed.

(* D91: legacy, a function defined and dropped before its trigger task ran: subscriptions survive even unload *)
Definition ops_D91 : list op := [OCtxAuto 0 true; ODefine 0 false (wit_spec [w_ab]); ODropped 1; OSettle].

Lemma refuted_D91 :
  w_led (unload cfg_only91 (run_ops cfg_only91 ops_D91 world0)) <> ledger0 /\
  w_led (unload cfg_off (run_ops cfg_off ops_D91 world0)) = ledger0.
Proof. split; vm_compute; [discriminate|reflexivity]. Qed.

(* D21: two live functions of one context declare service 7; the newer one is dropped: a call still reaches it *)
Definition svc_only (n : N) : fspec := {| s_states := []; s_events := []; s_times := []; s_svc := Some n; s_pos := 0; s_crash := false |}.

Definition ops_D21 : list op := [OCtxAuto 0 true; ODefine 0 false (svc_only 7); ODefine 0 false (svc_only 7); ODropped 2; OSettle; OCall 7].

Lemma refuted_D21 :
  map r_gen (w_log (run_ops cfg_only21 ops_D21 world0)) = [2] /\ map r_gen (w_log (run_ops cfg_off ops_D21 world0)) = [1].
Proof. split; vm_compute; reflexivity. Qed.

(* the conformant model on the scenario of the seeded change C09-1: a registration of service 7 from context 2 is
   refused (both subsystems); when the owner's context stops, nothing of either function is left and a call runs nothing *)
Definition ops_refused (newsys : bool) : list op :=
  [ODefine 1 newsys (wit_spec [w_ab]); OCtxStart 1 []; OResumeAll; OSettle;
   ODefine 2 newsys (wit_spec [w_cd]); OCtxStart 2 []; OResumeAll; OSettle; OCall 7; OCtxStop 1; OResumeAll; OSettle; OCall 7; OState 2].

Example ex_refused : forall newsys,
  let W := run_ops cfg_off (ops_refused newsys) world0 in
  w_led W = ledger0 /\ svc_count W 7 = 0%nat /\ filter (fun r => N.eqb (rkind_code (r_kind r)) 5) (w_log W) =
     [{| r_gen := 1; r_kind := RService; r_unit := 1 |}].
Proof. intros [|]; vm_compute; repeat split; reflexivity. Qed.

(* and of C09-3: new subsystem, @service in front of the triggers: the context is stopped while start() is suspended behind the
   service registration; when start() resumes it starts nothing, whatever comes later runs nothing *)
Definition ops_overtake (pos : nat) : list op :=
  [ODefine 1 true (wit_spec_svc [w_ab] (Some 7) pos); OCtxStart 1 []; OEvent 1; OCtxStop 1; OResumeAll; OSettle; OEvent 1; OState 1; OCall 7].

Definition ledger_eqb_empty (L : ledger) : bool :=
  match l_state L, l_event L, l_bus L, l_tasks L, l_reap L, l_svc L with [], [], [], [], [], [] => true | _, _, _, _, _, _ => false end.

Example ex_overtake :
  map (fun pos => let W := run_ops cfg_off (ops_overtake pos) world0 in
                  (ledger_eqb_empty (w_led W), map (fun r => rkind_code (r_kind r)) (w_log W))) [0%nat; 1%nat; 2%nat; 3%nat] =
  [(true, []); (true, []); (true, [1]); (true, [3; 1; 4])].
Proof. vm_compute. reflexivity. Qed.

(* D92: a module (context 11) imported inside a Jupyter cell (context 0): loaded with auto_start off, never started *)
Definition ops_D92 (newsys : bool) : list op :=
  [OCtxAuto 0 false; OCtxAuto 11 false; ODefine 11 newsys (wit_spec [w_ab]); OCtxStart 0 []; OCellImportStart 11 []; OResumeAll; OSettle;
   OState 1; OEvent 1].

Lemma refuted_D92 : forall newsys,
  map r_gen (w_log (run_ops cfg_only92 (ops_D92 newsys) world0)) = [] /\
  map r_gen (w_log (run_ops cfg_off (ops_D92 newsys) world0)) = [1; 1; 1].
Proof. intros [|]; split; vm_compute; reflexivity. Qed.

(* D93: new subsystem, function defined in a started context, startup dispatch raises: dropping it stops nothing *)
Definition pin_spec : fspec :=
  {| s_states := [[w_ab]]; s_events := []; s_times := [{| ts_periodic := false; ts_startup := true; ts_shutdown := false |}];
     s_svc := None; s_pos := 0; s_crash := true |}.

Definition ops_D93 : list op :=
  [OCtxAuto 0 true; ODefine 0 true pin_spec; OResume 1; OResumeAll; OSettle; OStartupCrash; ODropped 1; OResumeAll; OSettle].

Lemma refuted_D93 :
  l_state (w_led (run_ops cfg_only93 ops_D93 world0)) = [(1, 2)] /\ w_led (run_ops cfg_off ops_D93 world0) = ledger0.
Proof. split; vm_compute; reflexivity. Qed.

(* a function whose every dispatch raises: its watchers die at the first occurrence, it never runs through a trigger,
   and stopping its context still leaves the empty ledger (seeded change C09-9), in both subsystems *)
Definition crash_spec : fspec :=
  {| s_states := [[w_ab; w_cd]]; s_events := [1]; s_times := [{| ts_periodic := true; ts_startup := false; ts_shutdown := true |}];
     s_svc := Some 7; s_pos := 3; s_crash := true |}.

Definition ops_crash (newsys : bool) : list op :=
  [ODefine 1 newsys crash_spec; OCtxStart 1 []; OResumeAll; OSettle; OStartupCrash; OState 1; OEvent 1; OTick; OCall 7;
   OCtxStop 1; OResumeAll; OSettle; OState 2].

Example ex_crash : forall newsys, let W := run_ops cfg_off (ops_crash newsys) world0 in
  w_led W = ledger0 /\ map (fun r => rkind_code (r_kind r)) (w_log W) = (if newsys then [5] else [5; 4]).
Proof. intros [|]; vm_compute; split; reflexivity. Qed.

(* a ledger holding entries of other units *)
Definition ex_ledger : ledger :=
  {| l_state := [(1, 7); (2, 7); (1, 9)]; l_event := [(1, 7)]; l_bus := [(1, 0); (2, 9)]; l_tasks := [7; 9]; l_reap := []; l_svc := [3] |}.

Example ex_inverse_hyps : id_fresh 5 ex_ledger /\ ledger_wf ex_ledger.
Proof.
  split.
  - repeat split; cbn; try discriminate.
    + intros p [<-|[<-|[<-|[]]]]; cbn; discriminate.
    + intros p [<-|[]]; cbn; discriminate.
    + intros p [<-|[<-|[]]]; cbn; discriminate.
    + intros [H|[H|[]]]; discriminate.
    + intros [].
  - repeat split; cbn.
    + intros [H|[H|[]]]; inversion H; subst; reflexivity.
    + intros H. destruct (N.eqb_spec ev 1) as [->|NE]; [left; reflexivity|].
      apply has_fst_In in H. destruct H as [q [H|[]]]. inversion H. congruence.
    + repeat constructor; cbn; intuition discriminate.
    + repeat constructor; cbn; intuition discriminate.
    + repeat constructor; cbn; intuition discriminate.
Qed.

Example ex_inverse_instance :
  leg_cycle cfg_off (w_unit [w_ab; w_ab_old; w_cd]) ex_ledger = ex_ledger /\
  fst (leg_prologue (w_unit [w_ab; w_ab_old; w_cd]) (leg_start (w_unit [w_ab; w_ab_old; w_cd]) ex_ledger)) <> ex_ledger.
Proof. split; vm_compute; [reflexivity|discriminate]. Qed.

(* a reachable world in which generation 1 is Dead and generation 3 still runs *)
Definition ex_ops0 : list op :=
  [OCtxAuto 0 true; ODefine 0 false (wit_spec [w_ab; w_cd]); ODefine 0 false (wit_spec_svc [w_ab] (Some 8) 3); OSettle; OState 1; ODropped 1; OSettle].

Example ex_dead : Dead 1 (run_ops cfg_off ex_ops0 world0) /\
  map r_gen (w_log (run_ops cfg_off (ex_ops0 ++ [OState 1; OEvent 1]) world0)) = [1; 3; 1; 3; 1; 3; 3].
Proof.
  split; [|vm_compute; reflexivity].
  assert (E : run_ops cfg_off ex_ops0 world0 =
    settle (run_ops cfg_off [OCtxAuto 0 true; ODefine 0 false (wit_spec [w_ab; w_cd]); ODefine 0 false (wit_spec_svc [w_ab] (Some 8) 3); OSettle; OState 1; ODropped 1] world0))
    by (vm_compute; reflexivity).
  rewrite E.
  apply dead_after_settle; vm_compute; [intros [H|[]]; discriminate|reflexivity].
Qed.
