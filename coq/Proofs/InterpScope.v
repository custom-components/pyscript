(* With the listed deviations repaired, pyscript's static analysis of a function body (get_names_set / get_target_names
   as used by resolve_nonlocals) classifies every name as CPython's symbol table does, for every body built from the
   binder forms both implement.  The two scans are compared node by node ([ps_scan_node_eq]); they agree up to the names a
   helper node binds on behalf of its parent statement ([own]).  After [locals_equiv]: its converse [refuted_unless_off]
   (a refuting body for each of D12, D31-D34), a worked body, the checker bridge [scase_model_implies_spec]. *)
From Coq Require Import String.
From PV Require Import Common.Util Interp.Scope Interp.ScopeCheck.

Lemma node_ind' (P : node -> Prop) :
  (forall t strs kids, (forall k, In k kids -> P (snd k)) -> P (Node t strs kids)) -> forall n, P n.
Proof.
  intros H. fix IH 1. intros [t strs kids]. apply H.
  induction kids as [|k r IHr]; [intros k' []|intros k' [<-|Hk]; [apply IH|apply IHr, Hk]].
Qed.

Definition set_eq (a b : list ident) : Prop := forall x, In x a <-> In x b.

Lemma smem_In x l : smem x l = true <-> In x l.
Proof. exact (existsb_eqb_In _ String.eqb_eq x l). Qed.

Lemma smem_set_eq a b x : set_eq a b -> smem x a = smem x b.
Proof. intros H. apply eq_iff_eq_true. rewrite !smem_In. apply H. Qed.

Lemma smem_app x a b : smem x (a ++ b) = smem x a || smem x b.
Proof. unfold smem. apply existsb_app. Qed.

Lemma smem_filter x (f : ident -> bool) l : smem x (filter f l) = smem x l && f x.
Proof. exact (existsb_eqb_filter _ String.eqb_eq f x l). Qed.

Lemma flat_map_nil {A B} (l : list A) : flat_map (fun _ => @nil B) l = [].
Proof. induction l; cbn; auto. Qed.

Lemma flat_map_ext_in {A B} (f g : A -> list B) l : (forall x, In x l -> f x = g x) -> flat_map f l = flat_map g l.
Proof. intros H. rewrite !flat_map_concat_map. f_equal. apply map_ext_in, H. Qed.

Lemma in_flat_map_app {A B} (f g : A -> list B) l y :
  In y (flat_map (fun x => f x ++ g x) l) <-> In y (flat_map f l) \/ In y (flat_map g l).
Proof.
  rewrite !in_flat_map. split.
  - intros (x & Hx & [H|H]%in_app_iff); [left|right]; exists x; split; assumption.
  - intros [(x & Hx & H)|(x & Hx & H)]; exists x; (split; [assumption|]); apply in_app_iff; [left|right]; assumption.
Qed.

Lemma in_flat_map_ext {A B} (f g : A -> list B) l y :
  (forall x, In x l -> In y (f x) <-> In y (g x)) -> In y (flat_map f l) <-> In y (flat_map g l).
Proof. intros H. rewrite !in_flat_map. split; intros (x & Hx & Hy); exists x; (split; [assumption|]); apply (H x Hx); assumption. Qed.

Lemma flat_map_kids_in {B} (g : node -> list B) f kids :
  flat_map g (kids_in f kids) = flat_map (fun k => if fld_eqb (fst k) f then g (snd k) else []) kids.
Proof.
  unfold kids_in. induction kids as [|k r IH]; cbn [filter map flat_map]; [reflexivity|].
  destruct (fld_eqb (fst k) f); cbn [map flat_map app]; rewrite IH; reflexivity.
Qed.

Lemma sets_concat_map {A} (f : A -> sets) l :
  sets_concat (map f l) =
  {| st_local := flat_map (fun x => st_local (f x)) l; st_global := flat_map (fun x => st_global (f x)) l;
     st_nonlocal := flat_map (fun x => st_nonlocal (f x)) l |}.
Proof. unfold sets_concat. induction l as [|x r IH]; cbn [map fold_right flat_map]; [reflexivity|]. rewrite IH. reflexivity. Qed.

Lemma all_off_eq cfg : s_all_off cfg -> cfg = sdev_off.
Proof. destruct cfg. unfold s_all_off. cbn. intros (H1 & H2 & H3 & H4 & H5). subst. reflexivity. Qed.

Lemma sets_eta s : s = {| st_local := st_local s; st_global := st_global s; st_nonlocal := st_nonlocal s |}.
Proof. destruct s. reflexivity. Qed.

Lemma wf_kid t strs kids k : wf_node (Node t strs kids) = true -> In k kids ->
  parent_ok t (node_tag (snd k)) = true /\ wf_node (snd k) = true.
Proof.
  cbn [wf_node]. rewrite andb_true_iff, forallb_forall. intros [H _] Hk. specialize (H k Hk).
  apply andb_true_iff in H. exact H.
Qed.

Lemma target_names_equiv : forall n, target_ok n = true -> ps_target_names n = py_target_names n.
Proof.
  induction n as [t strs kids IH] using node_ind'. intros Hok.
  destruct t; try reflexivity; try discriminate.
  (* a tuple is left: element by element *)
  cbn [ps_target_names py_target_names]. cbn [target_ok] in Hok. rewrite forallb_forall in Hok.
  apply flat_map_ext_in. intros k Hk. specialize (Hok k Hk). specialize (IH k Hk).
  destruct (snd k) as [kt kstrs skids] eqn:Ek.
  destruct kt; try (apply IH; exact Hok).
  (* a starred element *)
  cbn [py_target_names]. rewrite forallb_forall in Hok.
  apply flat_map_ext_in. intros sk Hsk. specialize (Hok sk Hsk).
  destruct (snd sk) as [st sstrs sskids]. destruct st; try discriminate. reflexivity.
Qed.

Lemma delete_target_equiv n :
  target_ok n = true -> tag_eqb (node_tag n) TgTuple = false ->
  match n with Node TgName ns _ => ns | _ => [] end = py_target_names n.
Proof. destruct n as [t strs kids]. destruct t; cbn; intros; try reflexivity; discriminate. Qed.

Lemma sup_kid t strs kids k : supported (Node t strs kids) = true -> In k kids ->
  supported (snd k) = true /\
  (py_target_field t (fst k) = true ->
   target_ok (snd k) = true /\ (tag_eqb t TgDelete = true -> tag_eqb (node_tag (snd k)) TgTuple = false)).
Proof.
  cbn [supported]. rewrite andb_true_iff, forallb_forall. intros [_ H] Hk. specialize (H k Hk).
  apply andb_true_iff in H as [H1 H2]. split; [assumption|]. intros Htf. rewrite Htf in H1.
  apply andb_true_iff in H1 as [H3 H4]. split; [assumption|]. intros Hd. rewrite Hd in H4.
  apply negb_true_iff in H4. exact H4.
Qed.

(* one node of the scan with all switches off: which children it visits, what it adds itself *)
Definition ps_rec (t : tag) (f : fld) : bool :=
  match t with
  | TgDef => fld_eqb f FDeco || fld_eqb f FOuter
  | TgLambda => negb (fld_eqb f FBody)
  | _ => true
  end.

Definition ps_extra (t : tag) (strs : list ident) (kids : list (fld * node)) : list ident :=
  match t with
  | TgAssign => flat_map ps_target_names (kids_in FTargets kids)
  | TgAugAssign | TgFor | TgNamedExpr | TgAnnAssign => flat_map ps_target_names (kids_in FTarget kids)
  | TgWith => flat_map (fun k => match snd k with
                                 | Node TgWithItem _ ikids => flat_map ps_target_names (kids_in FOptVars ikids)
                                 | _ => []
                                 end) kids
  | TgTry => flat_map (fun k => match snd k with Node TgHandler hs _ => hs | _ => [] end) kids
  | TgDef => strs
  | TgDelete => flat_map (fun k => if fld_eqb (fst k) FTargets then
                                     match snd k with Node TgName ns _ => ns | _ => [] end else []) kids
  | TgImport => flat_map (fun k => match snd k with Node TgAlias ns _ => ns | _ => [] end) kids
  | _ => []
  end.

Lemma ps_scan_node_eq t strs kids : wf_node (Node t strs kids) = true ->
  let rest := sets_concat (map (fun k => if ps_rec t (fst k) then ps_scan sdev_off (snd k) else sets_empty) kids) in
  ps_scan sdev_off (Node t strs kids) =
  {| st_local := ps_extra t strs kids ++ st_local rest;
     st_global := (if tag_eqb t TgGlobal then strs else []) ++ st_global rest;
     st_nonlocal := (if tag_eqb t TgNonlocal then strs else []) ++ st_nonlocal rest |}.
Proof.
  intros Hwf rest. cbn [wf_node] in Hwf. apply andb_true_iff in Hwf as [_ Hleaf].
  rewrite (sets_eta (ps_scan _ _)). subst rest. f_equal; destruct t; try reflexivity.
  (* Name, Global, Nonlocal have no children *)
  all: destruct kids; [cbn; rewrite ?app_nil_r; reflexivity|discriminate].
Qed.

Lemma ps_rec_block t strs kids k : wf_node (Node t strs kids) = true -> In k kids ->
  ps_rec t (fst k) = negb (py_new_block t (fst k)).
Proof.
  cbn [wf_node]. rewrite andb_true_iff. intros [_ H] Hk. destruct t; try reflexivity.
  (* Def: its children are decorators, outer expressions and the body *)
  rewrite forallb_forall in H. specialize (H k Hk). destruct (fst k); try reflexivity; discriminate.
Qed.

(* pyscript collects the names of except handlers, import aliases and with-items when it visits the enclosing Try, Import,
   With; the symbol table binds them at the helper node itself *)
Definition own (n : node) : list ident :=
  match n with
  | Node TgHandler s _ | Node TgAlias s _ => s
  | Node TgWithItem _ kids => flat_map ps_target_names (kids_in FOptVars kids)
  | _ => []
  end.

Definition collects (t : tag) : bool := match t with TgTry | TgImport | TgWith => true | _ => false end.

Lemma own_nil t kid : parent_ok t (node_tag kid) = true -> collects t = false -> own kid = [].
Proof. destruct kid as [[] ? ?]; cbn; intros; try reflexivity; destruct t; discriminate. Qed.

Lemma own_kids t strs kids : wf_node (Node t strs kids) = true ->
  flat_map (fun k => own (snd k)) kids = if collects t then ps_extra t strs kids else [].
Proof.
  intros Hwf. destruct (collects t) eqn:C.
  - destruct t; try discriminate C.
    all: apply flat_map_ext_in; intros k Hk; destruct (wf_kid _ _ _ _ Hwf Hk) as [P _].
    (* the parent's kind of helper node owns what the parent collects from it; the other two kinds cannot stand here
       (P); any other node owns nothing *)
    all: destruct (snd k) as [[] ? ?]; try reflexivity; discriminate P.
  - rewrite <- (flat_map_nil kids). apply flat_map_ext_in. intros k Hk. apply (own_nil t); [apply (wf_kid _ _ _ _ Hwf Hk)|exact C].
Qed.

(* what a node adds by itself according to the symbol-table tables *)
Definition py_head (t : tag) (strs : list ident) (kids : list (fld * node)) : list ident :=
  (if py_binds_strs t then strs else [])
  ++ flat_map (fun k => if py_target_field t (fst k) then py_target_names (snd k) else []) kids.

Lemma head_equiv t strs kids :
  wf_node (Node t strs kids) = true -> supported (Node t strs kids) = true ->
  ps_extra t strs kids ++ own (Node t strs kids) = py_head t strs kids ++ flat_map (fun k => own (snd k)) kids.
Proof.
  intros Hwf Hsup. rewrite (own_kids t strs kids Hwf). unfold py_head.
  (* statements whose field F holds the targets *)
  assert (T : forall F, (forall f, py_target_field t f = fld_eqb f F) ->
            flat_map ps_target_names (kids_in F kids)
            = flat_map (fun k => if py_target_field t (fst k) then py_target_names (snd k) else []) kids).
  { intros F HF. rewrite flat_map_kids_in. apply flat_map_ext_in. intros k Hk. rewrite HF.
    destruct (fld_eqb (fst k) F) eqn:E; [|reflexivity]. apply target_names_equiv, (sup_kid _ _ _ _ Hsup Hk). rewrite HF. exact E. }
  destruct t; cbn [ps_extra own collects py_binds_strs app]; rewrite ?app_nil_r;
    (* tags without a target field *)
    try (cbn [py_target_field]; rewrite flat_map_nil, ?app_nil_r; reflexivity);
    (* Assign, AugAssign, AnnAssign, For, NamedExpr, WithItem *)
    try (apply T; intros []; reflexivity).
  (* Delete is left: only plain names, and the fragment has no `del (a, b)` *)
  apply flat_map_ext_in. intros k Hk. destruct (sup_kid _ _ _ _ Hsup Hk) as [_ S]. destruct (fst k); try reflexivity.
  destruct (S eq_refl) as [Tok Ttup]. apply delete_target_equiv; [exact Tok|apply Ttup; reflexivity].
Qed.

Lemma bound_equiv : forall n, wf_node n = true -> supported n = true ->
  set_eq (st_local (ps_scan sdev_off n) ++ own n) (py_bound n).
Proof.
  induction n as [t strs kids IH] using node_ind'. intros Hwf Hsup x.
  rewrite (ps_scan_node_eq t strs kids Hwf), sets_concat_map. cbn [st_local py_bound].
  set (sub := fun k : fld * node => st_local (if ps_rec t (fst k) then ps_scan sdev_off (snd k) else sets_empty)).
  (* both sides regrouped: what the node adds, what its helper children own, what the visited children add *)
  transitivity (In x (py_head t strs kids ++ flat_map (fun k => own (snd k)) kids) \/ In x (flat_map sub kids)).
  { rewrite <- (head_equiv t strs kids Hwf Hsup), !in_app_iff. tauto. }
  unfold py_head. rewrite !in_app_iff, in_flat_map_app.
  rewrite (in_flat_map_ext (fun k => if py_new_block t (fst k) then [] else py_bound (snd k)) (fun k => sub k ++ own (snd k))).
  { rewrite in_flat_map_app. tauto. }
  intros k Hk. subst sub. cbn beta. rewrite (ps_rec_block _ _ _ _ Hwf Hk).
  destruct (wf_kid _ _ _ _ Hwf Hk) as [P W]. destruct (py_new_block t (fst k)) eqn:Nb; cbn [negb st_local sets_empty app].
  - rewrite (own_nil t (snd k) P); [reflexivity|]. destruct t; try discriminate Nb; reflexivity.
  - symmetry. apply (IH k Hk W), (sup_kid _ _ _ _ Hsup Hk).
Qed.

Lemma declared_equiv : forall n, wf_node n = true ->
  st_global (ps_scan sdev_off n) = py_decl TgGlobal n /\ st_nonlocal (ps_scan sdev_off n) = py_decl TgNonlocal n.
Proof.
  induction n as [t strs kids IH] using node_ind'. intros Hwf.
  rewrite (ps_scan_node_eq t strs kids Hwf), sets_concat_map. cbn [st_global st_nonlocal py_decl].
  split; f_equal; apply flat_map_ext_in; intros k Hk; rewrite (ps_rec_block _ _ _ _ Hwf Hk).
  all: destruct (py_new_block t (fst k)); [reflexivity|apply (IH k Hk), (wf_kid _ _ _ _ Hwf Hk)].
Qed.

(* a whole body: the three sets of the scan are, as sets, the symbol table's *)
Lemma scan_body_equiv body : forallb wf_top body = true -> forallb supported body = true ->
  let s := ps_scan_body sdev_off body in
  set_eq (st_local s) (flat_map py_bound body)
  /\ st_global s = flat_map (py_decl TgGlobal) body /\ st_nonlocal s = flat_map (py_decl TgNonlocal) body.
Proof.
  intros Hwf Hsup. rewrite forallb_forall in Hwf, Hsup.
  (* a top-level statement is no helper node *)
  assert (W : forall n, In n body -> wf_node n = true /\ own n = []).
  { intros n Hn. specialize (Hwf n Hn). apply andb_true_iff in Hwf as [P W]. split; [exact W|]. apply (own_nil TgOther); [exact P|reflexivity]. }
  unfold ps_scan_body. rewrite sets_concat_map. cbn [st_local st_global st_nonlocal].
  split; [|split; apply flat_map_ext_in; intros n Hn; apply declared_equiv, W, Hn].
  intros y. apply in_flat_map_ext. intros n Hn. destruct (W n Hn) as [Wn On].
  rewrite <- (bound_equiv n Wn (Hsup n Hn) y), On, app_nil_r. reflexivity.
Qed.

Theorem locals_equiv cfg params body x :
  s_all_off cfg -> forallb wf_top body = true -> forallb supported body = true ->
  ps_is_local cfg params body x = py_is_local params body x.
Proof.
  intros Hoff Hwf Hsup. rewrite (all_off_eq cfg Hoff). destruct (scan_body_equiv body Hwf Hsup) as (Hl & Hg & Hn).
  unfold ps_is_local, py_is_local. rewrite Hg, Hn, (smem_set_eq _ _ x Hl). reflexivity.
Qed.

Local Open Scope string_scope.
Definition nm (x : ident) : node := Node TgName [x] [].
Definition cst : node := Node TgOther [] [].
Definition sw (a b c d e : bool) : sdeviations :=
  {| d_annassign := a; d_comp_target := b; d_import := c; d_lambda_body := d; d_def_outer := e |}.

Definition refutes (cfg : sdeviations) : Prop :=
  exists params body x,
    forallb wf_top body = true /\ forallb supported body = true /\
    ps_is_local cfg params body x <> py_is_local params body x.

(* every switch matters whatever the others are set to: the body for the first one that is on contains nothing another
   switch is about *)
Theorem refuted_unless_off cfg : cfg <> sdev_off -> refutes cfg.
Proof.
  destruct cfg as [a b c d e]. intros Hon.
  (* x: int = 1 *)
  destruct a.
  { exists [], [Node TgAnnAssign [] [(FTarget, nm "x"); (FChild, nm "int"); (FChild, cst)]], "x".
    repeat split. vm_compute. discriminate. }
  (* q = [x for x in it] *)
  destruct b.
  { exists [], [Node TgAssign [] [(FTargets, nm "q");
                 (FChild, Node TgComp [] [(FChild, nm "x");
                                          (FChild, Node TgComprehension [] [(FTarget, nm "x"); (FChild, nm "it")])])]], "x".
    repeat split. vm_compute. discriminate. }
  (* import x *)
  destruct c.
  { exists [], [Node TgImport [] [(FChild, Node TgAlias ["x"] [])]], "x". repeat split. vm_compute. discriminate. }
  (* q = lambda: (x := 1) *)
  destruct d.
  { exists [], [Node TgAssign [] [(FTargets, nm "q");
                 (FChild, Node TgLambda [] [(FBody, Node TgNamedExpr [] [(FTarget, nm "x"); (FChild, cst)])])]], "x".
    repeat split. vm_compute. discriminate. }
  (* def q(a=(x := 1)): ... *)
  destruct e; [|contradiction Hon; reflexivity].
  exists [], [Node TgDef ["q"] [(FOuter, Node TgNamedExpr [] [(FTarget, nm "x"); (FChild, cst)])]], "x".
  repeat split. vm_compute. discriminate.
Qed.

Lemma locals_refuted_D12 : refutes (sw true false false false false).
Proof. apply refuted_unless_off. discriminate. Qed.
Lemma locals_refuted_D31 : refutes (sw false true false false false).
Proof. apply refuted_unless_off. discriminate. Qed.
Lemma locals_refuted_D32 : refutes (sw false false true false false).
Proof. apply refuted_unless_off. discriminate. Qed.
Lemma locals_refuted_D33 : refutes (sw false false false true false).
Proof. apply refuted_unless_off. discriminate. Qed.
Lemma locals_refuted_D34 : refutes (sw false false false false true).
Proof. apply refuted_unless_off. discriminate. Qed.

(*   global g
     for a, (b, *c) in it:
         with cm() as w:  import m;  try: (v := 1)  except E as e: del d
     def f(p=(u := 2)): ...  *)
Definition example_body : list node :=
  [Node TgGlobal ["g"] [];
   Node TgFor [] [(FTarget, Node TgTuple [] [(FElts, nm "a");
                     (FElts, Node TgTuple [] [(FElts, nm "b"); (FElts, Node TgStarred [] [(FStarVal, nm "c")])])]);
                  (FChild, nm "it");
                  (FChild, Node TgWith [] [(FChild, Node TgWithItem [] [(FChild, Node TgCall [] [(FChild, nm "cm")]); (FOptVars, nm "w")]);
                     (FChild, Node TgImport [] [(FChild, Node TgAlias ["m"] [])]);
                     (FChild, Node TgTry [] [(FChild, Node TgOther [] [(FChild, Node TgNamedExpr [] [(FTarget, nm "v"); (FChild, cst)])]);
                        (FChild, Node TgHandler ["e"] [(FChild, nm "E"); (FChild, Node TgDelete [] [(FTargets, nm "d")])])])])];
   Node TgDef ["f"] [(FOuter, Node TgNamedExpr [] [(FTarget, nm "u"); (FChild, cst)])];
   Node TgAssign [] [(FTargets, nm "g"); (FChild, cst)]].

Example locals_equiv_instance :
  forallb wf_top example_body = true /\ forallb supported example_body = true /\ s_all_off sdev_off /\
  map (ps_is_local sdev_off ["p"] example_body) ["a"; "b"; "c"; "w"; "m"; "v"; "e"; "d"; "f"; "u"; "p"; "g"; "it"; "cm"]
  = [true; true; true; true; true; true; true; true; true; true; true; false; false; false].
Proof. repeat split. Qed.

Lemma subset_In a b : subset a b = true -> forall x, In x a -> In x b.
Proof. unfold subset. rewrite forallb_forall. intros H x Hx. apply smem_In. apply H. assumption. Qed.
Lemma set_eqb_set_eq a b : set_eqb a b = true -> set_eq a b.
Proof. unfold set_eqb. rewrite andb_true_iff. intros [H1 H2] x. split; [apply subset_In|apply subset_In]; assumption. Qed.

Lemma scase_model_implies_spec c : scase_model_ok sdev_off c = true -> sc_same c = true -> scase_spec_ok c = true.
Proof.
  unfold scase_model_ok, scase_spec_ok. rewrite !andb_true_iff.
  (* the last three conjuncts of [scase_model_ok], the reference's sets, play no part; before them: well-formed,
     supported, sc_ps_ok, pyscript's local / global / nonlocal sets as observed *)
  intros [[[H _] _] _] Hsame. destruct H as [[[[[Hwf Hsup] _] Hl] Hg] Hn]. split; [|assumption].
  apply forallb_forall. intros x _. apply eqb_true_iff.
  rewrite <- (locals_equiv sdev_off (sc_params c) (sc_body c) x) by (try assumption; repeat split).
  unfold obs_is_local, ps_is_local.
  rewrite (smem_set_eq _ _ x (set_eqb_set_eq _ _ Hl)), (smem_set_eq _ _ x (set_eqb_set_eq _ _ Hg)),
          (smem_set_eq _ _ x (set_eqb_set_eq _ _ Hn)). reflexivity.
Qed.
