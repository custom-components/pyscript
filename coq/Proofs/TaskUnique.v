(* What the primitives of the task.unique transition system (Task/Unique.v) do to any state: [ustep_spec], [claim_*],
   [unique_does], [drain_spec].  The invariant [Inv], one lemma per primitive: it holds after every label sequence, i.e. every
   interleaving of any number of tasks ([Inv_run]).  Then the lemmas behind Properties/C13.v, each about one step from any
   state, and [validated_is_path]: the trace validator of Task/UniqueCheck.v moves only by [ustep], so what it accepts is a run.
   Tail: runs that refute the property under D17 and D130, inhabitants of hypotheses, a recorded trace the validator accepts. *)
From PV Require Import Common.Util Gen.UniqueConsts Task.Unique Task.UniqueCheck.
From Coq Require Import String Ascii.
Import List ListNotations.
Local Open Scope list_scope.

Lemma key_eqb_eq a b : key_eqb a b = true <-> a = b.
Proof. exact (prod_eqb_eq _ _ String.eqb_eq String.eqb_eq a b). Qed.
Lemma key_eqb_spec a b : reflect (a = b) (key_eqb a b).
Proof. apply iff_reflect. symmetry. apply key_eqb_eq. Qed.
Lemma key_eqb_refl a : key_eqb a a = true.
Proof. apply key_eqb_eq; reflexivity. Qed.
Lemma key_eqb_sym a b : key_eqb a b = key_eqb b a.
Proof. exact (eqb_sym_of _ key_eqb_eq a b). Qed.

Lemma memN_In t l : memN t l = true <-> In t l.
Proof. exact (existsb_eqb_In _ N.eqb_eq t l). Qed.
Lemma memN_spec t l : reflect (In t l) (memN t l).
Proof. apply iff_reflect. symmetry. apply memN_In. Qed.

Lemma lookup_filter (f : key -> bool) k m :
  lookup k (filter (fun p => f (fst p)) m) = if f k then lookup k m else None.
Proof. exact (al_get_filter _ (eqb_flip_eq _ key_eqb_eq) f k m). Qed.
Lemma lookup_remove_key k m k' : lookup k' (remove_key k m) = if key_eqb k' k then None else lookup k' m.
Proof. unfold remove_key. rewrite (lookup_filter (fun x => negb (key_eqb x k))). destruct (key_eqb k' k); reflexivity. Qed.
Lemma lookup_remove_key_eq k m : lookup k (remove_key k m) = None.
Proof. rewrite lookup_remove_key, key_eqb_refl. reflexivity. Qed.
Lemma lookup_upd k t m k' : lookup k' (upd k t m) = if key_eqb k k' then Some t else lookup k' m.
Proof. unfold upd; cbn [lookup]. rewrite lookup_remove_key, (key_eqb_sym k' k). destruct (key_eqb k k'); reflexivity. Qed.
Lemma lookup_remove_keys k ks m : lookup k (remove_keys ks m) = if mem_key k ks then None else lookup k m.
Proof. unfold remove_keys. rewrite (lookup_filter (fun x => negb (mem_key x ks))). destruct (mem_key k ks); reflexivity. Qed.

Lemma mem_key_In k ks : mem_key k ks = true <-> In k ks.
Proof. exact (existsb_eqb_In _ key_eqb_eq k ks). Qed.
Lemma In_removeN x t l : In x (removeN t l) <-> In x l /\ x <> t.
Proof. exact (In_remove_key _ N.eqb_eq (fun y => y) t x l). Qed.
Lemma pair_is_eq t k p : pair_is t k p = true <-> p = (t, k).
Proof.
  destruct p as [t' k']. unfold pair_is; cbn [fst snd]. rewrite andb_true_iff, N.eqb_eq, key_eqb_eq.
  split; [intros [-> ->]; reflexivity|intros [= -> ->]; auto].
Qed.
Lemma In_remove_pair p t k r : In p (remove_pair t k r) <-> In p r /\ p <> (t, k).
Proof. unfold remove_pair. rewrite filter_In, negb_true_iff, <- not_true_iff_false, pair_is_eq. reflexivity. Qed.
Lemma In_keys_of k t r : In k (keys_of t r) <-> In (t, k) r.
Proof.
  unfold keys_of. rewrite in_map_iff. split.
  - intros ([t' k'] & E & H). apply filter_In in H. cbn [fst snd] in *. destruct H as [H T]. apply N.eqb_eq in T. subst. assumption.
  - intros H. exists (t, k). rewrite filter_In. cbn [fst snd]. rewrite N.eqb_refl. auto.
Qed.
Lemma In_remove_task p t r : In p (remove_task t r) <-> In p r /\ fst p <> t.
Proof. exact (In_remove_key _ N.eqb_eq fst t p r). Qed.

Lemma drain_spec lv q : forall q' b, drain lv q = (q', b) ->
  (forall t, In t q' -> In t q) /\
  (forall t, b = Some t -> In t q /\ In t lv) /\
  (forall t, In t q -> In t lv -> In t q' \/ b = Some t).
Proof.
  induction q as [|x q IH]; intros q' b H; cbn [drain] in H.
  - injection H as <- <-. repeat split; (discriminate || contradiction).
  - destruct (memN_spec x lv) as [L|L].
    + injection H as <- <-. split; [|split].
      * intros t I; right; assumption.
      * intros t [= <-]. split; [left; reflexivity|assumption].
      * intros t [->|I] _; auto.
    + destruct (IH _ _ H) as (A & B & C). split; [|split].
      * intros t I; right; auto.
      * intros t E. destruct (B t E). split; [right|]; assumption.
      * intros t [->|I] Lt; [contradiction|auto].
Qed.

Lemma ustep_spec cfg s l s' : ustep cfg s l = Some s' ->
  match l with
  | UStart t o => ~ In t (started s) /\ ~ In t (admitted s) /\ s' = start s t o
  | UUnique t ctx name km => In t (live s) /\ ~ In t (waiting s) /\ s' = do_unique cfg s t ctx name km
  | UReaper => reaper_ready s = true /\ s' = do_reaper s
  | UExit t c => In t (live s) /\ c = is_busy s t /\ s' = do_exit s t
  | UDispatch t ctx name km lg =>
      ~ In t (started s) /\ ~ In t (admitted s) /\
      s' = if precheck cfg lg && km && used cfg s ctx name then set_started s (t :: started s)
           else set_admitted s (t :: admitted s)
  | UDecStart t ctx name km lg =>
      In t (admitted s) /\ ~ In t (started s) /\
      let s0 := set_admitted s (removeN t (admitted s)) in
      s' = if negb (precheck cfg lg) && km && used cfg s ctx name then set_started s0 (t :: started s0)
           else do_unique cfg (start s0 t true) t ctx name false
  | UNop t => In t (live s) /\ ~ In t (waiting s) /\ s' = s
  end.
Proof.
  destruct l as [t o|t ctx name km| |t c|t ctx name km lg|t ctx name km lg|t]; cbn [ustep]; intros H.
  - (* UStart *) destruct (memN_spec t (started s)), (memN_spec t (admitted s)); try discriminate H. injection H as <-. auto.
  - (* UUnique *) destruct (memN_spec t (live s)), (memN_spec t (waiting s)); try discriminate H. injection H as <-. auto.
  - (* UReaper *) destruct (reaper_ready s); [|discriminate H]. injection H as <-. auto.
  - (* UExit *) destruct (memN_spec t (live s)), (Bool.eqb_spec c (is_busy s t)); try discriminate H. injection H as <-. auto.
  - (* UDispatch *) destruct (memN_spec t (started s)), (memN_spec t (admitted s)); try discriminate H.
    cbn [orb] in H. destruct (_ && _); injection H as <-; auto.
  - (* UDecStart *) destruct (memN_spec t (admitted s)), (memN_spec t (started s)); try discriminate H.
    cbn [andb negb] in H. destruct (_ && _); injection H as <-; auto.
  - (* UNop *) destruct (memN_spec t (live s)), (memN_spec t (waiting s)); try discriminate H. injection H as <-. auto.
Qed.

Lemma claim_noop s t k : ~ In t (ours s) -> claim s t k = s.
Proof. intros H. unfold claim. destruct (memN_spec t (ours s)); [contradiction|reflexivity]. Qed.

Lemma claim_ours s t k : In t (ours s) ->
  claim s t k = set_maps s (upd k t (n2t s))
                  ((t, k) :: remove_pair t k match lookup k (n2t s) with Some o => remove_pair o k (t2n s) | None => t2n s end)
                  ((k, t) :: claimed s).
Proof. intros H. unfold claim. destruct (memN_spec t (ours s)); [reflexivity|contradiction]. Qed.

Lemma claim_fields s t k :
  ours (claim s t k) = ours s /\ rq (claim s t k) = rq s /\ busy (claim s t k) = busy s /\ live (claim s t k) = live s
  /\ started (claim s t k) = started s /\ waiting (claim s t k) = waiting s /\ admitted (claim s t k) = admitted s.
Proof. unfold claim. destruct (memN t (ours s)); cbn; repeat split; reflexivity. Qed.

Lemma claim_rq s t k : rq (claim s t k) = rq s.
Proof. apply claim_fields. Qed.

Lemma claim_lookup s t k k' : In t (ours s) ->
  lookup k' (n2t (claim s t k)) = if key_eqb k k' then Some t else lookup k' (n2t s).
Proof. intros H. rewrite claim_ours by assumption. apply lookup_upd. Qed.
Lemma claim_lookup_neq s t k k' : k' <> k -> lookup k' (n2t (claim s t k)) = lookup k' (n2t s).
Proof.
  intros N. destruct (memN_spec t (ours s)) as [O|O]; [|rewrite claim_noop by assumption; reflexivity].
  rewrite claim_lookup by assumption. destruct (key_eqb_spec k k'); [congruence|reflexivity].
Qed.

Lemma claim_maps s t k :
  (forall k0 t0, lookup k0 (n2t s) = Some t0 <-> In (t0, k0) (t2n s)) ->
  forall k0 t0, lookup k0 (n2t (claim s t k)) = Some t0 <-> In (t0, k0) (t2n (claim s t k)).
Proof.
  intros M k0 t0. destruct (memN_spec t (ours s)) as [O|O]; [|rewrite claim_noop by assumption; apply M].
  rewrite claim_ours by assumption. cbn [set_maps n2t t2n In]. rewrite lookup_upd.
  (* by M the only old pair of key k is the owner's, so the old pairs that remain are those of the other keys *)
  assert (R : In (t0, k0) (remove_pair t k match lookup k (n2t s) with Some o => remove_pair o k (t2n s) | None => t2n s end)
              <-> lookup k0 (n2t s) = Some t0 /\ k0 <> k).
  { rewrite In_remove_pair. destruct (lookup k (n2t s)) as [o|] eqn:L; rewrite ?In_remove_pair, <- M.
    - split.
      + intros [[H N] _]. split; [exact H|]. intros ->. apply N. congruence.
      + intros [H N]. repeat split; congruence.
    - split.
      + intros [H _]. split; [exact H|]. intros ->. congruence.
      + intros [H N]. split; congruence. }
  rewrite R. destruct (key_eqb_spec k k0) as [<-|N].
  - split.
    + intros [= <-]. left; reflexivity.
    + intros [E|[_ N]]; [congruence|contradiction].
  - split.
    + intros H. right. split; congruence.
    + intros [E|[H _]]; [congruence|exact H].
Qed.

Lemma enqueue_maps s t : n2t (enqueue s t) = n2t s /\ live (enqueue s t) = live s /\ ours (enqueue s t) = ours s.
Proof. repeat split. Qed.

(* what task.unique can do.  [owner cfg s ctx name] unfolds to the [lookup (key_of cfg ctx name) (n2t s)] that [do_unique]
   and [used] test *)
Inductive unique_does cfg s t ctx name (km : bool) : ustate -> Prop :=
  | UD_blocked o : owner cfg s ctx name = Some o -> o <> t -> km = true ->
      unique_does cfg s t ctx name km (set_waiting (enqueue s t) (t :: waiting s))
  | UD_evict o : owner cfg s ctx name = Some o -> o <> t -> km = false -> In o (ours s) ->
      unique_does cfg s t ctx name km (claim (enqueue s o) t (key_of cfg ctx name))
  | UD_claim : (forall o, owner cfg s ctx name = Some o -> o = t \/ ~ In o (ours s)) ->
      unique_does cfg s t ctx name km (claim s t (key_of cfg ctx name)).

Lemma do_unique_does cfg s t ctx name km : unique_does cfg s t ctx name km (do_unique cfg s t ctx name km).
Proof.
  unfold do_unique. fold (owner cfg s ctx name). destruct (owner cfg s ctx name) as [o|] eqn:Lk; [|apply UD_claim; congruence].
  destruct (N.eqb_spec o t) as [->|N]; cbn [negb andb].
  - destruct km; apply UD_claim; intros o E; left; congruence.
  - destruct km; [eapply UD_blocked; eauto|]. destruct (memN_spec o (ours s)) as [O|O].
    + eapply UD_evict; eauto.
    + apply UD_claim. intros o' E; right; congruence.
Qed.

Lemma do_unique_lookup_neq cfg s t ctx name km k' :
  k' <> key_of cfg ctx name -> lookup k' (n2t (do_unique cfg s t ctx name km)) = lookup k' (n2t s).
Proof.
  intros N. destruct (do_unique_does cfg s t ctx name km); rewrite ?claim_lookup_neq by assumption; reflexivity.
Qed.

Lemma do_unique_rq cfg s t ctx name km x :
  In x (rq (do_unique cfg s t ctx name km)) ->
  In x (rq s) \/ (x = t /\ km = true) \/ (owner cfg s ctx name = Some x /\ x <> t /\ km = false /\ In x (ours s)).
Proof.
  destruct (do_unique_does cfg s t ctx name km) as [o Ho N K|o Ho N K O|P]; rewrite ?claim_rq; cbn [set_waiting enqueue rq]; intros H.
  - apply in_app_or in H. destruct H as [H|[<-|[]]]; auto.
  - apply in_app_or in H. destruct H as [H|[<-|[]]]; [auto|]. right; right. repeat split; assumption.
  - auto.
Qed.

Definition cancel_pending (s : ustate) (t : task) : Prop := In t (rq s) \/ busy s = Some t.

(* [inv_claim] is the property itself ([one_live_owner] reads it off twice); [inv_rq] is there for [cancelled_exit_ours].
   [inv_claimed_started] and [inv_rq_started], a task which starts has no history, carry these two through [start].
   (Task/Lifecycle.v models the claim with kill_me=False again, label [LClaim], for C14; for names this file is the one to go by.) *)
Record Inv (s : ustate) : Prop := {
  inv_maps : forall k t, lookup k (n2t s) = Some t <-> In (t, k) (t2n s);
  inv_owner_ours : forall k t, lookup k (n2t s) = Some t -> In t (ours s);
  inv_ours_live : forall t, In t (ours s) -> In t (live s);
  inv_live_started : forall t, In t (live s) -> In t (started s);
  inv_claimed_started : forall k t, In (k, t) (claimed s) -> In t (started s);
  inv_claim : forall k t, In (k, t) (claimed s) -> In t (live s) -> lookup k (n2t s) = Some t \/ cancel_pending s t;
  inv_rq_started : forall t, cancel_pending s t -> In t (started s);
  inv_rq : forall t, cancel_pending s t -> In t (live s) -> In t (ours s) \/ In t (waiting s);
  inv_waiting : forall t, In t (waiting s) -> In t (live s) /\ cancel_pending s t
}.

Lemma Inv_init : Inv init_state.
Proof.
  constructor; unfold cancel_pending; cbn; intros; try tauto; try discriminate.
  - (* inv_maps *) split; [discriminate|tauto].
  - (* inv_rq_started *) destruct H; [tauto|discriminate].
Qed.

Lemma Inv_start s t o : Inv s -> ~ In t (started s) -> Inv (start s t o).
Proof.
  intros I F. destruct I. constructor; unfold cancel_pending in *; cbn.
  - (* inv_maps *) assumption.
  - (* inv_owner_ours *) intros k t' H. destruct o; [right|]; eauto.
  - (* inv_ours_live *) intros t' H. destruct o; [destruct H as [->|H]|]; [left; reflexivity|right; auto..].
  - (* inv_live_started *) intros t' [->|H]; [left; reflexivity|right; auto].
  - (* inv_claimed_started *) intros k t' H. right; eauto.
  - (* inv_claim: [t] has claimed nothing *) intros k t' H [->|L]; [exfalso; eauto|auto].
  - (* inv_rq_started *) intros t' H. right; auto.
  - (* inv_rq: nobody is cancelling [t] *) intros t' H [->|L]; [exfalso; auto|].
    destruct (inv_rq0 t' H L) as [A|A]; [left; destruct o; [right|]; assumption|right; assumption].
  - (* inv_waiting *) intros t' H. destruct (inv_waiting0 t' H) as [A B]. split; [right; assumption|assumption].
Qed.

Lemma Inv_claim s t k :
  Inv s ->
  (forall o, lookup k (n2t s) = Some o -> o <> t -> cancel_pending s o) ->
  Inv (claim s t k).
Proof.
  intros I P. destruct (memN_spec t (ours s)) as [O|O]; [|rewrite claim_noop; assumption].
  pose proof (claim_maps s t k (inv_maps s I)) as M.
  rewrite claim_ours in * by assumption. destruct I.
  (* [M] is inv_maps *)
  constructor; unfold cancel_pending in *; cbn -[upd] in *; try assumption.
  - (* inv_owner_ours *) intros k0 t0. rewrite lookup_upd. destruct (key_eqb_spec k k0); [intros [= <-]; assumption|eauto].
  - (* inv_claimed_started *) intros k0 t0 [E|H]; [injection E as <- <-; auto|eauto].
  - (* inv_claim *) intros k0 t0 H L0. rewrite lookup_upd. destruct (key_eqb_spec k k0) as [<-|N].
    + (* an earlier claimant other than [t] owns the key in [s] ([P]) or is pending already *)
      destruct (N.eq_dec t0 t) as [->|Nt]; [left; reflexivity|right].
      destruct H as [E|H]; [congruence|]. destruct (inv_claim0 _ _ H L0); auto.
    + destruct H as [E|H]; [congruence|auto].
Qed.

(* [w] is [waiting s], or [t :: waiting s] when the caller suspends itself *)
Lemma Inv_enqueue s t w :
  Inv s -> In t (live s) -> incl (waiting s) w -> (forall x, In x w -> In x (waiting s) \/ x = t) ->
  In t (ours s) \/ In t w -> Inv (set_waiting (enqueue s t) w).
Proof.
  intros I L Sub Sup W. destruct I. unfold cancel_pending in *.
  assert (Q1 : forall x, In x (rq s ++ [t]) \/ busy s = Some x -> (In x (rq s) \/ busy s = Some x) \/ x = t).
  { intros x [H|H]; [apply in_app_or in H; destruct H as [H|[->|[]]]|]; auto. }
  assert (Q2 : forall x, In x (rq s) \/ busy s = Some x -> In x (rq s ++ [t]) \/ busy s = Some x).
  { intros x [H|H]; [left; apply in_or_app; left|right]; assumption. }
  constructor; unfold cancel_pending; cbn; try assumption.
  - (* inv_claim *) intros k x H Lx. destruct (inv_claim0 _ _ H Lx); auto.
  - (* inv_rq_started *) intros x H. destruct (Q1 x H) as [H'| ->]; auto.
  - (* inv_rq: by [Sub], and [W] for the new entry *) intros x H Lx. destruct (Q1 x H) as [H'| ->]; [destruct (inv_rq0 x H' Lx)|]; auto.
  - (* inv_waiting: by [Q2]; [t] is the new entry *) intros x H. destruct (Sup x H) as [H'| ->]; [destruct (inv_waiting0 x H'); auto|].
    split; [assumption|left; apply in_or_app; right; left; reflexivity].
Qed.

Lemma Inv_do_unique cfg s t ctx name km : Inv s -> In t (live s) -> Inv (do_unique cfg s t ctx name km).
Proof.
  intros I L. destruct (do_unique_does cfg s t ctx name km) as [o Ho N _|o Ho N _ O|P].
  - apply Inv_enqueue; auto using incl_tl, incl_refl, in_eq. intros x [->|H]; auto.
  - (* the owner has just been queued *) apply Inv_claim.
    + apply (Inv_enqueue s o (waiting s)); auto using incl_refl. apply (inv_ours_live s I), O.
    + cbn [enqueue n2t]. intros o' H _. left. apply in_or_app; right; left. unfold owner in Ho. congruence.
  - (* an owner other than [t] would be one of ours by inv_owner_ours *)
    apply Inv_claim; [assumption|]. intros o H N. destruct (P o H) as [E|E]; [contradiction|].
    destruct E. apply (inv_owner_ours s I _ _ H).
Qed.

Lemma Inv_reaper s : Inv s -> reaper_ready s = true -> Inv (do_reaper s).
Proof.
  intros I R. unfold do_reaper. destruct (drain (live s) (rq s)) as [q b] eqn:D.
  destruct (drain_spec _ _ _ _ D) as (A & B & C).
  (* the segment only drops commands for ended tasks: the live tasks keep theirs and nobody gains one *)
  assert (P : forall t, In t (live s) -> cancel_pending s t -> In t q \/ b = Some t).
  { intros t L [H|H]; [apply C; assumption|].
    unfold reaper_ready in R. rewrite H in R. destruct (memN_spec t (live s)); [discriminate|contradiction]. }
  assert (Q : forall t, In t q \/ b = Some t -> cancel_pending s t).
  { intros t [H|H]; left; [apply A; assumption|apply (B t H)]. }
  destruct I. constructor; unfold cancel_pending in *; cbn; try assumption.
  - (* inv_claim *) intros k t H L. destruct (inv_claim0 _ _ H L); auto.
  - (* inv_rq_started *) auto.
  - (* inv_rq *) auto.
  - (* inv_waiting *) intros t H. destruct (inv_waiting0 _ H). auto.
Qed.

Lemma do_exit_lookup s t k t' : Inv s ->
  lookup k (n2t (do_exit s t)) = Some t' <-> lookup k (n2t s) = Some t' /\ t' <> t.
Proof.
  intros I. cbn [do_exit n2t]. rewrite lookup_remove_keys.
  destruct (mem_key k (keys_of t (t2n s))) eqn:M.
  - apply mem_key_In, In_keys_of, (inv_maps s I) in M. split; [discriminate|intros [H N]; congruence].
  - split; [|tauto]. intros H; split; [assumption|intros ->].
    apply (inv_maps s I), In_keys_of, mem_key_In in H. congruence.
Qed.

Lemma Inv_exit s t : Inv s -> Inv (do_exit s t).
Proof.
  intros I. pose proof (fun k t' => do_exit_lookup s t k t' I) as LK. destruct I.
  constructor; unfold cancel_pending in *; cbn -[n2t]; try assumption.
  - (* inv_maps *) intros k t'. rewrite LK, In_remove_task, inv_maps0. reflexivity.
  - (* inv_owner_ours *) intros k t' H. apply LK in H. destruct H as [H N]. apply In_removeN. eauto.
  - (* inv_ours_live *) intros t' H. apply In_removeN in H. destruct H as [H N]. apply In_removeN. auto.
  - (* inv_live_started *) intros t' H. apply In_removeN in H. destruct H as [H N]. auto.
  - (* inv_claim *) intros k t' H L'. apply In_removeN in L'. destruct L' as [L' N].
    destruct (inv_claim0 _ _ H L') as [A|A]; [left; apply LK|right]; auto.
  - (* inv_rq *) intros t' H L'. apply In_removeN in L'. destruct L' as [L' N].
    destruct (inv_rq0 _ H L') as [A|A]; [left|right]; apply In_removeN; auto.
  - (* inv_waiting *) intros t' H. apply In_removeN in H. destruct H as [H N]. destruct (inv_waiting0 _ H) as [A B].
    split; [apply In_removeN|]; auto.
Qed.

Lemma Inv_set_admitted s a : Inv s -> Inv (set_admitted s a).
Proof. intros I. destruct I. constructor; assumption. Qed.
Lemma Inv_set_started s t : Inv s -> Inv (set_started s (t :: started s)).
Proof.
  intros I. destruct I. constructor; unfold cancel_pending in *; cbn; try assumption.
  - (* inv_live_started *) intros t' H; right; auto.
  - (* inv_claimed_started *) intros k t' H; right; eauto.
  - (* inv_rq_started *) intros t' H; right; auto.
Qed.

Theorem Inv_step cfg s l s' : Inv s -> ustep cfg s l = Some s' -> Inv s'.
Proof.
  intros Hs H.
  apply ustep_spec in H. destruct l as [t o|t ctx name km| |t c|t ctx name km lg|t ctx name km lg|t].
  - (* UStart *) destruct H as (F & _ & ->). apply Inv_start; assumption.
  - (* UUnique *) destruct H as (L & _ & ->). apply Inv_do_unique; assumption.
  - (* UReaper *) destruct H as [R ->]. apply Inv_reaper; assumption.
  - (* UExit *) destruct H as (_ & _ & ->). apply Inv_exit; assumption.
  - (* UDispatch *) destruct H as (_ & _ & ->). destruct (_ && _); [apply Inv_set_started|apply Inv_set_admitted]; assumption.
  - (* UDecStart *) destruct H as (_ & F & ->). cbn zeta. pose proof (Inv_set_admitted s (removeN t (admitted s)) Hs) as H0.
    destruct (_ && _); [apply Inv_set_started; assumption|].
    apply Inv_do_unique; [apply Inv_start; assumption|left; reflexivity].
  - (* UNop *) destruct H as (_ & _ & ->). assumption.
Qed.

Theorem Inv_run cfg ls s : run cfg ls = Some s -> Inv s.
Proof. exact (fold_left_opt_inv Inv (ustep cfg) (Inv_step cfg) ls _ s Inv_init). Qed.

Lemma unique_claims cfg s t ctx name s' :
  Inv s -> ustep cfg s (UUnique t ctx name false) = Some s' -> In t (ours s) ->
  owner cfg s' ctx name = Some t
  /\ (forall o, owner cfg s ctx name = Some o -> o <> t -> In o (rq s'))
  /\ (forall t', In (key_of cfg ctx name, t') (claimed s') -> In t' (live s') -> t' <> t -> cancel_pending s' t').
Proof.
  intros I H O. apply ustep_spec in H. destruct H as (Lt & _ & ->).
  pose proof (Inv_do_unique cfg s t ctx name false I Lt) as I'.
  assert (OW : owner cfg (do_unique cfg s t ctx name false) ctx name = Some t).
  { unfold owner. destruct (do_unique_does cfg s t ctx name false); rewrite ?claim_lookup, ?key_eqb_refl by assumption;
      [discriminate|reflexivity..]. }
  split; [assumption|split].
  - intros o Ho N. destruct (do_unique_does cfg s t ctx name false) as [o' _ _ K|o' Ho' _ _ _|P]; [discriminate|..];
      rewrite claim_rq.
    + apply in_or_app; right; left. congruence.
    + destruct (P o Ho) as [E|E]; [contradiction|]. destruct E. apply (inv_owner_ours s I _ _ Ho).
  - intros t' C L N. destruct (inv_claim _ I' _ _ C L) as [A|A]; [|assumption]. unfold owner in OW. congruence.
Qed.

(* at most one live owner per name: of the live tasks that ever claimed a key, only its current owner is not about to be
   cancelled *)
Lemma one_live_owner s k t1 t2 :
  Inv s -> In (k, t1) (claimed s) -> In (k, t2) (claimed s) -> In t1 (live s) -> In t2 (live s) ->
  ~ cancel_pending s t1 -> ~ cancel_pending s t2 -> t1 = t2 /\ lookup k (n2t s) = Some t1.
Proof.
  intros I C1 C2 L1 L2 P1 P2.
  destruct (inv_claim _ I _ _ C1 L1) as [A|A]; [|contradiction].
  destruct (inv_claim _ I _ _ C2 L2) as [B|B]; [|contradiction].
  split; [congruence|assumption].
Qed.

Lemma kill_me_blocked cfg s t ctx name s' o :
  ustep cfg s (UUnique t ctx name true) = Some s' -> owner cfg s ctx name = Some o -> o <> t ->
  n2t s' = n2t s /\ t2n s' = t2n s /\ ours s' = ours s /\ live s' = live s /\ rq s' = rq s ++ [t] /\ In t (waiting s').
Proof.
  intros H Ho N. apply ustep_spec in H. destruct H as (_ & _ & ->). unfold owner in Ho. unfold do_unique. rewrite Ho.
  apply N.eqb_neq in N. rewrite N. cbn. repeat split; auto.
Qed.

Lemma kill_me_free cfg s t ctx name s' :
  ustep cfg s (UUnique t ctx name true) = Some s' -> In t (ours s) ->
  (owner cfg s ctx name = None \/ owner cfg s ctx name = Some t) ->
  owner cfg s' ctx name = Some t /\ rq s' = rq s /\ waiting s' = waiting s.
Proof.
  intros H O Ho. apply ustep_spec in H. destruct H as (_ & _ & ->).
  destruct (do_unique_does cfg s t ctx name true) as [o Ho' N _|o _ _ K _|_]; [destruct Ho; congruence|discriminate|].
  unfold owner. rewrite claim_lookup, key_eqb_refl by assumption. split; [reflexivity|split; apply claim_fields].
Qed.

Lemma waiting_stuck cfg s t ctx name km : In t (waiting s) ->
  ustep cfg s (UUnique t ctx name km) = None /\ ustep cfg s (UNop t) = None.
Proof.
  intros H. apply memN_In in H. cbn [ustep]. rewrite H. cbn [negb]. rewrite andb_false_r. split; reflexivity.
Qed.

Lemma used_start cfg s t o ctx name : used cfg (start s t o) ctx name = used cfg s ctx name.
Proof. reflexivity. Qed.

Lemma dec_start_rule cfg s t ctx name km lg s' :
  Inv s -> precheck cfg lg = false ->
  ustep cfg s (UDecStart t ctx name km lg) = Some s' ->
  (km = true -> used cfg s ctx name = true ->
     n2t s' = n2t s /\ t2n s' = t2n s /\ rq s' = rq s /\ live s' = live s /\ ~ In t (live s'))
  /\ (km && used cfg s ctx name = false ->
     exists s1, ustep cfg (set_admitted s (removeN t (admitted s))) (UStart t true) = Some s1
                /\ ustep cfg s1 (UUnique t ctx name km) = Some s').
Proof.
  intros I PC H. apply ustep_spec in H. destruct H as (_ & F & ->).
  rewrite PC. cbn [negb andb].
  assert (NL : ~ In t (live s)) by (intros L; apply F, (inv_live_started _ I), L).
  split.
  - intros -> ->. cbn. auto.
  - intros KU. rewrite KU. exists (start (set_admitted s (removeN t (admitted s))) t true). split; cbn [ustep].
    + cbn [set_admitted started admitted]. destruct (memN_spec t (started s)); [contradiction|].
      destruct (memN_spec t (removeN t (admitted s))) as [X|]; [|reflexivity]. apply In_removeN in X. destruct X; congruence.
    + cbn [start set_admitted live waiting]. destruct (memN_spec t (t :: live s)) as [_|X]; [|destruct X; left; reflexivity].
      destruct (memN_spec t (waiting s)) as [W|_]; [destruct NL; apply (inv_waiting _ I), W|]. cbn [andb negb]. f_equal.
      destruct km; [|reflexivity]. unfold do_unique. unfold used in KU. cbn [start set_admitted n2t andb] in *.
      destruct (lookup (key_of cfg ctx name) (n2t s)); [discriminate|reflexivity].
Qed.

Lemma unique_keeps_other_names cfg s t ctx name km s' :
  ustep cfg s (UUnique t ctx name km) = Some s' ->
  forall k', k' <> key_of cfg ctx name -> lookup k' (n2t s') = lookup k' (n2t s).
Proof. intros H. apply ustep_spec in H. destruct H as (_ & _ & ->). intros k'. apply do_unique_lookup_neq. Qed.

Lemma exit_releases cfg s t c s' :
  Inv s -> ustep cfg s (UExit t c) = Some s' ->
  (forall k, lookup k (n2t s') <> Some t)
  /\ (forall k t', t' <> t -> (lookup k (n2t s') = Some t' <-> lookup k (n2t s) = Some t'))
  /\ ~ In t (live s') /\ ~ In t (ours s').
Proof.
  intros I H. apply ustep_spec in H. destruct H as (_ & _ & ->).
  split; [|split; [|split]].
  - intros k E. apply do_exit_lookup in E; [|assumption]. apply (proj2 E). reflexivity.
  - intros k t' N. rewrite do_exit_lookup by assumption. split; [intros [E _]; exact E|auto].
  - intros L. apply In_removeN in L. apply (proj2 L). reflexivity.
  - intros L. apply In_removeN in L. apply (proj2 L). reflexivity.
Qed.

Lemma owner_is_live s k t : Inv s -> lookup k (n2t s) = Some t -> In t (live s) /\ In t (ours s).
Proof.
  intros I H.
  assert (In t (ours s)) by (eapply inv_owner_ours; eassumption). split; [apply (inv_ours_live _ I)|]; assumption.
Qed.

Lemma cancelled_exit_ours cfg s t s' :
  Inv s -> ustep cfg s (UExit t true) = Some s' -> In t (ours s) \/ In t (waiting s).
Proof.
  intros I H. apply ustep_spec in H. destruct H as (L & B & _). apply (inv_rq _ I); [right|assumption].
  unfold is_busy in B. destruct (busy s) as [b|]; [|discriminate]. symmetry in B. apply N.eqb_eq in B. congruence.
Qed.

Lemma step_queues_only_ours cfg s l s' x :
  ustep cfg s l = Some s' -> In x (rq s') ->
  In x (rq s) \/ In x (ours s) \/ exists ctx name, l = UUnique x ctx name true.
Proof.
  intros H X. apply ustep_spec in H. destruct l as [t o|t ctx name km| |t c|t ctx name km lg|t ctx name km lg|t].
  - (* UStart *) destruct H as (_ & _ & ->). left; exact X.
  - (* UUnique *) destruct H as (_ & _ & ->). apply do_unique_rq in X. destruct X as [X|[[-> ->]|(_ & _ & _ & O)]].
    + auto.
    + right; right; eauto.
    + auto.
  - (* UReaper *) destruct H as [_ ->]. unfold do_reaper in X. destruct (drain (live s) (rq s)) as [q b] eqn:D.
    left. destruct (drain_spec _ _ _ _ D) as (A & _). apply A, X.
  - (* UExit *) destruct H as (_ & _ & ->). left; exact X.
  - (* UDispatch *) destruct H as (_ & _ & ->). left. destruct (_ && _); exact X.
  - (* UDecStart *) destruct H as (_ & _ & ->). cbn zeta in X. destruct (_ && _); [left; exact X|].
    apply do_unique_rq in X. cbn [start rq ours set_admitted] in X. destruct X as [X|[[_ K]|(_ & N & _ & O)]].
    + auto.
    + (* the run's claim has kill_me = false *) discriminate K.
    + (* the evicted owner is not the run that has just been put there *) destruct O as [E|O]; [congruence|auto].
  - (* UNop *) destruct H as (_ & _ & ->). left; exact X.
Qed.

Lemma dot_free_cat a b : dot_free (String.append a (String key_sep_char b)) = false.
Proof.
  induction a as [|c a IH]; cbn [String.append dot_free].
  - rewrite Ascii.eqb_refl. reflexivity.
  - rewrite IH. apply andb_false_r.
Qed.

Lemma cat_dot_inj a : forall b n1 n2, dot_free n1 = true -> dot_free n2 = true ->
  cat a (cat dot n1) = cat b (cat dot n2) -> a = b /\ n1 = n2.
Proof.
  induction a as [|c a IH]; intros [|d b] n1 n2 F1 F2 E; cbn in E.
  - injection E as ->. auto.
  - injection E as _ ->. rewrite dot_free_cat in F1. discriminate.
  - injection E as _ <-. rewrite dot_free_cat in F2. discriminate.
  - injection E as -> E. destruct (IH b n1 n2 F1 F2 E) as [-> ->]. auto.
Qed.

Lemma key_of_inj cfg c1 n1 c2 n2 :
  d17_concat_keys cfg = false \/ (dot_free n1 = true /\ dot_free n2 = true) ->
  key_of cfg c1 n1 = key_of cfg c2 n2 -> c1 = c2 /\ n1 = n2.
Proof.
  intros H E. unfold key_of in E. destruct (d17_concat_keys cfg).
  - destruct H as [H|[F1 F2]]; [discriminate|]. injection E as E. apply cat_dot_inj; assumption.
  - injection E as -> ->. auto.
Qed.

Lemma do_unique_owner_other cfg s t ctx name km ctx' name' :
  d17_concat_keys cfg = false \/ (dot_free name = true /\ dot_free name' = true) -> ctx <> ctx' ->
  owner cfg (do_unique cfg s t ctx name km) ctx' name' = owner cfg s ctx' name'.
Proof.
  intros D N. apply do_unique_lookup_neq. intros E. symmetry in E. apply key_of_inj in E; [destruct E; contradiction|assumption].
Qed.

Lemma contexts_disjoint cfg s t ctx name km s' ctx' name' :
  d17_concat_keys cfg = false \/ (dot_free name = true /\ dot_free name' = true) ->
  ctx <> ctx' ->
  ustep cfg s (UUnique t ctx name km) = Some s' ->
  owner cfg s' ctx' name' = owner cfg s ctx' name'
  /\ (forall x, In x (rq s') -> In x (rq s) \/ x = t \/ owner cfg s ctx name = Some x).
Proof.
  intros D N H. apply ustep_spec in H. destruct H as (_ & _ & ->). split; [apply do_unique_owner_other; assumption|].
  intros x X. apply do_unique_rq in X. destruct X as [X|[[-> _]|(Y & _)]]; auto.
Qed.

Lemma contexts_disjoint_dec cfg s t ctx name km lg s' ctx' name' :
  d17_concat_keys cfg = false \/ (dot_free name = true /\ dot_free name' = true) ->
  ctx <> ctx' ->
  ustep cfg s (UDecStart t ctx name km lg) = Some s' ->
  owner cfg s' ctx' name' = owner cfg s ctx' name'
  /\ (forall x, In x (rq s') -> In x (rq s) \/ owner cfg s ctx name = Some x).
Proof.
  intros D N H. apply ustep_spec in H. destruct H as (_ & _ & ->). cbn zeta. destruct (_ && _); [split; [reflexivity|auto]|].
  split; [rewrite do_unique_owner_other by assumption; reflexivity|].
  intros x X. apply do_unique_rq in X. unfold owner in *. cbn [start set_admitted rq n2t] in X.
  destruct X as [X|[[_ K]|(Y & _)]]; [auto|discriminate|auto].
Qed.

Lemma view_entry_other cfg ctx name ctx' t :
  d17_concat_keys cfg = false -> ctx <> ctx' -> view_entry cfg ctx' ((ctx, name), t) = None.
Proof.
  intros D N. unfold view_entry. rewrite D.
  destruct (String.eqb ctx ctx') eqn:E2; [apply String.eqb_eq in E2; contradiction|reflexivity].
Qed.

Lemma view_off_remove_key cfg ctx name ctx' m :
  d17_concat_keys cfg = false -> ctx <> ctx' -> view cfg ctx' (remove_key (ctx, name) m) = view cfg ctx' m.
Proof.
  intros D N. unfold view, remove_key. induction m as [|[[c k] t] m IH]; [reflexivity|].
  cbn [filter fst]. destruct (key_eqb (c, k) (ctx, name)) eqn:E; cbn [negb filter_opt].
  - apply key_eqb_eq in E. injection E as -> ->. rewrite IH. rewrite view_entry_other by assumption. reflexivity.
  - rewrite IH. reflexivity.
Qed.

Lemma view_off_claim cfg s t ctx name ctx' :
  d17_concat_keys cfg = false -> ctx <> ctx' ->
  view cfg ctx' (n2t (claim s t (key_of cfg ctx name))) = view cfg ctx' (n2t s).
Proof.
  intros D N. unfold claim. destruct (memN t (ours s)); [|reflexivity]. cbn [set_maps n2t].
  unfold key_of. rewrite D. unfold upd. unfold view at 1. cbn [filter_opt].
  rewrite view_entry_other by assumption.
  apply view_off_remove_key; assumption.
Qed.

Lemma contexts_disjoint_view cfg s t ctx name km s' ctx' :
  d17_concat_keys cfg = false -> ctx <> ctx' ->
  ustep cfg s (UUnique t ctx name km) = Some s' -> view cfg ctx' (n2t s') = view cfg ctx' (n2t s).
Proof.
  intros D N H. apply ustep_spec in H. destruct H as (_ & _ & ->).
  destruct (do_unique_does cfg s t ctx name km); rewrite ?view_off_claim by assumption; reflexivity.
Qed.

(* The validator moves its model state only through [vdo], i.e. by [ustep] on a label it records, so [vinv] holds of every
   state it passes through.  Its functions are nests of matches on options: one [opt_all_bind] per match. *)
Definition vinv (cfg : deviations) (v : vstate) : Prop := run cfg (rev (v_ls v)) = Some (v_s v).

Definition opt_all {A} (P : A -> Prop) (o : option A) : Prop := match o with Some a => P a | None => True end.

Lemma opt_all_Some {A} (P : A -> Prop) o : opt_all P o <-> forall a, o = Some a -> P a.
Proof. destruct o as [x|]; cbn; split; auto; [intros H a [= <-]; exact H|discriminate]. Qed.

Lemma opt_all_bind {A B} (P : A -> Prop) (Q : B -> Prop) o (f : A -> option B) :
  opt_all P o -> (forall a, P a -> opt_all Q (f a)) -> opt_all Q match o with Some a => f a | None => None end.
Proof. destruct o; cbn; auto. Qed.

Lemma vinv_vdo cfg v l : vinv cfg v -> opt_all (vinv cfg) (vdo cfg v l).
Proof.
  unfold vinv, vdo, run. intros Hv. destruct (ustep cfg (v_s v) l) as [s'|] eqn:E; [|exact I].
  cbn [opt_all v_ls v_s rev]. rewrite fold_left_opt_app, Hv. cbn. rewrite E. reflexivity.
Qed.
Lemma vinv_vtry cfg v l : vinv cfg v -> vinv cfg (vtry cfg v l).
Proof. intros Hv. unfold vtry. pose proof (vinv_vdo cfg v l Hv) as D. destruct (vdo cfg v l); assumption. Qed.
Lemma vinv_poll_one cfg c v t : vinv cfg v -> vinv cfg (poll_one cfg c v t).
Proof.
  intros Hv. unfold poll_one. destruct (task_dec c t) as [[name km]|]; [|exact Hv]. cbn zeta.
  destruct (memN t (admitted _)); [destruct (begun c t); [exact Hv|]|destruct (memN t (started _)); [exact Hv|]].
  - (* admitted, body not seen: UDecStart *) destruct (_ && _); [apply vinv_vtry|]; exact Hv.
  - (* fired only: UDispatch *) destruct (_ || _); [apply vinv_vtry|]; exact Hv.
Qed.
Lemma vinv_poll cfg c v : vinv cfg v -> vinv cfg (poll cfg c v).
Proof. intros Hv. unfold poll. do 2 (apply fold_left_inv; [intros a t _; apply vinv_poll_one|]). exact Hv. Qed.

Lemma vinv_gap_loop cfg fuel : forall v pend quiet, vinv cfg v -> opt_all (vinv cfg) (gap_loop cfg fuel v pend quiet).
Proof.
  induction fuel as [|f IH]; intros v pend quiet Hv; cbn [gap_loop]; [exact I|].
  (* every branch stops, at [v] or with nothing, or takes one step and goes on *)
  assert (R : forall l p, opt_all (vinv cfg) match vdo cfg v l with Some v' => gap_loop cfg f v' p quiet | None => None end).
  { intros l p. apply opt_all_bind with (1 := vinv_vdo cfg v l Hv). intros v'. apply IH. }
  destruct (busy (v_s v)) as [t|].
  - destruct (memN t (live (v_s v))); [destruct (memN t pend)|].
    + (* live, its exit to place: UExit t true *) apply R.
    + destruct (_ && _); [exact Hv|exact I].
    + (* ended: UReaper, or stop *) destruct (_ || _); [apply R|exact Hv].
  - destruct (rq (v_s v)).
    + destruct (is_nil pend); [exact Hv|exact I].
    + (* UReaper, or stop *) destruct (_ || _); [apply R|exact Hv].
Qed.

Lemma vinv_gap cfg v exits quiet : vinv cfg v -> opt_all (vinv cfg) (gap cfg v exits quiet).
Proof.
  intros Hv. unfold gap. eapply opt_all_bind; [|intros v1; apply vinv_gap_loop].
  apply opt_all_Some. intros v1. apply (fold_left_opt_inv (vinv cfg)); [|exact Hv].
  intros v2 t v2' H2. apply opt_all_Some, vinv_vdo, H2.
Qed.

Lemma vinv_vevent cfg c v e : vinv cfg v -> opt_all (vinv cfg) (vevent cfg c v e).
Proof.
  intros Hv. unfold vevent. destruct (negb _); [exact I|].
  apply opt_all_bind with (1 := vinv_gap cfg v _ _ Hv). intros v1 H1.
  pose proof (vinv_poll cfg c v1 H1) as H2. apply opt_all_bind with (P := vinv cfg).
  - (* the step of the event itself *) destruct (e_kind e) as [t|t|t ci name km|t who|t|].
    + (* KFire *) apply vinv_poll. destruct (task_dec c t); exact H2.
    + (* KBegin: UDecStart or UStart *)
      destruct (tinfo_of c t) as [ti|]; [|exact I]. destruct (ti_dec ti) as [[name km]|]; [|apply vinv_vdo, H2].
      apply opt_all_bind with (1 := vinv_vdo cfg _ _ H2). intros v' H'. destruct (memN t _); [exact H'|exact I].
    + (* KPre *) exact H2.
    + (* KPost: UNop *) apply vinv_vdo, H2.
    + (* KNop: UNop *) apply vinv_vdo, H2.
    + (* KQuiet *) exact H2.
  - intros v3 H3. destruct (negb _); [exact I|]. apply opt_all_bind with (P := vinv cfg).
    + (* KPre takes its UUnique after the snapshot test; [set_post] leaves the path and the state alone *)
      destruct (e_kind e) as [t|t|t ci name km|t who|t|]; [exact H3|exact H3| |exact H3..].
      apply opt_all_bind with (1 := vinv_vdo cfg v3 _ H3). intros v' H'. exact H'.
    + intros v4 H4. apply vinv_poll. exact H4.
Qed.

Lemma validate_path cfg c v : validate cfg c = Some v -> run cfg (rev (v_ls v)) = Some (v_s v).
Proof.
  apply (fold_left_opt_inv (vinv cfg) (vevent cfg c)); [|reflexivity].
  intros v1 e v2 H1. apply opt_all_Some, vinv_vevent, H1.
Qed.

Theorem validated_is_path cfg c : ucase_model_ok cfg c = true ->
  exists ls s, ucase_path cfg c = Some ls /\ run cfg ls = Some s /\ Inv s.
Proof.
  unfold ucase_model_ok, ucase_path. intros H. destruct (validate cfg c) as [v|] eqn:E; [|rewrite andb_false_r in H; discriminate].
  pose proof (validate_path cfg c v E) as Hv. exists (rev (v_ls v)), (v_s v).
  split; [reflexivity|]. split; [exact Hv|eapply Inv_run; exact Hv].
Qed.

(* [as_is] has both switches on: pyscript before the repairs of D17 and D130 *)
Local Open Scope string_scope.

Definition d17_path : list ulabel :=
  [UStart 0%N true; UUnique 0%N "scripts.a" "b.x" false; UStart 1%N true].

(* D17: task 0 of context scripts.a owns "b.x"; task 1 of context scripts.a.b claims "x": task 0 loses its name
   as reported by task.name2id in ITS context and is queued for cancellation *)
Lemma refuted_D17 : exists ls s s',
  run as_is ls = Some s
  /\ "scripts.a.b" <> "scripts.a"
  /\ ustep as_is s (UUnique 1%N "scripts.a.b" "x" false) = Some s'
  /\ owner as_is s "scripts.a" "b.x" = Some 0%N
  /\ owner as_is s' "scripts.a" "b.x" = Some 1%N
  /\ In 0%N (rq s')
  /\ view as_is "scripts.a" (n2t s') = [("b.x", 1%N)].
Proof.
  exists d17_path. eexists. eexists. split; [reflexivity|].
  split; [discriminate|]. split; [reflexivity|]. vm_compute. repeat split; auto.
Qed.

(* the same path under pair keys keeps the contexts apart *)
Example D17_off_ok : exists s s',
  run all_off d17_path = Some s /\ ustep all_off s (UUnique 1%N "scripts.a.b" "x" false) = Some s'
  /\ owner all_off s' "scripts.a" "b.x" = Some 0%N /\ rq s' = [].
Proof. eexists. eexists. split; [reflexivity|]. split; [reflexivity|]. vm_compute. auto. Qed.

(* so do concatenated keys when the names are dot-free, the other alternative of [contexts_disjoint]'s hypothesis *)
Example contexts_disjoint_inhabited : exists s s',
  run as_is [UStart 0%N true; UUnique 0%N "scripts.a"%string "x"%string false; UStart 1%N true] = Some s
  /\ dot_free "x"%string = true
  /\ ustep as_is s (UUnique 1%N "scripts.a.b"%string "x"%string false) = Some s'
  /\ owner as_is s' "scripts.a"%string "x"%string = Some 0%N /\ rq s' = [].
Proof. eexists. eexists. split; [reflexivity|]. split; [reflexivity|]. split; [reflexivity|]. vm_compute. auto. Qed.

Definition d130_path : list ulabel :=
  [UDispatch 1%N "scripts.a" "x" true true; UStart 0%N true; UUnique 0%N "scripts.a" "x" false].

(* D130: the legacy @task_unique("x", kill_me=True) run was admitted when "x" was free; task 0 took "x" before the run
   started; the run starts nevertheless, takes the name and task 0 is queued for cancellation *)
Lemma refuted_D130 : exists ls s s',
  run as_is ls = Some s
  /\ owner as_is s "scripts.a" "x" = Some 0%N /\ In 0%N (live s)
  /\ ustep as_is s (UDecStart 1%N "scripts.a" "x" true true) = Some s'
  /\ In 1%N (live s') /\ owner as_is s' "scripts.a" "x" = Some 1%N /\ In 0%N (rq s').
Proof.
  exists d130_path. eexists. eexists. split; [reflexivity|]. split; [reflexivity|]. split; [left; reflexivity|].
  split; [reflexivity|]. vm_compute. auto.
Qed.

Example D130_off_ok : exists s s',
  run all_off d130_path = Some s /\ ustep all_off s (UDecStart 1%N "scripts.a" "x" true true) = Some s'
  /\ ~ In 1%N (live s') /\ owner all_off s' "scripts.a" "x" = Some 0%N /\ rq s' = [].
Proof.
  eexists. eexists. split; [vm_compute; reflexivity|]. split; [vm_compute; reflexivity|]. vm_compute.
  repeat split; auto. intros [H|[]]. discriminate.
Qed.

Example two_names : exists s,
  run as_is [UStart 0%N true; UUnique 0%N "scripts.a" "x" false; UUnique 0%N "scripts.a" "y" true] = Some s
  /\ owner as_is s "scripts.a" "x" = Some 0%N /\ owner as_is s "scripts.a" "y" = Some 0%N.
Proof. eexists. split; [reflexivity|]. vm_compute. auto. Qed.

Example dot_free_inhabited : dot_free "x" = true /\ dot_free "unique_name_1" = true /\ dot_free "b.x" = false.
Proof. vm_compute. auto. Qed.

(* three tasks claim the same name in the same instant, the reaper ends the first two *)
Example contended_run : exists s,
  run as_is [UStart 0%N true; UUnique 0%N "scripts.a" "x" false; UStart 1%N true; UStart 2%N true;
             UUnique 1%N "scripts.a" "x" false; UUnique 2%N "scripts.a" "x" false;
             UReaper; UExit 0%N true; UReaper; UExit 1%N true; UReaper] = Some s
  /\ owner as_is s "scripts.a" "x" = Some 2%N /\ live s = [2%N] /\ rq s = [] /\ busy s = None.
Proof. eexists. split; [vm_compute; reflexivity|]. vm_compute. auto. Qed.

Local Close Scope string_scope.

(* recorded from the real pyscript (legacy subsystem) by harness/vh/workers/c13_unique.py: task 0 of scripts.a claims "x"
   directly and again through a helper of the imported module (context modules.pvh), creates task 2 and sleeps in that helper;
   task 2 calls task.unique("x", kill_me=True) meanwhile and is terminated; task 1, a @task_unique("x") trigger closure made by
   the module's factory (context modules.pvh), replaces task 0 as owner of modules.pvh/"x" only *)
Definition example_case : ucase :=
    (let pv_s0 := {| o_n2t := []; o_t2n := []; o_ours := []; o_done := []; o_views := [[]; []; 
    []] |} in let pv_s1 := {| o_n2t := []; o_t2n := []; o_ours := [0%N]; o_done := []; o_views := [[]; []; 
    []] |} in let pv_s2 := {| o_n2t := [(("scripts.a"%string, "x"%string), 0%N)]; 
    o_t2n := [(0%N, ("scripts.a"%string, "x"%string))]; o_ours := [0%N]; o_done := []; 
    o_views := [[("x"%string, 0%N)]; []; 
    []] |} in let pv_s3 := {| o_n2t := [(("modules.pvh"%string, "x"%string), 0%N); 
    (("scripts.a"%string, "x"%string), 0%N)]; o_t2n := [(0%N, ("modules.pvh"%string, "x"%string)); 
    (0%N, ("scripts.a"%string, "x"%string))]; o_ours := [0%N]; o_done := []; o_views := [[("x"%string, 0%N)]; []; 
    [("x"%string, 0%N)]] |} in let pv_s4 := {| o_n2t := [(("modules.pvh"%string, "x"%string), 0%N); 
    (("scripts.a"%string, "x"%string), 0%N)]; o_t2n := [(0%N, ("modules.pvh"%string, "x"%string)); 
    (0%N, ("scripts.a"%string, "x"%string))]; o_ours := [0%N; 2%N]; o_done := []; o_views := [[("x"%string, 0%N)]; 
    []; [("x"%string, 0%N)]] |} in let pv_s5 := {| o_n2t := [(("modules.pvh"%string, "x"%string), 0%N); 
    (("scripts.a"%string, "x"%string), 0%N)]; o_t2n := [(0%N, ("modules.pvh"%string, "x"%string)); 
    (0%N, ("scripts.a"%string, "x"%string))]; o_ours := [0%N]; o_done := [(2%N, true)]; 
    o_views := [[("x"%string, 0%N)]; []; 
    [("x"%string, 0%N)]] |} in let pv_s6 := {| o_n2t := [(("modules.pvh"%string, "x"%string), 1%N); 
    (("scripts.a"%string, "x"%string), 0%N)]; o_t2n := [(0%N, ("scripts.a"%string, "x"%string)); 
    (1%N, ("modules.pvh"%string, "x"%string))]; o_ours := [0%N; 1%N]; o_done := [(2%N, true)]; 
    o_views := [[("x"%string, 0%N)]; []; 
    [("x"%string, 1%N)]] |} in let pv_s7 := {| o_n2t := [(("modules.pvh"%string, "x"%string), 1%N)]; 
    o_t2n := [(1%N, ("modules.pvh"%string, "x"%string))]; o_ours := [1%N]; o_done := [(0%N, true); (2%N, true)]; 
    o_views := [[]; []; [("x"%string, 1%N)]] |} in let pv_s8 := {| o_n2t := []; o_t2n := []; o_ours := []; 
    o_done := [(0%N, true); (1%N, false); (2%N, true)]; o_views := [[]; []; []] |} in {| uc_legacy := true; 
    uc_ctxs := ["scripts.a"%string; "scripts.c"%string; "modules.pvh"%string]; uc_tasks := [{| ti_ctx := 0%nat; 
    ti_ours := true; ti_dec := None; ti_created := false |}; {| ti_ctx := 2%nat; ti_ours := true; 
    ti_dec := (Some ("x"%string, false)); ti_created := false |}; {| ti_ctx := 0%nat; ti_ours := true; 
    ti_dec := None; ti_created := true |}]; uc_horizon := 4%N; uc_events := [{| e_kind := KFire 0%N; e_own := None; 
    e_snap := pv_s0 |}; {| e_kind := KBegin 0%N; e_own := (Some (0%nat, [])); e_snap := pv_s1 |}; 
    {| e_kind := KPre 0%N 0%nat "x"%string false; e_own := (Some (0%nat, [])); e_snap := pv_s1 |}; 
    {| e_kind := KPost 0%N (Some 0%N); e_own := (Some (0%nat, [("x"%string, 0%N)])); e_snap := pv_s2 |}; 
    {| e_kind := KPre 0%N 2%nat "x"%string false; e_own := (Some (2%nat, [])); e_snap := pv_s2 |}; 
    {| e_kind := KPost 0%N (Some 0%N); e_own := (Some (2%nat, [("x"%string, 0%N)])); e_snap := pv_s3 |}; 
    {| e_kind := KNop 0%N; e_own := (Some (0%nat, [("x"%string, 0%N)])); e_snap := pv_s3 |}; {| e_kind := KNop 0%N; 
    e_own := (Some (0%nat, [("x"%string, 0%N)])); e_snap := pv_s3 |}; {| e_kind := KBegin 2%N; 
    e_own := (Some (0%nat, [("x"%string, 0%N)])); e_snap := pv_s4 |}; {| e_kind := KPre 2%N 0%nat "x"%string true; 
    e_own := (Some (0%nat, [("x"%string, 0%N)])); e_snap := pv_s4 |}; {| e_kind := KQuiet; e_own := None; 
    e_snap := pv_s5 |}; {| e_kind := KFire 1%N; e_own := None; e_snap := pv_s5 |}; {| e_kind := KBegin 1%N; 
    e_own := (Some (2%nat, [("x"%string, 1%N)])); e_snap := pv_s6 |}; {| e_kind := KQuiet; e_own := None; 
    e_snap := pv_s7 |}; {| e_kind := KNop 1%N; e_own := (Some (2%nat, [("x"%string, 1%N)])); e_snap := pv_s7 |}; 
    {| e_kind := KNop 1%N; e_own := (Some (2%nat, [("x"%string, 1%N)])); e_snap := pv_s7 |}; {| e_kind := KQuiet; 
    e_own := None; e_snap := pv_s8 |}; {| e_kind := KQuiet; e_own := None; e_snap := pv_s8 |}; {| e_kind := KQuiet; 
    e_own := None; e_snap := pv_s8 |}]; uc_sane := true |}).

Example validated_inhabited : ucase_model_ok all_off example_case = true /\ ucase_spec_ok example_case = true.
Proof. vm_compute. auto. Qed.
