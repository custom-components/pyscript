(* PsEval with every deviation switch off and PyRef are the same state transformer, for every host that satisfies
   H1/H2.  Induction on fuel; a list helper by induction on the list, given equivalent evaluators of the children.
   Where the two sides nest their binds alike: congruence ([auto with eqm]); where one accumulates and the other
   appends afterwards, both are run from a state and split on each result ([mcase]). *)
From PV Require Import Common.Util Interp.Syntax Interp.Host Interp.PsEval Interp.PyRef.

(* Assumed of the host; that of Interp/BuiltinHost.v meets both (InterpWitness.v). *)
Definition H1 {hstate} (prim : primop -> list value -> hstate -> hstate * pres) : Prop :=
  forall v h, exists b, prim PTruth [v] h = (h, PRet (VBool b)).
Definition H2 {hstate} (prim : primop -> list value -> hstate -> hstate * pres) : Prop :=
  (forall o a b h h' v, prim (PCmp o) [a; b] h = (h', PRet v) -> exists t, v = VBool t) /\
  (forall t h, prim PTruth [VBool t] h = (h, PRet (VBool t))).

(* the right disjunct is a rewrite rule: both evaluators single out [EStarred] by such a match *)
Lemma starred_cases e :
  (exists a, e = EStarred a) \/ (forall T (x : expr -> T) (y : T), match e with EStarred a => x a | _ => y end = y).
Proof. destruct e; eauto. Qed.

Lemma existsb_find {A} (p : A -> bool) l : existsb p l = match find p l with Some _ => true | None => false end.
Proof. induction l as [|x l IH]; cbn; [reflexivity|]. destruct (p x); [reflexivity|exact IH]. Qed.

Lemma dict_set_fresh k v d : existsb (fun p => value_eqb k (fst p)) d = false -> dict_set k v d = d ++ [(k, v)].
Proof.
  induction d as [|[k' v'] d IH]; cbn; [reflexivity|]. intros [-> E]%orb_false_iff. rewrite (IH E). reflexivity.
Qed.

Lemma split_leading : forall es, split_at_star es = leading es.
Proof.
  induction es as [|e r IH]; [reflexivity|]. cbn [split_at_star leading].
  destruct (starred_cases e) as [[x ->]|Es]; [reflexivity|]. rewrite !Es, IH. reflexivity.
Qed.

Lemma binop_row_id : forall o, binop_row o = (o, false).
Proof. destruct o; reflexivity. Qed.

Section Equiv.
  Variable hstate : Type.
  Variable prim : primop -> list value -> hstate -> hstate * pres.
  Variable oh : N -> bool.
  Hypothesis HH1 : H1 prim.
  Hypothesis HH2 : H2 prim.

  Notation M := (M hstate).

  Definition eqm {A} (m1 m2 : M A) : Prop := forall s, m1 s = m2 s.

  Lemma eqm_refl {A} (m : M A) : eqm m m.
  Proof. intros s; reflexivity. Qed.
  Lemma eqm_sym {A} (m1 m2 : M A) : eqm m1 m2 -> eqm m2 m1.
  Proof. intros H s; symmetry; apply H. Qed.
  Lemma eqm_trans {A} (m1 m2 m3 : M A) : eqm m1 m2 -> eqm m2 m3 -> eqm m1 m3.
  Proof. intros H1' H2' s; rewrite H1'; apply H2'. Qed.

  Lemma bind_eqm {A B} (m1 m2 : M A) (k1 k2 : A -> M B) :
    eqm m1 m2 -> (forall a, eqm (k1 a) (k2 a)) -> eqm (bind m1 k1) (bind m2 k2).
  Proof. intros Hm Hk s. unfold bind. rewrite Hm. destruct (m2 s); auto. apply Hk. Qed.

  Lemma if_eqm {A} (c : bool) (m1 m2 n1 n2 : M A) :
    eqm m1 m2 -> eqm n1 n2 -> eqm (if c then m1 else n1) (if c then m2 else n2).
  Proof. destruct c; auto. Qed.

  Lemma ensure_eqm {A} (m1 m2 : M A) (f1 f2 : M unit) :
    eqm m1 m2 -> eqm f1 f2 -> eqm (ensure m1 f1) (ensure m2 f2).
  Proof. intros Hm Hf s. unfold ensure. rewrite Hm. destruct (m2 s); auto; rewrite Hf; reflexivity. Qed.

  (* each level of nesting costs one step of [auto]'s depth: a rule that nests more than five deep is given 6 or 8 *)
  Hint Resolve eqm_refl bind_eqm if_eqm ensure_eqm : eqm.

  Lemma bind_ret_l {A B} (a : A) (k : A -> M B) : eqm (bind (ret a) k) (k a).
  Proof. intros s; reflexivity. Qed.

  Lemma bind_ret_r {A} (m : M A) : eqm (bind m (fun a => ret a)) m.
  Proof. intros s; unfold bind, ret. destruct (m s); reflexivity. Qed.

  Lemma bind_assoc {A B C} (m : M A) (k : A -> M B) (k' : B -> M C) :
    eqm (bind (bind m k) k') (bind m (fun a => bind (k a) k')).
  Proof. intros s; unfold bind. destruct (m s); reflexivity. Qed.

  Lemma truth_ret (v : value) (b : bool) (s : istate hstate) :
    prim PTruth [v] (st_host s) = (st_host s, PRet (VBool b)) -> truth hstate prim v s = Ret b s.
  Proof. intros E. unfold truth, bind, do_prim_quiet. rewrite E. destruct s; reflexivity. Qed.

  Lemma truth_drop {A} (v : value) (k : bool -> M A) (m : M A) :
    (forall t, eqm (k t) m) -> eqm (bind (truth hstate prim v) k) m.
  Proof.
    intros Hk s. destruct (HH1 v (st_host s)) as [b Hb]. unfold bind. rewrite (truth_ret v b s Hb). apply Hk.
  Qed.

  Lemma cmp_apply_bool (o : pcmp) (a b : value) (s s' : istate hstate) (v : value) :
    cmp_apply hstate prim o a b s = Ret v s' -> exists t, v = VBool t.
  Proof.
    destruct HH2 as [Hc _].
    (* the six rich comparisons *)
    assert (Hp : forall o', do_prim hstate prim (PCmp o') [a; b] s = Ret v s' -> exists t, v = VBool t).
    { intros o'. unfold do_prim. destruct (prim _ _ (st_host s)) as [h' [w|x]] eqn:E; intros [= -> _]. eapply Hc, E. }
    assert (Hin : forall f : bool -> bool,
      bind (do_prim hstate prim PContains [b; a])
           (fun r => match r with VConst (CBool t) => ret (VBool (f t)) | _ => raise ExTypeError end) s = Ret v s' ->
      exists t, v = VBool t).
    { intros f. unfold bind, ret. destruct (do_prim _ _ _ _ s) as [[[]| | | | | |] s1| |]; try discriminate.
      intros [= <- _]; eauto. }
    destruct o; cbn [cmp_apply]; try apply Hp.
    - (* CmIs *) intros [= <- _]; eauto.
    - (* CmIsNot *) intros [= <- _]; eauto.
    - (* CmIn *) apply (Hin (fun t => t)).
    - (* CmNotIn *) apply (Hin negb).
  Qed.

  Lemma bind_cmp {A} (o : pcmp) (a b : value) (k1 k2 : value -> M A) :
    (forall t, eqm (k1 (VBool t)) (k2 (VBool t))) ->
    eqm (bind (cmp_apply hstate prim o a b) k1) (bind (cmp_apply hstate prim o a b) k2).
  Proof.
    intros Hk s. unfold bind. destruct (cmp_apply hstate prim o a b s) as [v s'| |] eqn:E; auto.
    destruct (cmp_apply_bool _ _ _ _ _ _ E) as [t ->]. apply Hk.
  Qed.

  Lemma bind_truth_bool {A} (t : bool) (k : bool -> M A) : eqm (bind (truth hstate prim (VBool t)) k) (k t).
  Proof. intros s. unfold bind. rewrite (truth_ret (VBool t) t s) by apply HH2. reflexivity. Qed.

  Lemma cmp_then_truth (o : pcmp) (a b : value) :
    eqm (bind (cmp_apply hstate prim o a b) (fun val => bind (truth hstate prim val) (fun t =>
           if t then ret (VBool true) else ret (VBool false))))
        (cmp_apply hstate prim o a b).
  Proof.
    eapply eqm_trans; [|apply bind_ret_r]. apply bind_cmp. intros t.
    eapply eqm_trans; [apply bind_truth_bool|]. destruct t; apply eqm_refl.
  Qed.

  (* both evaluators single out a call whose only positional argument is starred *)
  Lemma lone_star_eqm {A} (args : list expr) (a1 a2 : expr -> M A) (b1 b2 : M A) :
    (forall x, eqm (a1 x) (a2 x)) -> eqm b1 b2 ->
    eqm (match args with [EStarred x] => a1 x | _ => b1 end) (match args with [EStarred x] => a2 x | _ => b2 end).
  Proof. intros Ha Hb. destruct args as [|[] []]; auto. Qed.

  Section Children.
    Variables ev1 ev2 : expr -> M value.
    Variables asg1 asg2 : expr -> value -> M unit.
    Variable fuel : nat.
    Hypothesis Hev : forall e, eqm (ev1 e) (ev2 e).
    Hypothesis Hasg : forall t v, eqm (asg1 t v) (asg2 t v).
    Hint Resolve Hev Hasg : eqm.

    (* Where the two rules are convertible with the switches off: each lemma says only that the rule respects [eqm] in
       the evaluators of the children. *)

    Ltac mcase :=
      match goal with
      | |- context [match ?m ?s with Ret _ _ => _ | Raise _ _ => _ | Fuel => _ end] => destruct (m s) eqn:?; cbn beta iota; auto
      end.

    Lemma for_each_eqm (b1 b2 : value -> M (list value)) : (forall x, eqm (b1 x) (b2 x)) ->
      forall n c acc, eqm (for_each hstate prim n c b1 acc) (for_each hstate prim n c b2 acc).
    Proof.
      intros Hb. induction n as [|n IH]; intros c acc s; cbn [for_each]; [reflexivity|].
      destruct c as [[|x r]|it]; [reflexivity| |].
      - unfold bind. rewrite Hb. mcase. apply IH.
      - mcase. unfold bind. rewrite Hb. mcase. apply IH.
    Qed.

    Lemma conds_equiv : forall ifs, eqm (ps_conds hstate prim ev1 ifs) (py_ifs hstate prim ev2 ifs).
    Proof. induction ifs as [|c r IH]; cbn [ps_conds py_ifs]; auto 6 with eqm. Qed.
    Hint Resolve conds_equiv for_each_eqm : eqm.

    Lemma comp_equiv (e1 e2 : M (list value)) : eqm e1 e2 ->
      forall gens, eqm (ps_comp hstate prim ev1 asg1 fuel gens e1) (py_clauses hstate prim ev2 asg2 fuel gens e2).
    Proof.
      intros He. induction gens as [|[[tgt it] ifs] r IH]; cbn [ps_comp py_clauses]; [exact He|].
      auto 8 with eqm.
    Qed.

    Lemma scoped_equiv gens (m1 m2 : M value) : eqm m1 m2 ->
      eqm (ps_scoped hstate no_deviations gens m1) (py_nested hstate gens m2).
    Proof.
      (* with D104 off [ps_scoped] is [py_nested] up to conversion: [target_names] and [bound_names] are the same fixpoint *)
      intros Hm. change (eqm (py_nested hstate gens m1) (py_nested hstate gens m2)). unfold py_nested. auto with eqm.
    Qed.
    Hint Resolve comp_equiv scoped_equiv : eqm.

    Lemma opt_equiv o : eqm (ps_opt hstate ev1 o) (py_bound hstate ev2 o).
    Proof. destruct o; cbn [ps_opt py_bound]; auto with eqm. Qed.

    Lemma bind_seq_eqm : forall ts vs, eqm (bind_seq hstate asg1 ts vs) (bind_seq hstate asg2 ts vs).
    Proof. induction ts as [|t r IH]; intros [|v vr]; cbn [bind_seq]; auto with eqm. Qed.
    Hint Resolve bind_seq_eqm : eqm.

    Lemma unpack_eqm ts v : eqm (unpack_targets hstate prim asg1 fuel ts v) (unpack_targets hstate prim asg2 fuel ts v).
    Proof.
      unfold unpack_targets. destruct (split_star ts) as [[[before star] after]|]; [|auto with eqm].
      apply bind_eqm; [apply eqm_refl|]. intros items. destruct star; auto 6 with eqm.
    Qed.
    Hint Resolve unpack_eqm opt_equiv : eqm.

    Lemma assign_body_equiv t v :
      eqm (ps_assign_body hstate prim no_deviations ev1 asg1 fuel t v) (py_assign_rule hstate prim ev2 asg2 fuel t v).
    Proof.
      destruct t; cbn [ps_assign_body py_assign_rule d_list_target no_deviations];
        unfold ps_unpack, py_unpack; cbn [d_unpack_drain no_deviations]; auto 6 with eqm.
    Qed.

    Lemma assign_all_equiv : forall ts v, eqm (ps_assign_all hstate asg1 ts v) (py_targets hstate asg2 ts v).
    Proof. induction ts as [|t r IH]; intros v; cbn [ps_assign_all py_targets]; auto with eqm. Qed.

    Lemma delete_one_equiv t : eqm (ps_delete_one hstate prim no_deviations ev1 t) (py_del hstate prim ev2 t).
    Proof. destruct t; cbn [ps_delete_one py_del d_del_attr_state no_deviations]; auto 6 with eqm. Qed.
    Hint Resolve assign_all_equiv delete_one_equiv : eqm.

    Lemma delete_equiv : forall ts, eqm (ps_delete hstate prim no_deviations ev1 ts) (py_dels hstate prim ev2 ts).
    Proof. induction ts as [|t r IH]; cbn [ps_delete py_dels]; auto with eqm. Qed.

    Lemma stmt_body_equiv st :
      eqm (ps_stmt_body hstate prim no_deviations ev1 asg1 st) (py_stmt_rule hstate prim ev2 asg2 st).
    Proof.
      destruct st as [e|ts e|t o e|ts|]; cbn [ps_stmt_body py_stmt_rule d_aug_not_inplace d_aug_target_twice no_deviations].
      - auto with eqm.
      - auto with eqm.
      - destruct t; auto 8 with eqm.
      - apply delete_equiv.
      - apply eqm_refl.
    Qed.

    (* Where they differ: order of tests (BoolOp, Compare), accumulating against appending (displays, arguments,
       f-strings), nesting of binds (keywords, dict and set displays), a table lookup (BinOp). *)
    Lemma boolop_equiv (o : boolop) : forall rest a val,
      eqm (ps_boolop hstate prim ev1 o (a :: rest) val) (py_bool hstate prim ev2 o a rest).
    Proof.
      induction rest as [|y r IH]; intros a val; cbn [ps_boolop py_bool].
      - eapply eqm_trans; [|apply bind_ret_r]. apply bind_eqm; [apply Hev|]. intros v.
        (* pyscript tests the last operand as well and ignores the answer: this is where H1 is needed *)
        apply truth_drop. intros t. destruct o, t; apply eqm_refl.
      - apply bind_eqm; [apply Hev|]. intros v. apply bind_eqm; [apply eqm_refl|]. intros t.
        destruct o, t; try apply eqm_refl; apply (IH y v).
    Qed.

    (* [lv]: the left operand, if already evaluated *)
    Lemma chain_equiv : forall rest lft lv o b,
      eqm (ps_compare hstate prim no_deviations ev1 lft lv ((o, b) :: rest))
          (bind (match lv with Some v => ret v | None => ev2 lft end) (fun va => py_chain hstate prim ev2 va o b rest)).
    Proof.
      induction rest as [|[o2 e2] r IH]; intros lft lv o b; cbn [ps_compare py_chain];
        (apply bind_eqm; [destruct lv; auto with eqm|]); intros va; (apply bind_eqm; [apply Hev|]); intros vb.
      - apply cmp_then_truth.
      - apply bind_cmp. intros t.
        eapply eqm_trans; [apply bind_truth_bool|]. eapply eqm_trans; [|apply eqm_sym, bind_truth_bool].
        destruct t; [|apply eqm_refl].
        (* D3 off: the value of the right operand is handed on as the next left operand *)
        exact (eqm_trans _ _ _ (IH b (Some vb) o2 e2) (bind_ret_l _ _)).
    Qed.

    (* [acc]: what the continuation still has to be given *)
    Lemma elts_bind_equiv {A} : forall es acc (k1 k2 : list value -> M A), (forall l, eqm (k1 (acc ++ l)) (k2 l)) ->
      eqm (bind (ps_elts hstate prim ev1 fuel es acc) k1) (bind (py_items hstate prim ev2 fuel es) k2).
    Proof.
      induction es as [|e r IH]; intros acc k1 k2 Hk s.
      - cbn. rewrite <- Hk, app_nil_r. reflexivity.
      - assert (Hr : forall here s1, bind (ps_elts hstate prim ev1 fuel r (acc ++ here)) k1 s1 =
                       bind (bind (py_items hstate prim ev2 fuel r) (fun rest => ret (here ++ rest))) k2 s1).
        { intros here s1. rewrite bind_assoc. apply IH. intros l. rewrite <- app_assoc. apply Hk. }
        cbn [ps_elts py_items]. destruct (starred_cases e) as [[x ->]|Es].
        + unfold bind. rewrite Hev. mcase. mcase. apply Hr.
        + rewrite !Es. unfold bind. rewrite Hev. mcase. apply Hr.
    Qed.
    Hint Resolve boolop_equiv elts_bind_equiv : eqm.

    Lemma kw_put_equiv k v d : eqm (kw_put hstate no_deviations k v d) (py_kw_add hstate k v d).
    Proof.
      intros s. unfold kw_put, py_kw_add. cbn [d_kw_dup_silent no_deviations].
      pose proof (dict_set_fresh k v d) as F. rewrite existsb_find in *.
      destruct (find _ d); [reflexivity|]. rewrite F; reflexivity.
    Qed.
    Hint Resolve kw_put_equiv : eqm.

    Lemma kw_merge_equiv : forall m d, eqm (kw_merge hstate no_deviations m d) (py_kw_add_all hstate m d).
    Proof. induction m as [|[k v] r IH]; intros d; cbn [kw_merge py_kw_add_all]; auto with eqm. Qed.
    Hint Resolve kw_merge_equiv : eqm.

    Lemma kwargs_equiv : forall kws d,
      eqm (ps_kwargs hstate no_deviations ev1 kws d) (py_keywords hstate ev2 kws d).
    Proof.
      induction kws as [|[[k|] e] r IH]; intros d; cbn [ps_kwargs py_keywords]; auto with eqm.
      apply bind_eqm; [apply Hev|]. intros v. eapply eqm_trans; [|apply eqm_sym, bind_assoc]. auto with eqm.
    Qed.
    Hint Resolve kwargs_equiv : eqm.

    Lemma flush_equiv : forall pend d, eqm (dict_flush hstate oh pend d) (py_store_pairs hstate oh pend d).
    Proof.
      induction pend as [|[k v] r IH]; intros d s; cbn [dict_flush py_store_pairs]; [reflexivity|].
      unfold bind, dict_put. destruct (hashable oh k); cbn; [apply IH|reflexivity].
    Qed.
    Hint Resolve flush_equiv : eqm.

    Lemma dict_equiv : forall items pend d,
      eqm (ps_dict hstate oh no_deviations ev1 items pend d) (py_dict hstate oh ev2 items pend d).
    Proof.
      induction items as [|[[k|] e] r IH]; intros pend d; cbn [ps_dict py_dict]; auto with eqm.
      cbn [d_dict_value_first d_dict_eager_insert no_deviations].
      eapply eqm_trans; [apply bind_assoc|]. apply bind_eqm; [apply Hev|]. intros kv.
      eapply eqm_trans; [apply bind_assoc|]. apply bind_eqm; [apply Hev|]. intros v.
      exact (eqm_trans _ _ _ (bind_ret_l _ _) (IH _ _)).
    Qed.
    Hint Resolve dict_equiv : eqm.

    Lemma set_tail_equiv : forall es acc,
      eqm (ps_set_tail hstate prim oh ev1 fuel es acc) (py_set_more hstate prim oh ev2 fuel es acc).
    Proof.
      induction es as [|e r IH]; intros acc s; [reflexivity|].
      cbn [ps_set_tail py_set_more]. destruct (starred_cases e) as [[x ->]|Es].
      - unfold bind. rewrite Hev. mcase. mcase. mcase. mcase. apply IH.
      - rewrite !Es. unfold bind. rewrite Hev. mcase. mcase. apply IH.
    Qed.
    Hint Resolve set_tail_equiv : eqm.

    Lemma set_equiv es : eqm (ps_set hstate prim oh no_deviations ev1 fuel es) (py_set hstate prim oh ev2 fuel es).
    Proof.
      unfold ps_set, py_set. cbn [d_set_late_hash no_deviations]. rewrite split_leading.
      destruct (leading es) as [lead more]. auto 6 with eqm.
    Qed.

    Lemma joined_equiv : forall parts acc,
      eqm (ps_joined hstate ev1 parts acc) (bind (py_pieces hstate ev2 parts) (fun s => ret (VConst (CStr (acc ++ s))))).
    Proof.
      induction parts as [|p r IH]; intros acc s; cbn [ps_joined py_pieces].
      - unfold bind, ret. rewrite app_nil_r. reflexivity.
      - unfold bind. rewrite Hev. destruct (ev2 p s) as [v s1|x s1|]; [|reflexivity..].
        destruct v as [[]| | | | | |]; try reflexivity.
        rewrite IH. unfold bind. mcase. unfold ret. rewrite <- app_assoc. reflexivity.
    Qed.

    Lemma expr_body_equiv e :
      eqm (ps_expr_body hstate prim oh no_deviations ev1 asg1 fuel e) (py_expr_rule hstate prim oh ev2 asg2 fuel e).
    Proof.
      destruct e; cbn [ps_expr_body py_expr_rule]; try solve [auto 6 with eqm].
      - (* EBinOp *) rewrite binop_row_id. cbn. auto with eqm.
      - (* EUnaryOp *) destruct o; cbn [d_uadd_identity no_deviations]; auto with eqm.
      - (* ECompare *) apply chain_equiv.
      - (* ECall *) cbn [d_call_kw_first no_deviations]. apply bind_eqm; [apply Hev|]. intros vf.
        apply lone_star_eqm; auto 6 with eqm.
      - (* ESet *) apply set_equiv.
      - (* EJoinedStr *) exact (joined_equiv parts []).
      - (* EFormattedValue *) cbn [d_fstring_conv d_fstr_conv_early no_deviations]. destruct spec; auto 6 with eqm.
    Qed.
  End Children.

  Lemma expr_assign_equiv : forall fuel : nat,
    (forall e, eqm (ps_expr hstate prim oh no_deviations fuel e) (py_expr hstate prim oh fuel e)) /\
    (forall t v, eqm (ps_assign hstate prim oh no_deviations fuel t v) (py_assign hstate prim oh fuel t v)).
  Proof.
    induction fuel as [|n [IHe IHa]]; split; intros; cbn [ps_expr py_expr ps_assign py_assign]; try apply eqm_refl.
    - apply expr_body_equiv; assumption.
    - apply assign_body_equiv; assumption.
  Qed.

  Lemma stmt_equiv fuel st : eqm (ps_stmt hstate prim oh no_deviations fuel st) (py_stmt hstate prim oh fuel st).
  Proof.
    destruct fuel as [|n]; cbn [ps_stmt py_stmt]; [apply eqm_refl|].
    destruct (expr_assign_equiv n) as [He Ha]. apply stmt_body_equiv; assumption.
  Qed.

  Lemma block_equiv fuel : forall p, eqm (ps_block hstate prim oh no_deviations fuel p) (py_block hstate prim oh fuel p).
  Proof.
    induction p as [|st r IH]; cbn [ps_block py_block]; [apply eqm_refl|].
    apply bind_eqm; [apply stmt_equiv|]. intros _. apply IH.
  Qed.

  Lemma run_equiv (cfg : deviations) : all_off cfg -> forall fuel p h e,
    ps_run hstate prim oh cfg fuel p h e = py_run hstate prim oh fuel p h e.
  Proof.
    intros -> fuel p h e. unfold ps_run, py_run. rewrite block_equiv. reflexivity.
  Qed.
End Equiv.

Section Run.
  Context (hstate : Type) (prim : primop -> list value -> hstate -> hstate * pres) (oh : N -> bool) (cfg : deviations).
  Hypotheses (Hoff : all_off cfg) (HH1 : H1 prim) (HH2 : H2 prim).
  Variables (fuel : nat) (p : program) (h : hstate) (e : env).

  Lemma obs_equiv : option_map obs (ps_run hstate prim oh cfg fuel p h e) = option_map obs (py_run hstate prim oh fuel p h e).
  Proof. rewrite (run_equiv hstate prim oh HH1 HH2 cfg Hoff). reflexivity. Qed.

  Lemma calls_equal r1 r2 :
    ps_run hstate prim oh cfg fuel p h e = Some r1 -> py_run hstate prim oh fuel p h e = Some r2 ->
    calls (rr_trail r1) = calls (rr_trail r2).
  Proof. rewrite (run_equiv hstate prim oh HH1 HH2 cfg Hoff). congruence. Qed.

  Lemma outcome_equal r1 r2 :
    ps_run hstate prim oh cfg fuel p h e = Some r1 -> py_run hstate prim oh fuel p h e = Some r2 ->
    rr_out r1 = rr_out r2 /\ rr_env r1 = rr_env r2.
  Proof. rewrite (run_equiv hstate prim oh HH1 HH2 cfg Hoff). split; congruence. Qed.
End Run.
