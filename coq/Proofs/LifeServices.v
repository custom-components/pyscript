(* C12: the reference-counting invariant of @service registration, for every sequence of define / redefine / delete / reload /
   unload over any number of contexts, both subsystems.  [gained], [lost]: what registrations and removals do to the tables;
   [Core]: counts and handlers; [RInv]: what holds of the function objects while contexts load; [LInv] is both, [SInv] what is
   left between operations.  Last come the theorems of Properties/C12.v. *)
From PV Require Import Common.Util Gen.ServiceConsts Life.Services.
From Coq Require Import Lia Sorted.

Local Open Scope N_scope.

(* phi changes only elements that neither filter keeps *)
Lemma filter_map_keep {A} (p q : A -> bool) (phi : A -> A) l :
  (forall x, In x l -> p (phi x) = q x /\ (q x = true -> phi x = x)) -> filter p (map phi l) = filter q l.
Proof.
  induction l as [|x l IH]; intros H; [reflexivity|]. cbn [map filter].
  rewrite IH by (intros y Hy; apply H; right; assumption).
  destruct (H x (or_introl eq_refl)) as (E & Hx). rewrite E. destruct (q x); [rewrite Hx; reflexivity|reflexivity].
Qed.

Lemma sorted_nodup l : StronglySorted N.lt l -> NoDup l.
Proof.
  induction 1 as [|a l Hs IH Hall]; constructor; [|assumption].
  intros Hin. rewrite Forall_forall in Hall. specialize (Hall a Hin). lia.
Qed.

(* a changed generated constant breaks this lemma *)
Lemma consts :
  reg_owner_cmp = CmpNe /\ reg_inc = 1 /\ reg_check_before_inc = true /\
  rm_cmp = CmpGt /\ rm_thresh = 1 /\ rm_dec = 1 /\ rm_reset = 0 /\ rm_pops_owner = true.
Proof. repeat split; reflexivity. Qed.

Fixpoint countN (k : N) (l : list N) : N :=
  match l with [] => 0 | x :: r => (if N.eqb x k then 1 else 0) + countN k r end.

Lemma countN_app k a b : countN k (a ++ b) = countN k a + countN k b.
Proof. induction a as [|x a IH]; cbn [app countN]; [lia|]. rewrite IH. lia. Qed.

Lemma memN_cons k x l : memN k (x :: l) = N.eqb k x || memN k l.
Proof. reflexivity. Qed.

Lemma memN_app k a b : memN k (a ++ b) = memN k a || memN k b.
Proof. unfold memN. apply existsb_app. Qed.

Lemma memN_In k l : memN k l = true <-> In k l.
Proof. exact (existsb_eqb_In _ N.eqb_eq k l). Qed.

Lemma memN_count k l : memN k l = negb (N.eqb (countN k l) 0).
Proof.
  induction l as [|x l IH]; [reflexivity|]. rewrite memN_cons, IH. cbn [countN].
  rewrite (N.eqb_sym k x). destruct (N.eqb x k); [|reflexivity].
  destruct (N.eqb_spec (1 + countN k l) 0); [lia|reflexivity].
Qed.

Lemma memN_false_count k l : memN k l = false -> countN k l = 0.
Proof. rewrite memN_count. destruct (N.eqb_spec (countN k l) 0); [auto|discriminate]. Qed.

Lemma memN_true_count k l : memN k l = true -> 0 < countN k l.
Proof. rewrite memN_count. destruct (N.eqb_spec (countN k l) 0); [discriminate|lia]. Qed.

Lemma memN_filter p k l : memN k (filter p l) = memN k l && p k.
Proof. exact (existsb_eqb_filter _ N.eqb_eq p k l). Qed.

Lemma memN_nodupN k l : memN k (nodupN l) = memN k l.
Proof.
  induction l as [|x l IH]; [reflexivity|]. cbn [nodupN]. rewrite !memN_cons, memN_filter, IH.
  destruct (N.eqb_spec k x); [reflexivity|apply andb_true_r].
Qed.

Definition hcount (k : N) (l : list frec) : N := fold_right (fun r a => countN k (f_held r) + a) 0 l.

Lemma hcount_cons k r l : hcount k (r :: l) = countN k (f_held r) + hcount k l.
Proof. reflexivity. Qed.

Lemma hcount_app k a b : hcount k (a ++ b) = hcount k a + hcount k b.
Proof. induction a as [|x a IH]; [reflexivity|]. rewrite <- app_comm_cons, !hcount_cons, IH. lia. Qed.

Lemma hcount_pos k l : 0 < hcount k l <-> exists r, In r l /\ memN k (f_held r) = true.
Proof.
  induction l as [|r l IH]; [split; [cbn; lia|intros (r & [] & _)]|]. rewrite hcount_cons. split.
  - intros H. destruct (memN k (f_held r)) eqn:E; [exists r; split; [left; reflexivity|assumption]|].
    apply memN_false_count in E. destruct IH as ((r' & Hin & Hm) & _); [lia|]. exists r'. split; [right; assumption|assumption].
  - intros (r' & [->|Hin] & Hm); [apply memN_true_count in Hm; lia|].
    assert (0 < hcount k l) by (apply IH; exists r'; auto). lia.
Qed.

(* context c may register k *)
Definition okf (s : st) (c : cid) (k : key) : bool :=
  match s_owner s k with None => true | Some o => N.eqb o c end.

(* [s_inc] is left out: it only stamps new function objects ([f_inc]) for the garbage collector, which finds nothing to do
   ([gc_off]) *)
Definition frame (s s' : st) (F : list frec) : Prop := s_funcs s' = F /\ s_files s' = s_files s /\ s_next s' = s_next s.

(* context c has registered the names l, with handler h *)
Definition gained (c : cid) (h : hinfo) (l : list key) (s s' : st) : Prop :=
  (forall x, s_cnt s' x = s_cnt s x + countN x l) /\
  (forall x, s_owner s' x = if memN x l then Some c else s_owner s x) /\
  (forall x, s_reg s' x = if memN x l then Some h else s_reg s x).

Lemma gained_app c h l1 l2 s s1 s2 : gained c h l1 s s1 -> gained c h l2 s1 s2 -> gained c h (l1 ++ l2) s s2.
Proof.
  intros (A & B & C) (A' & B' & C'). split; [|split]; intros x.
  - rewrite A', A, countN_app. lia.
  - rewrite B', B, memN_app. destruct (memN x l1), (memN x l2); reflexivity.
  - rewrite C', C, memN_app. destruct (memN x l1), (memN x l2); reflexivity.
Qed.

(* nothing a context registers changes what it may register *)
Lemma okf_gained c h ks s s' x : gained c h (filter (okf s c) ks) s s' -> okf s' c x = okf s c x.
Proof.
  intros (_ & B & _). unfold okf at 1. rewrite B, memN_filter. destruct (memN x ks); [|reflexivity]. cbn [andb].
  destruct (okf s c x) eqn:E; [apply N.eqb_refl|exact E].
Qed.

Lemma register_spec s c k h :
  frame s (fst (register s c k h)) (s_funcs s) /\ snd (register s c k h) = okf s c k /\
  gained c h (filter (okf s c) [k]) s (fst (register s c k h)).
Proof.
  destruct consts as (Hc & Hi & Hb & _). unfold register, okf, frame, gained. rewrite Hc, Hi, Hb. cbn [cmpN filter].
  (* k is owned by c, by another context (refused), or by nobody *)
  destruct (s_owner s k) as [o|] eqn:Eo; [destruct (N.eqb_spec o c) as [->|Hne]|rewrite N.eqb_refl]; cbn.
  all: repeat split; intros x; unfold upd; rewrite ?(N.eqb_sym k x); destruct (N.eqb_spec x k) as [->|]; cbn; try congruence; lia.
Qed.

(* after the removals l the name x has gone: its count was used up *)
Definition gone (l : list key) (s : st) (x : key) : bool := memN x l && (s_cnt s x <=? countN x l).

Definition lost (l : list key) (s s' : st) : Prop :=
  (forall x, s_cnt s' x = s_cnt s x - countN x l) /\
  (forall x, s_owner s' x = if gone l s x then None else s_owner s x) /\
  (forall x, s_reg s' x = if gone l s x then None else s_reg s x).

Lemma lost_app l1 l2 s s1 s2 : lost l1 s s1 -> lost l2 s1 s2 -> lost (l1 ++ l2) s s2.
Proof.
  intros (A & B & C) (A' & B' & C').
  (* gone after both: gone after the first, or after the second with what the first left of the count *)
  assert (G : forall x, gone (l1 ++ l2) s x = gone l1 s x || gone l2 s1 x).
  { intros x. unfold gone. rewrite A, memN_app, countN_app.
    destruct (memN x l1) eqn:E1, (memN x l2) eqn:E2; cbn [orb andb];
      rewrite ?(memN_false_count _ _ E1), ?(memN_false_count _ _ E2), ?N.add_0_r, ?N.sub_0_r, ?orb_false_r; try reflexivity.
    apply eq_true_iff_eq. rewrite orb_true_iff, !N.leb_le. lia. }
  split; [|split]; intros x.
  - rewrite A', A, countN_app. lia.
  - rewrite B', B, G. destruct (gone l1 s x), (gone l2 s1 x); reflexivity.
  - rewrite C', C, G. destruct (gone l1 s x), (gone l2 s1 x); reflexivity.
Qed.

Lemma remove_spec s k : frame s (remove s k) (s_funcs s) /\ lost [k] s (remove s k).
Proof.
  destruct consts as (_ & _ & _ & Hc & Ht & Hd & Hr & Hp). unfold remove, frame, lost, gone. rewrite Hc, Ht, Hd, Hr, Hp.
  cbn [cmpN countN memN existsb]. destruct (N.ltb_spec 1 (s_cnt s k)) as [Hgt|Hle]; cbn.
  all: repeat split; intros x; unfold upd; rewrite ?(N.eqb_sym k x); destruct (N.eqb_spec x k) as [->|]; cbn; try reflexivity.
  (* [1 <? n] of the code against [n <=? 1]; 0 is [s_cnt s k - 1]: the subtraction truncates *)
  all: destruct (N.leb_spec (s_cnt s k) 1); try reflexivity; lia.
Qed.

Lemma fold_remove_spec ks : forall s, frame s (fold_left remove ks s) (s_funcs s) /\ lost ks s (fold_left remove ks s).
Proof.
  induction ks as [|k ks IH]; intros s; cbn [fold_left].
  - unfold frame, lost, gone. cbn. repeat split; auto. intros; lia.
  - destruct (remove_spec s k) as ((A & B & C) & L). destruct (IH (remove s k)) as ((A' & B' & C') & L').
    split; [repeat split; congruence|]. exact (lost_app [k] ks _ _ _ L L').
Qed.

(* [w_reg] and [w_own] of [Core]: every primitive keeps them by itself *)
Definition Counted (s : st) : Prop :=
  forall k, (s_reg s k = None <-> s_cnt s k = 0) /\ (s_owner s k = None <-> s_cnt s k = 0).

Lemma counted_lost l s s' : lost l s s' -> Counted s -> Counted s'.
Proof.
  intros (A & B & C) HC x. rewrite A, B, C. unfold gone. destruct (HC x) as ((R1 & R2) & (O1 & O2)).
  destruct (memN x l) eqn:Em; cbn [andb]; [|rewrite (memN_false_count _ _ Em), N.sub_0_r; apply HC].
  destruct (N.leb_spec (s_cnt s x) (countN x l)).
  - split; split; intros _; [lia|reflexivity|lia|reflexivity].
  - split; split; intros E; [apply R1 in E|idtac|apply O1 in E|idtac]; lia.
Qed.

(* [later] (Services.v) and [rlater] (ServicesSpec.v) are both this *)
Definition later_by {A} (key : A -> N) (a : option A) (r : A) : option A :=
  match a with None => Some r | Some x => if key x <? key r then Some r else Some x end.

Lemma latest_by_spec {A} (key : A -> N) l :
  match fold_left (later_by key) l None with
  | None => l = []
  | Some r => In r l /\ forall r', In r' l -> key r' <= key r
  end.
Proof.
  induction l as [|y l IH] using rev_ind; [reflexivity|]. rewrite fold_left_app. cbn [fold_left].
  destruct (fold_left (later_by key) l None) as [x|]; cbn [later_by].
  - destruct IH as (Hx & Hmax).
    assert (Hall : forall z, key x <= key z -> key y <= key z -> forall r', In r' (l ++ [y]) -> key r' <= key z).
    { intros z Hxz Hyz r' Hr'. apply in_app_or in Hr'. destruct Hr' as [Hr'|[<-|[]]]; [specialize (Hmax r' Hr'); lia|assumption]. }
    destruct (N.ltb_spec (key x) (key y)); (split; [apply in_or_app; cbn; auto|apply Hall; lia]).
  - subst l. split; [left; reflexivity|]. intros r' [<-|[]]. lia.
Qed.

(* the other way round: a greatest element decides the key of the result *)
Lemma latest_by_max {A} (key : A -> N) l d : In d l -> (forall d', In d' l -> key d' <= key d) ->
  option_map key (fold_left (later_by key) l None) = Some (key d).
Proof.
  intros Hd Hmax. pose proof (latest_by_spec key l) as H. destruct (fold_left (later_by key) l None) as [x|]; [|subst l; destruct Hd].
  destruct H as (Hx & Hm). cbn. f_equal. apply N.le_antisymm; auto.
Qed.

Lemma latest_spec l :
  match latest l with None => l = [] | Some r => In r l /\ forall r', In r' l -> f_gen r' <= f_gen r end.
Proof. exact (latest_by_spec f_gen l). Qed.

Definition reg_refreshed (s : st) (k : key) : option hinfo :=
  match s_reg s k, latest (holders s k) with
  | Some _, Some r => Some (f_gen r, f_sr r)
  | _, _ => s_reg s k
  end.

Lemma refresh_spec s k :
  frame s (refresh s k) (s_funcs s) /\ (forall x, s_cnt (refresh s k) x = s_cnt s x) /\ (forall x, s_owner (refresh s k) x = s_owner s x) /\
  (forall x, s_reg (refresh s k) x = if N.eqb x k then reg_refreshed s k else s_reg s x).
Proof.
  unfold refresh, reg_refreshed, frame. destruct (s_reg s k) as [h|] eqn:Er; [destruct (latest (holders s k)) as [r|] eqn:El|]; cbn;
    repeat split; auto; intros x; unfold upd; destruct (N.eqb_spec x k) as [->|]; auto.
Qed.

Lemma reg_refreshed_none s k : reg_refreshed s k = None <-> s_reg s k = None.
Proof. unfold reg_refreshed. destruct (s_reg s k); [destruct (latest _)|]; split; intros; congruence. Qed.

Lemma reg_refreshed_refresh s a x : reg_refreshed (refresh s a) x = reg_refreshed s x.
Proof.
  destruct (refresh_spec s a) as ((Ef & _) & _ & _ & Hr). unfold reg_refreshed at 1, holders. rewrite Ef, Hr. fold (holders s x).
  destruct (N.eqb_spec x a) as [->|]; [|reflexivity].
  unfold reg_refreshed. destruct (s_reg s a); [destruct (latest (holders s a))|]; reflexivity.
Qed.

Lemma fold_refresh_spec ks : forall s,
  frame s (fold_left refresh ks s) (s_funcs s) /\
  (forall x, s_cnt (fold_left refresh ks s) x = s_cnt s x) /\ (forall x, s_owner (fold_left refresh ks s) x = s_owner s x) /\
  (forall x, s_reg (fold_left refresh ks s) x = if memN x ks then reg_refreshed s x else s_reg s x).
Proof.
  induction ks as [|a ks IH]; intros s; cbn [fold_left]; [repeat split; auto|].
  destruct (IH (refresh s a)) as ((A & B & C) & D & E & F). destruct (refresh_spec s a) as ((A' & B' & C') & D' & E' & F').
  split; [repeat split; congruence|]. split; [|split]; intros x; rewrite ?D, ?E, ?F; auto.
  rewrite reg_refreshed_refresh, F', memN_cons. destruct (N.eqb_spec x a) as [->|]; [destruct (memN a ks)|]; reflexivity.
Qed.

Lemma reg_loop_spec c h ks : forall s held,
  snd (reg_loop false c h ks s held) = true /\
  snd (fst (reg_loop false c h ks s held)) = held ++ filter (okf s c) ks /\
  frame s (fst (fst (reg_loop false c h ks s held))) (s_funcs s) /\
  gained c h (filter (okf s c) ks) s (fst (fst (reg_loop false c h ks s held))).
Proof.
  induction ks as [|k ks IH]; intros s held.
  - unfold gained. cbn. rewrite app_nil_r. repeat split; auto. intros; lia.
  - cbn [reg_loop]. change (filter (okf s c) (k :: ks)) with (filter (okf s c) ([k] ++ ks)). rewrite filter_app.
    destruct (register_spec s c k h) as ((A & B & C) & D & G).
    assert (Hext : filter (okf (fst (register s c k h)) c) ks = filter (okf s c) ks).
    { apply filter_ext. intros x. exact (okf_gained c h [k] _ _ x G). }
    destruct (register s c k h) as [s1 ok]. cbn [fst snd] in *. subst ok.
    assert (Hk : (if okf s c k then reg_loop false c h ks s1 (held ++ [k]) else reg_loop false c h ks s1 held)
                 = reg_loop false c h ks s1 (held ++ filter (okf s c) [k])).
    { cbn [filter]. destruct (okf s c k); [reflexivity|rewrite app_nil_r; reflexivity]. }
    rewrite Hk. destruct (IH s1 (held ++ filter (okf s c) [k])) as (I1 & I2 & (I3 & I4 & I5) & I6). rewrite Hext in *.
    split; [assumption|]. split; [rewrite I2, app_assoc; reflexivity|]. split; [repeat split; congruence|].
    exact (gained_app _ _ _ _ _ _ _ G I6).
Qed.

Definition committed (held : list key) (x : frec) : frec := with_tracked true (with_pending false (with_held held x)).

Lemma commit_spec s r : f_own r = f_ctx r ->
  frame s (commit false s r) (upd_rec (f_gen r) (committed (filter (okf s (f_ctx r)) (f_decl r))) (s_funcs s)) /\
  gained (f_ctx r) (f_gen r, f_sr r) (filter (okf s (f_ctx r)) (f_decl r)) s (commit false s r).
Proof.
  intros Eo. unfold commit. rewrite Eo.
  destruct (reg_loop_spec (f_ctx r) (f_gen r, f_sr r) (f_decl r) s []) as (A & B & (C & D & E) & F).
  destruct (reg_loop false (f_ctx r) (f_gen r, f_sr r) (f_decl r) s []) as [[s' held] ok]. cbn [fst snd] in *.
  subst ok held. unfold frame. cbn [set_funcs s_funcs s_files s_next]. rewrite C. auto.
Qed.

Lemma okf_commit s r c k : f_own r = f_ctx r -> f_ctx r = c -> okf (commit false s r) c k = okf s c k.
Proof. intros Eo <-. destruct (commit_spec s r Eo) as (_ & G). exact (okf_gained _ _ _ _ _ k G). Qed.

Definition gens (l : list frec) : list N := map f_gen l.

Lemma gens_upd_rec g f l : (forall r, f_gen (f r) = f_gen r) -> gens (upd_rec g f l) = gens l.
Proof.
  intros Hf. unfold gens, upd_rec. rewrite map_map. apply map_ext. intros r.
  destruct (N.eqb (f_gen r) g); [apply Hf|reflexivity].
Qed.

Lemma upd_rec_notin_id g f l : ~ In g (gens l) -> upd_rec g f l = l.
Proof.
  intros Hn. unfold upd_rec. rewrite <- (map_id l) at 2. apply map_ext_in. intros x Hx.
  destruct (N.eqb_spec (f_gen x) g) as [E|]; [|reflexivity]. exfalso. apply Hn. rewrite <- E. apply in_map. assumption.
Qed.

Lemma upd_rec_twice g f1 f2 l : (forall x, f_gen (f1 x) = f_gen x) ->
  upd_rec g f2 (upd_rec g f1 l) = upd_rec g (fun x => f2 (f1 x)) l.
Proof.
  intros Hf. unfold upd_rec. rewrite map_map. apply map_ext. intros x.
  destruct (N.eqb (f_gen x) g) eqn:E; [rewrite Hf|]; rewrite E; reflexivity.
Qed.

Lemma in_upd_rec g f l r' :
  In r' (upd_rec g f l) <-> exists r0, In r0 l /\ r' = (if N.eqb (f_gen r0) g then f r0 else r0).
Proof.
  unfold upd_rec. rewrite in_map_iff. split; intros (r0 & A & B); exists r0; [split; [assumption|symmetry; assumption]|split; [symmetry; assumption|assumption]].
Qed.

Lemma in_upd_other g f l r : In r l -> f_gen r <> g -> In r (upd_rec g f l).
Proof. intros Hr Hne. apply in_upd_rec. exists r. apply N.eqb_neq in Hne. rewrite Hne. auto. Qed.

Lemma in_upd_at l r f r' : NoDup (gens l) -> In r l ->
  (In r' (upd_rec (f_gen r) f l) <-> r' = f r \/ In r' l /\ f_gen r' <> f_gen r).
Proof.
  intros Hnd Hr. rewrite in_upd_rec. split.
  - intros (r0 & H0 & ->). destruct (N.eqb_spec (f_gen r0) (f_gen r)) as [E|Hne]; [left|right; split; assumption].
    f_equal. apply (NoDup_map_inj f_gen l); assumption.
  - intros [->|(H & Hne)]; [exists r; rewrite N.eqb_refl|exists r'; apply N.eqb_neq in Hne; rewrite Hne]; auto.
Qed.

(* a sum on either side, N having no negative difference *)
Lemma hcount_upd_held k l r f : NoDup (gens l) -> In r l ->
  hcount k (upd_rec (f_gen r) f l) + countN k (f_held r) = hcount k l + countN k (f_held (f r)).
Proof.
  intros Hnd Hr. destruct (in_split r l Hr) as (l1 & l2 & ->). unfold gens in Hnd. rewrite map_app in Hnd. cbn [map] in Hnd.
  apply NoDup_remove_2 in Hnd. unfold upd_rec. rewrite map_app. cbn [map]. rewrite N.eqb_refl.
  fold (upd_rec (f_gen r) f l1) (upd_rec (f_gen r) f l2).
  rewrite !upd_rec_notin_id by (intros H; apply Hnd, in_or_app; auto). rewrite !hcount_app, !hcount_cons. lia.
Qed.

Lemma hcount_filter k p l : (forall r, In r l -> p r = false -> f_held r = []) -> hcount k (filter p l) = hcount k l.
Proof.
  induction l as [|x l IH]; intros H; [reflexivity|]. cbn [filter].
  assert (IH' : hcount k (filter p l) = hcount k l) by (apply IH; intros r Hr; apply H; right; assumption).
  destruct (p x) eqn:E; rewrite !hcount_cons, ?IH'; [reflexivity|].
  rewrite (H x (or_introl eq_refl) E). cbn. lia.
Qed.

Record Core (s : st) : Prop := {
  w_cnt : forall k, s_cnt s k = hcount k (s_funcs s);                  (* count = number of live holdings *)
  w_reg : forall k, s_reg s k = None <-> s_cnt s k = 0;               (* registered in HA iff count positive *)
  w_own : forall k, s_owner s k = None <-> s_cnt s k = 0;
  w_ctx : forall r k, In r (s_funcs s) -> memN k (f_held r) = true -> s_owner s k = Some (f_ctx r);
  w_decl : forall r k, In r (s_funcs s) -> memN k (f_held r) = true -> memN k (f_decl r) = true;
  w_sorted : StronglySorted N.lt (gens (s_funcs s));
  w_next : forall r, In r (s_funcs s) -> f_gen r < s_next s;
  w_hand : forall k g m, s_reg s k = Some (g, m) ->                   (* HA's handler = most recent live holder *)
     exists r, In r (s_funcs s) /\ f_gen r = g /\ f_sr r = m /\ memN k (f_held r) = true /\
               forall r', In r' (s_funcs s) -> memN k (f_held r') = true -> f_gen r' <= g
}.

Lemma core_nodup s : Core s -> NoDup (gens (s_funcs s)).
Proof. intros H. apply sorted_nodup, (w_sorted _ H). Qed.

Lemma core_counted s : Core s -> Counted s.
Proof. intros H k. split; [apply (w_reg _ H)|apply (w_own _ H)]. Qed.

Lemma core_init : Core init_st.
Proof.
  constructor; cbn; try tauto; try (intros; contradiction).
  - (* w_sorted *) constructor.
  - (* w_hand *) intros; discriminate.
Qed.

Lemma core_set_files s f : Core s -> Core (set_files s f).
Proof. intros []; constructor; cbn; auto. Qed.

Lemma core_set_next s n : Core s -> s_next s <= n -> Core (set_next s n).
Proof. intros [] Hn; constructor; cbn; auto. intros r Hr. specialize (w_next0 r Hr). lia. Qed.

Lemma core_same_holders s F' n : Core s ->
  (forall r k, memN k (f_held r) = true -> (In r F' <-> In r (s_funcs s))) -> (forall k, hcount k F' = hcount k (s_funcs s)) ->
  StronglySorted N.lt (gens F') -> (forall r, In r F' -> f_gen r < n) -> Core (set_funcs (set_next s n) F').
Proof.
  intros HC Hsame Hcnt Hs Hn. constructor; cbn [set_funcs set_next s_cnt s_owner s_reg s_funcs s_next]; try assumption.
  - intros k. rewrite Hcnt. apply (w_cnt _ HC).
  - apply (w_reg _ HC).
  - apply (w_own _ HC).
  - intros r k H Hm. apply (w_ctx _ HC); [apply (Hsame r k Hm)|]; assumption.
  - intros r k H Hm. apply (w_decl _ HC r); [apply (Hsame r k Hm)|]; assumption.
  - intros k g m Hr. destruct (w_hand _ HC k g m Hr) as (r0 & Hr0 & Eg & Em & Hm & Hmax).
    exists r0. repeat split; auto; [apply (Hsame r0 k Hm); assumption|].
    intros r' H' Hm'. apply Hmax; [apply (Hsame r' k Hm')|]; assumption.
Qed.

Definition appended (s : st) (nr : frec) : st := set_funcs (set_next s (s_next s + 1)) (s_funcs s ++ [nr]).

Lemma core_append s nr : Core s -> f_held nr = [] -> f_gen nr = s_next s -> Core (appended s nr).
Proof.
  intros HC Hh Hg. apply core_same_holders; [assumption| | | |].
  - intros r k Hm. split; [|intros H; apply in_or_app; left; assumption].
    intros H. apply in_app_or in H. destruct H as [H|[<-|[]]]; [assumption|]. rewrite Hh in Hm. discriminate.
  - intros k. rewrite hcount_app, hcount_cons, Hh. cbn. lia.
  - pose proof (w_sorted _ HC) as Hs. unfold gens in *. rewrite map_app. cbn [map].
    assert (Hall : Forall (fun x => x < f_gen nr) (map f_gen (s_funcs s))).
    { rewrite Forall_forall. intros x Hx. apply in_map_iff in Hx. destruct Hx as (r & <- & Hr). rewrite Hg. apply (w_next _ HC); assumption. }
    induction Hs as [|a l Hs IH Ha]; cbn; [repeat constructor|]. inversion Hall; subst.
    constructor; [apply IH; assumption|]. rewrite Forall_app. repeat constructor; assumption.
  - intros r H. apply in_app_or in H. destruct H as [H|[<-|[]]]; [specialize (w_next _ HC r H)|]; lia.
Qed.

(* [release] and [unbind] with every switch off; [ks] is all that [g] holds *)
Definition giveup (ks : list key) (g : gen) (f : frec -> frec) (s : st) : st :=
  fold_left refresh ks (fold_left remove ks (set_funcs s (upd_rec g f (s_funcs s)))).

Lemma release_off legacy s r : release all_off legacy s r = giveup (f_held r) (f_gen r) (with_held []) s.
Proof. unfold release. cbn [all_off d_dup_set d_stale_handler]. rewrite andb_false_r. reflexivity. Qed.

Lemma giveup_frame ks g f s :
  frame s (giveup ks g f s) (upd_rec g f (s_funcs s)) /\
  forall k, memN k ks = false ->
    s_cnt (giveup ks g f s) k = s_cnt s k /\ s_owner (giveup ks g f s) k = s_owner s k /\ s_reg (giveup ks g f s) k = s_reg s k.
Proof.
  unfold giveup. set (s1 := set_funcs s _).
  destruct (fold_refresh_spec ks (fold_left remove ks s1)) as ((A & B & C) & Fc & Fo & Fr).
  destruct (fold_remove_spec ks s1) as ((A' & B' & C') & Rc & Ro & Rr). unfold frame. rewrite A, B, C, A', B', C'.
  split; [repeat split|]. intros k Hm. rewrite Fc, Fo, Fr, Hm, Rc, Ro, Rr. unfold gone.
  rewrite Hm, (memN_false_count _ _ Hm), N.sub_0_r. auto.
Qed.

Lemma core_giveup s r f : Core s -> In r (s_funcs s) -> f_held (f r) = [] -> (forall x, f_gen (f x) = f_gen x) ->
  Core (giveup (f_held r) (f_gen r) f s).
Proof.
  intros HC Hr Hh Hg. pose proof (core_nodup s HC) as Hnd. unfold giveup.
  set (ks := f_held r) in *. set (F1 := upd_rec (f_gen r) f (s_funcs s)) in *.
  destruct (fold_remove_spec ks (set_funcs s F1)) as ((Rf & _ & Rn) & RL). pose proof RL as (Rc & Ro & Rr).
  set (s2 := fold_left remove ks (set_funcs s F1)) in *.
  destruct (fold_refresh_spec ks s2) as ((EF & _ & En) & Fc & Fo & Fr). set (s3 := fold_left refresh ks s2) in *.
  rewrite Rf in EF. rewrite Rn in En. cbn [set_funcs s_funcs s_next] in EF, En.
  assert (Hin : forall r', In r' F1 <-> r' = f r \/ In r' (s_funcs s) /\ f_gen r' <> f_gen r) by (intros r'; apply in_upd_at; assumption).
  assert (Hcnt : forall x, s_cnt s3 x = hcount x F1).
  { intros x. rewrite Fc, Rc. cbn [set_funcs s_cnt]. rewrite (w_cnt _ HC).
    pose proof (hcount_upd_held x (s_funcs s) r f Hnd Hr) as H. rewrite Hh in H. fold F1 ks in H. cbn in H. lia. }
  assert (HC3 : Counted s3).
  { intros x. rewrite Fc, Fo, Fr. destruct (memN x ks); [rewrite reg_refreshed_none|]; apply (counted_lost _ _ _ RL), (core_counted s HC). }
  (* whatever is still held has kept its count positive, hence its owner *)
  assert (Hown : forall r' k, In r' F1 -> memN k (f_held r') = true -> s_owner s3 k = s_owner s k).
  { intros r' k H Hm. assert (Hp : 0 < s_cnt s3 k) by (rewrite Hcnt; apply hcount_pos; eauto).
    rewrite Fo, Ro. destruct (gone ks (set_funcs s F1) k) eqn:G; [|reflexivity].
    assert (E : s_owner s3 k = None) by (rewrite Fo, Ro, G; reflexivity). apply HC3 in E. lia. }
  assert (Hnot : forall k, memN k (f_held (f r)) = false) by (intros k; rewrite Hh; reflexivity).
  constructor.
  - intros k. rewrite EF. apply Hcnt.
  - apply HC3.
  - apply HC3.
  - intros r' k H Hm. rewrite EF in H. rewrite (Hown r' k H Hm). apply Hin in H. destruct H as [->|(H & _)]; [congruence|].
    apply (w_ctx _ HC); assumption.
  - intros r' k H Hm. rewrite EF in H. apply Hin in H. destruct H as [->|(H & _)]; [congruence|]. apply (w_decl _ HC r'); assumption.
  - rewrite EF. unfold F1. rewrite gens_upd_rec by assumption. apply (w_sorted _ HC).
  - intros r' H. rewrite EF in H. rewrite En. apply Hin in H. destruct H as [->|(H & _)]; [rewrite Hg|]; apply (w_next _ HC); assumption.
  - intros k g0 m Hreg. rewrite EF.
    assert (Hex : exists rh, In rh F1 /\ memN k (f_held rh) = true).
    { apply hcount_pos. rewrite <- Hcnt. destruct (N.eq_dec (s_cnt s3 k) 0) as [E|]; [|lia]. apply (proj1 (HC3 k)) in E. congruence. }
    rewrite Fr in Hreg. destruct (memN k ks) eqn:Em.
    +
      unfold reg_refreshed, holders in Hreg. rewrite Rf in Hreg. cbn [set_funcs s_funcs] in Hreg.
      destruct (s_reg s2 k); [|discriminate]. pose proof (latest_spec (filter (holds k) F1)) as Hl.
      destruct (latest (filter (holds k) F1)) as [rl|].
      * inversion Hreg; subst. destruct Hl as (Hrl & Hmax). apply filter_In in Hrl.
        exists rl. repeat split; try tauto. intros r' H' Hm'. apply Hmax, filter_In. auto.
      *
        destruct Hex as (rh & Hrh & Hmh). assert (Hf : In rh (filter (holds k) F1)) by (apply filter_In; auto).
        rewrite Hl in Hf. contradiction.
    + rewrite Rr in Hreg. unfold gone in Hreg. rewrite Em in Hreg. cbn [andb set_funcs s_reg] in Hreg.
      destruct (w_hand _ HC k g0 m Hreg) as (r1 & Hr1 & Eg1 & Em1 & Hm1 & Hmax). exists r1. repeat split; auto.
      * apply Hin. right. split; [assumption|]. intros E. rewrite (NoDup_map_inj f_gen _ r1 r Hnd Hr1 Hr E) in Hm1. fold ks in Hm1. congruence.
      * intros r' H' Hm'. apply Hin in H'. destruct H' as [->|(H' & _)]; [congruence|]. apply Hmax; assumption.
Qed.

(* r is younger than every function object of its context that holds a name *)
Definition above_holders (F : list frec) (r : frec) : Prop :=
  forall r', In r' F -> f_ctx r' = f_ctx r -> f_held r' <> [] -> f_gen r' < f_gen r.

(* the last hypothesis keeps w_hand: r becomes the handler of every name it gets.  True of a new function object, and at
   ctx.start() by [HoldOlder] *)
Lemma core_commit s r : Core s -> In r (s_funcs s) -> f_held r = [] -> f_own r = f_ctx r -> above_holders (s_funcs s) r ->
  Core (commit false s r).
Proof.
  intros HC Hr Hh Eown Hord. pose proof (core_nodup s HC) as Hnd.
  destruct (commit_spec s r Eown) as ((EF & _ & En) & Lc & Lo & Lr).
  set (c := f_ctx r) in *. set (held := filter (okf s c) (f_decl r)) in *. set (s' := commit false s r) in *.
  assert (Hin : forall r', In r' (s_funcs s') <-> r' = committed held r \/ In r' (s_funcs s) /\ f_gen r' <> f_gen r).
  { intros r'. rewrite EF. apply in_upd_at; assumption. }
  assert (Hheld : forall k, memN k held = true -> okf s c k = true /\ memN k (f_decl r) = true).
  { intros k Hm. unfold held in Hm. rewrite memN_filter in Hm. apply andb_prop in Hm. tauto. }
  assert (Hsame : forall k r1, memN k held = true -> In r1 (s_funcs s) -> memN k (f_held r1) = true -> f_ctx r1 = c).
  { intros k r1 Hm H1 Hm1. destruct (Hheld k Hm) as (Hok & _). unfold okf in Hok.
    rewrite (w_ctx _ HC r1 k H1 Hm1) in Hok. apply N.eqb_eq in Hok. assumption. }
  assert (HCn : Counted s').
  { intros k. rewrite Lr, Lo, Lc. destruct (memN k held) eqn:Em.
    - apply memN_true_count in Em. split; split; try discriminate; lia.
    - rewrite (memN_false_count _ _ Em), N.add_0_r. apply (core_counted s HC). }
  constructor.
  - intros k. rewrite Lc, EF, (w_cnt _ HC).
    pose proof (hcount_upd_held k (s_funcs s) r (committed held) Hnd Hr) as H. rewrite Hh in H. cbn in H. lia.
  - apply HCn.
  - apply HCn.
  - intros r' k H Hm. rewrite Lo. apply Hin in H. destruct H as [->|(H & _)].
    + change (memN k held = true) in Hm. rewrite Hm. reflexivity.
    + destruct (memN k held) eqn:Em; [rewrite (Hsame k r' Em H Hm); reflexivity|apply (w_ctx _ HC); assumption].
  - intros r' k H Hm. apply Hin in H. destruct H as [->|(H & _)]; [apply Hheld; exact Hm|apply (w_decl _ HC r'); assumption].
  - rewrite EF, gens_upd_rec by reflexivity. apply (w_sorted _ HC).
  - intros r' H. rewrite En. apply Hin in H. destruct H as [->|(H & _)]; [apply (w_next _ HC r)|apply (w_next _ HC)]; assumption.
  - intros k g0 m Hreg. rewrite Lr in Hreg. destruct (memN k held) eqn:Em.
    + inversion Hreg; subst g0 m. exists (committed held r). split; [apply Hin; left; reflexivity|]. repeat split; auto.
      intros r' H' Hm'. apply Hin in H'. destruct H' as [->|(H' & _)]; [cbn; lia|].
      apply N.lt_le_incl, Hord; [assumption|apply (Hsame k); assumption|intros E; rewrite E in Hm'; discriminate].
    + destruct (w_hand _ HC k g0 m Hreg) as (r1 & Hr1 & Eg1 & Em1 & Hm1 & Hmax). exists r1. repeat split; auto.
      * apply Hin. right. split; [assumption|]. intros E.
        rewrite (NoDup_map_inj f_gen _ r1 r Hnd Hr1 Hr E), Hh in Hm1. discriminate.
      * intros r' H' Hm'. apply Hin in H'. destruct H' as [->|(H' & _)]; [change (memN k held = true) in Hm'; congruence|apply Hmax; assumption].
Qed.

Lemma core_filter s p : Core s -> (forall r, In r (s_funcs s) -> p r = false -> f_held r = []) ->
  Core (set_funcs s (filter p (s_funcs s))).
Proof.
  intros HC Hp. change (Core (set_funcs (set_next s (s_next s)) (filter p (s_funcs s)))). apply core_same_holders; [assumption| | | |].
  - intros r k Hm. rewrite filter_In. split; [tauto|]. intros H. split; [assumption|].
    destruct (p r) eqn:E; [reflexivity|]. rewrite (Hp r H E) in Hm. discriminate.
  - intros k. apply hcount_filter. assumption.
  - apply sorted_map_filter, (w_sorted _ HC).
  - intros r H. apply filter_In in H. apply (w_next _ HC). tauto.
Qed.

(* [f_tracked] is false only of an object whose registration loop was aborted (D120) or whose manager is invalid (D23): hence the
   fourth clause, of which the third is a consequence *)
Definition flags_ok (r : frec) : Prop :=
  (f_pending r = true -> f_held r = [] /\ f_bound r = true) /\     (* waiting for start: holds nothing, still bound *)
  (f_bound r = false -> f_held r = []) /\                          (* unbound (deleted/rebound): holds nothing *)
  (f_held r <> [] -> f_tracked r = true) /\                        (* whatever holds a name is released by ctx.stop() *)
  f_tracked r = true /\                                            (* conformant: every function object is recorded in its context *)
  f_own r = f_ctx r.                                               (* ... and registers under its context's name *)
Definition Flags (s : st) : Prop := forall r, In r (s_funcs s) -> flags_ok r.
Definition WInv (s : st) : Prop := Core s /\ Flags s.

Lemma flags_pending r : flags_ok r -> f_pending r = true -> f_held r = [] /\ f_bound r = true.
Proof. intros H. apply H. Qed.

Lemma flags_unbound r : flags_ok r -> f_bound r = false -> f_held r = [].
Proof. intros H. apply H. Qed.

Lemma flags_tracked r : flags_ok r -> f_tracked r = true.
Proof. intros H. apply H. Qed.

Lemma flags_own r : flags_ok r -> f_own r = f_ctx r.
Proof. intros H. apply H. Qed.

Lemma winv_set_files s f : WInv s -> WInv (set_files s f).
Proof. intros (HC & HF). split; [apply core_set_files; assumption|exact HF]. Qed.

Lemma winv_set_inc s c i : WInv s -> WInv (set_inc s c i).
Proof. intros ([] & HF). split; [constructor; cbn; auto|exact HF]. Qed.

(* for ctx.start() only: what [core_commit] asks of a manager, when its turn to start comes *)
Definition HoldOlder (F : list frec) : Prop := forall r, In r F -> f_pending r = true -> above_holders F r.

(* [Lp]: the contexts being loaded (new subsystem), whose managers wait for ctx.start(); empty between operations and in legacy.
   [L]: those of the script files *)
Definition rec_ok (L Lp : list cid) (r : frec) : Prop :=
  flags_ok r /\ In (f_ctx r) L /\ (f_pending r = true -> In (f_ctx r) Lp).

Lemma rec_ok_idle L Lp r : f_pending r = false -> (f_bound r = false -> f_held r = []) -> f_tracked r = true -> f_own r = f_ctx r ->
  In (f_ctx r) L -> rec_ok L Lp r.
Proof. intros Hp Hb Ht Ho Hc. unfold rec_ok, flags_ok. rewrite Hp. repeat split; auto; discriminate. Qed.

Definition RInv (L Lp : list cid) (F : list frec) : Prop := (forall r, In r F -> rec_ok L Lp r) /\ HoldOlder F.

Definition LInv (Lp : list cid) (s : st) : Prop := Core s /\ RInv (map fst (s_files s)) Lp (s_funcs s).

Lemma rinv_incl L Lp F F' : incl F' F -> RInv L Lp F -> RInv L Lp F'.
Proof. intros Hi (HR & HK). split; [intros r Hr; apply HR, Hi, Hr|]. intros r Hr Hp r' Hr'. apply (HK r (Hi r Hr) Hp r' (Hi r' Hr')). Qed.

Lemma rinv_weaken L Lp L' Lp' F : RInv L Lp F -> (forall r, In r F -> In (f_ctx r) L -> In (f_ctx r) L') ->
  (forall r, In r F -> f_pending r = true -> In (f_ctx r) Lp -> In (f_ctx r) Lp') -> RInv L' Lp' F.
Proof.
  intros (HR & HK) HL HP. split; [|exact HK]. intros r Hr. destruct (HR r Hr) as (A & B & C).
  split; [exact A|]. split; [apply HL; assumption|]. intros Ep. apply HP; auto.
Qed.

Lemma rinv_app L Lp F nr : RInv L Lp F -> rec_ok L Lp nr -> f_held nr = [] -> (forall r, In r F -> f_gen r < f_gen nr) ->
  RInv L Lp (F ++ [nr]).
Proof.
  intros (HR & HK) Hnr Hh Hg. split.
  - intros r H. apply in_app_or in H. destruct H as [H|[<-|[]]]; [apply HR; assumption|exact Hnr].
  - intros r Hr Hp r' Hr' Ec Hh'. apply in_app_or in Hr'. destruct Hr' as [Hr'|[<-|[]]]; [|contradiction].
    apply in_app_or in Hr. destruct Hr as [Hr|[<-|[]]]; [apply HK; assumption|apply Hg; assumption].
Qed.

Definition first_waiting (F : list frec) (r : frec) : Prop :=
  forall r', In r' F -> f_ctx r' = f_ctx r -> f_pending r' = true -> r' = r \/ f_gen r < f_gen r'.

Lemma rinv_upd L Lp F r f : NoDup (gens F) -> RInv L Lp F -> In r F ->
  rec_ok L Lp (f r) -> f_gen (f r) = f_gen r -> f_ctx (f r) = f_ctx r -> (f_pending (f r) = true -> f_pending r = true) ->
  (f_held (f r) <> [] -> first_waiting F r) ->
  RInv L Lp (upd_rec (f_gen r) f F).
Proof.
  intros Hnd (HR & HK) Hr Hok Eg Ec Hp Hh.
  assert (Hin : forall r', In r' (upd_rec (f_gen r) f F) -> r' = f r \/ In r' F /\ f_gen r' <> f_gen r) by (intros r'; apply in_upd_at; assumption).
  split; [intros r' H; destruct (Hin r' H) as [->|(H0 & _)]; [exact Hok|apply HR, H0]|].
  intros r2 H2 Hp2 r1 H1 E Hh1. destruct (Hin r1 H1) as [->|(H1' & _)], (Hin r2 H2) as [->|(H2' & Hne)].
  - (* [f r] would hold and wait *) destruct (flags_pending (f r) (proj1 Hok) Hp2). contradiction.
  - (* [f r] holds, another waits *)
    rewrite Eg. rewrite Ec in E. destruct (Hh Hh1 r2 H2' (eq_sym E) Hp2) as [->|Hlt]; [contradiction|exact Hlt].
  - (* another holds, [f r] waits, so r did *) rewrite Eg. rewrite Ec in E. apply HK; auto.
  - apply HK; assumption.
Qed.

Definition NoPend (F : list frec) : Prop := forall r, In r F -> f_pending r = false.
Definition AllCtx (L : list cid) (F : list frec) : Prop := forall r, In r F -> In (f_ctx r) L.

Lemma linv_rec Lp s r : LInv Lp s -> In r (s_funcs s) -> rec_ok (map fst (s_files s)) Lp r.
Proof. intros (_ & HR & _). apply HR. Qed.

Lemma linv_flags Lp s r : LInv Lp s -> In r (s_funcs s) -> flags_ok r.
Proof. intros HL Hr. apply (linv_rec Lp s r HL Hr). Qed.

Lemma linv_winv Lp s : LInv Lp s -> WInv s.
Proof. intros HL. split; [apply HL|]. intros r. apply (linv_flags Lp s r HL). Qed.

Lemma linv_pendin Lp s r : LInv Lp s -> In r (s_funcs s) -> f_pending r = true -> In (f_ctx r) Lp.
Proof. intros HL Hr. apply (linv_rec Lp s r HL Hr). Qed.

Lemma linv_allctx Lp s : LInv Lp s -> AllCtx (map fst (s_files s)) (s_funcs s).
Proof. intros HL r Hr. apply (linv_rec Lp s r HL Hr). Qed.

Lemma linv_sub Lp s s' : LInv Lp s -> Core s' -> incl (s_funcs s') (s_funcs s) -> s_files s' = s_files s -> LInv Lp s'.
Proof. intros (_ & HR) HC Hi Efi. split; [assumption|]. rewrite Efi. eapply rinv_incl; eassumption. Qed.

Lemma linv_nopend s : LInv [] s <-> WInv s /\ NoPend (s_funcs s) /\ AllCtx (map fst (s_files s)) (s_funcs s).
Proof.
  split.
  - intros HL. split; [eapply linv_winv, HL|]. split; [|eapply linv_allctx, HL].
    intros r Hr. destruct (f_pending r) eqn:Ep; [destruct (linv_pendin _ _ r HL Hr Ep)|reflexivity].
  - intros ((HC & HF) & HN & HA). split; [assumption|]. split.
    + intros r Hr. split; [apply HF, Hr|]. split; [apply HA, Hr|]. rewrite (HN r Hr). discriminate.
    + intros r Hr Hp. rewrite (HN r Hr) in Hp. discriminate.
Qed.

(* contexts begin to load: so far nothing waits *)
Lemma linv_nil Lp s : LInv [] s -> LInv Lp s.
Proof.
  intros (HC & HR). split; [exact HC|]. apply (rinv_weaken _ [] _ Lp _ HR); [auto|]. intros r _ _ [].
Qed.

Lemma linv_set_files Lp s f : LInv Lp s -> AllCtx (map fst f) (s_funcs s) -> LInv Lp (set_files s f).
Proof.
  intros (HC & HR) H. split; [apply core_set_files, HC|]. apply (rinv_weaken _ Lp _ Lp _ HR); [|auto]. intros r Hr _. apply H, Hr.
Qed.

Lemma linv_set_inc Lp s c i : LInv Lp s -> LInv Lp (set_inc s c i).
Proof. intros HL. split; [apply (winv_set_inc s c i (linv_winv _ _ HL))|apply HL]. Qed.

(* a manager still waiting is only cancelled, anything else releases what it holds *)
Definition unbound (legacy : bool) (r x : frec) : frec :=
  (if legacy || negb (f_pending r) then with_held [] else with_pending false) (with_bound false x).

Lemma unbound_same legacy r x :
  f_gen (unbound legacy r x) = f_gen x /\ f_ctx (unbound legacy r x) = f_ctx x /\ f_tracked (unbound legacy r x) = f_tracked x /\
  f_own (unbound legacy r x) = f_own x.
Proof. unfold unbound. destruct (legacy || negb (f_pending r)); cbn; auto. Qed.

Lemma unbind_off legacy s r :
  unbind all_off legacy s r = giveup (if legacy || negb (f_pending r) then f_held r else []) (f_gen r) (unbound legacy r) s.
Proof.
  (* two [upd_rec] at r's generation, which fuse *)
  unfold unbind, unbound. destruct legacy, (f_pending r); cbn [all_off d_pending_zombie orb negb]; rewrite ?release_off;
    unfold giveup; cbn [fold_left set_funcs s_funcs]; rewrite upd_rec_twice by reflexivity; reflexivity.
Qed.

Lemma unbind_frame legacy s r :
  frame s (unbind all_off legacy s r) (upd_rec (f_gen r) (unbound legacy r) (s_funcs s)) /\
  forall k, memN k (f_held r) = false ->
    s_cnt (unbind all_off legacy s r) k = s_cnt s k /\ s_owner (unbind all_off legacy s r) k = s_owner s k /\
    s_reg (unbind all_off legacy s r) k = s_reg s k.
Proof.
  rewrite unbind_off. destruct (giveup_frame (if legacy || negb (f_pending r) then f_held r else []) (f_gen r) (unbound legacy r) s) as (A & D).
  split; [exact A|]. intros k Hm. apply D; destruct (legacy || negb (f_pending r)); auto.
Qed.

Lemma linv_giveup Lp s r f : LInv Lp s -> In r (s_funcs s) -> f_held (f r) = [] -> (forall x, f_gen (f x) = f_gen x) ->
  f_ctx (f r) = f_ctx r -> rec_ok (map fst (s_files s)) Lp (f r) -> (f_pending (f r) = true -> f_pending r = true) ->
  LInv Lp (giveup (f_held r) (f_gen r) f s).
Proof.
  intros (HC & HR) Hr Hh Hg Ec Hok Hp. split; [apply core_giveup; assumption|].
  destruct (giveup_frame (f_held r) (f_gen r) f s) as ((-> & -> & _) & _).
  apply rinv_upd; auto using core_nodup. intros H. destruct (H Hh).
Qed.

Lemma linv_unbind legacy Lp s r : LInv Lp s -> In r (s_funcs s) -> (legacy = true -> Lp = []) ->
  LInv Lp (unbind all_off legacy s r).
Proof.
  intros HL Hr Hleg. destruct (linv_rec Lp s r HL Hr) as (HF & HcL & HP). rewrite unbind_off.
  (* a waiting manager holds nothing: it too gives up all it holds *)
  assert (Eks : (if legacy || negb (f_pending r) then f_held r else []) = f_held r).
  { destruct (f_pending r) eqn:Ep; [|rewrite orb_true_r; reflexivity].
    rewrite (proj1 (flags_pending r HF Ep)). destruct (legacy || negb true); reflexivity. }
  rewrite Eks.
  assert (Hu : f_held (unbound legacy r r) = [] /\ f_pending (unbound legacy r r) = false).
  { unfold unbound. destruct (f_pending r) eqn:Ep.
    -
      destruct legacy; [rewrite (Hleg eq_refl) in HP; destruct (HP eq_refl)|]. cbn. split; [apply (flags_pending r HF Ep)|reflexivity].
    - rewrite orb_true_r. cbn. auto. }
  destruct Hu as (Hnil & Hnp). destruct (unbound_same legacy r r) as (_ & Ec & Et & Eo).
  apply linv_giveup; auto.
  - intros x. apply unbound_same.
  - apply rec_ok_idle; [exact Hnp|intros _; exact Hnil|rewrite Et; apply (flags_tracked r HF)|rewrite Eo, Ec; apply (flags_own r HF)|rewrite Ec; exact HcL].
  - rewrite Hnp. discriminate.
Qed.

Lemma linv_commit Lp s r : LInv Lp s -> In r (s_funcs s) -> f_held r = [] -> f_bound r = true ->
  above_holders (s_funcs s) r -> first_waiting (s_funcs s) r ->
  LInv Lp (commit false s r).
Proof.
  intros HL Hr Hh Hb Hord Hpend. pose proof (flags_own r (linv_flags Lp s r HL Hr)) as Eown.
  pose proof (linv_allctx Lp s HL r Hr) as HcL. destruct HL as (HC & HR).
  split; [apply core_commit; assumption|]. destruct (commit_spec s r Eown) as ((-> & -> & _) & _).
  apply rinv_upd; auto using core_nodup.
  - apply rec_ok_idle; cbn; auto; congruence.
  - discriminate.
Qed.

(* the function object ast_functiondef creates *)
Definition new_rec (legacy started stk : bool) (c : cid) (f : fid) (decl : list key) (d : srd) (s : st) : frec :=
  mk_frec c f (s_next s) (eff_sr legacy d) (nodupN decl) [] true true (negb legacy && negb started) (s_inc s c) c stk.
(* it has registered at once (legacy, or started context), or waits with the managers of its loading context *)
Definition defined (legacy started stk : bool) (c : cid) (f : fid) (decl : list key) (d : srd) (s : st) : st :=
  let nr := new_rec legacy started stk c f decl d s in
  if negb legacy && negb started then appended s nr else commit false (appended s nr) nr.

(* [rt] makes no difference *)
Lemma do_def_off legacy started rt stk c f decl d s :
  do_def all_off legacy started rt stk c f decl d s =
  match find_bound s c f with
  | Some r => unbind all_off legacy (defined legacy started stk c f decl d s) r
  | None => defined legacy started stk c f decl d s
  end.
Proof. unfold do_def. cbn [all_off d_no_alias d_alias_abort d_dup_set d_rt_owner d_stack_rollback]. unfold commit_new. cbn [all_off d_stack_rollback andb]. destruct legacy, started, rt, stk; reflexivity. Qed.

(* the function object the definition leaves behind *)
Definition def_rec (legacy started stk : bool) (c : cid) (f : fid) (decl : list key) (d : srd) (s : st) : frec :=
  let nr := new_rec legacy started stk c f decl d s in
  if negb legacy && negb started then nr else committed (filter (okf s c) (nodupN decl)) nr.

Lemma def_rec_fields legacy started stk c f decl d s : let r := def_rec legacy started stk c f decl d s in
  f_ctx r = c /\ f_name r = f /\ f_gen r = s_next s /\ f_bound r = true.
Proof. unfold def_rec, new_rec. destruct (negb legacy && negb started); cbn; auto. Qed.

Lemma defined_frame legacy started stk c f decl d s :
  s_files (defined legacy started stk c f decl d s) = s_files s /\ s_next (defined legacy started stk c f decl d s) = s_next s + 1.
Proof.
  unfold defined. cbn zeta. set (nr := new_rec legacy started stk c f decl d s). destruct (negb legacy && negb started); [auto|].
  destruct (commit_spec (appended s nr) nr eq_refl) as ((_ & Efi & En) & _). auto.
Qed.

Lemma defined_funcs legacy started stk c f decl d s : Core s ->
  s_funcs (defined legacy started stk c f decl d s) = s_funcs s ++ [def_rec legacy started stk c f decl d s].
Proof.
  intros HC. unfold defined, def_rec. cbn zeta. set (nr := new_rec legacy started stk c f decl d s).
  destruct (negb legacy && negb started); [reflexivity|].
  destruct (commit_spec (appended s nr) nr eq_refl) as ((EF & _) & _). rewrite EF.
  cbn [appended set_funcs s_funcs]. unfold upd_rec. rewrite map_app. fold (upd_rec (f_gen nr) (committed (filter (okf (appended s nr) (f_ctx nr)) (f_decl nr))) (s_funcs s)).
  rewrite upd_rec_notin_id; [cbn [map]; rewrite N.eqb_refl; reflexivity|].
  intros H. apply in_map_iff in H. destruct H as (r & E & Hr). pose proof (w_next _ HC r Hr). cbn in E. lia.
Qed.

Lemma find_bound_some s c f r : find_bound s c f = Some r ->
  In r (s_funcs s) /\ f_bound r = true /\ f_ctx r = c /\ f_name r = f.
Proof.
  unfold find_bound. intros H. apply find_some in H. destruct H as (A & B).
  apply andb_prop in B. destruct B as (B & Ef). apply andb_prop in B. destruct B as (Eb & Ec). apply N.eqb_eq in Ec, Ef. auto.
Qed.

Lemma linv_append Lp s nr : LInv Lp s -> f_held nr = [] -> f_gen nr = s_next s -> rec_ok (map fst (s_files s)) Lp nr ->
  LInv Lp (appended s nr).
Proof.
  intros (HC & HR) Hh Hg Hok. split; [apply core_append; assumption|].
  apply rinv_app; try assumption. intros r H. rewrite Hg. apply (w_next _ HC), H.
Qed.

Lemma linv_defined legacy started stk c f decl d s Lp :
  LInv Lp s -> In c (map fst (s_files s)) -> (if negb legacy && negb started then In c Lp else Lp = []) ->
  LInv Lp (defined legacy started stk c f decl d s).
Proof.
  intros HL HcL Hmode. unfold defined. cbn zeta. set (nr := new_rec legacy started stk c f decl d s).
  assert (HL1 : LInv Lp (appended s nr)).
  { apply linv_append; try assumption; try reflexivity.
    unfold rec_ok, flags_ok. cbn. repeat split; auto; try congruence. intros E. rewrite E in Hmode. exact Hmode. }
  destruct (negb legacy && negb started); [exact HL1|]. subst Lp.
  (* nothing is waiting, and the new object is the youngest *)
  apply linv_commit; try reflexivity; [assumption|apply in_or_app; right; left; reflexivity| |].
  - intros r' H _ Hh. apply in_app_or in H. destruct H as [H|[<-|[]]]; [apply (w_next _ (proj1 HL)); assumption|contradiction].
  - intros r' H _ Hp. destruct (linv_pendin _ _ r' HL1 H Hp).
Qed.

(* a context gives up only names it owns, and gets only names it may get *)
Lemma okf_unbind legacy s r k : Core s -> In r (s_funcs s) -> okf (unbind all_off legacy s r) (f_ctx r) k = okf s (f_ctx r) k.
Proof.
  intros HC Hr. rewrite unbind_off. unfold giveup, okf. set (ks := if legacy || negb (f_pending r) then f_held r else []). set (s1 := set_funcs s _).
  destruct (fold_refresh_spec ks (fold_left remove ks s1)) as (_ & _ & Fo & _). rewrite Fo.
  destruct (fold_remove_spec ks s1) as (_ & _ & Ro & _). rewrite Ro. unfold gone.
  destruct (memN k ks) eqn:Em; [|reflexivity]. cbn [andb]. destruct (_ <=? _); [|reflexivity].
  assert (Hm : memN k (f_held r) = true) by (unfold ks in Em; destruct (legacy || negb (f_pending r)); [exact Em|discriminate]).
  rewrite (w_ctx _ HC r k Hr Hm), N.eqb_refl. reflexivity.
Qed.

Lemma okf_defined legacy started stk c f decl d s k : okf (defined legacy started stk c f decl d s) c k = okf s c k.
Proof.
  unfold defined. cbn zeta. set (nr := new_rec legacy started stk c f decl d s). destruct (negb legacy && negb started); [reflexivity|].
  exact (okf_commit (appended s nr) nr c k eq_refl eq_refl).
Qed.

Lemma linv_do_def legacy started rt stk c f decl d s Lp :
  LInv Lp s -> In c (map fst (s_files s)) -> (if negb legacy && negb started then In c Lp else Lp = []) ->
  let s' := do_def all_off legacy started rt stk c f decl d s in LInv Lp s' /\ forall k, okf s' c k = okf s c k.
Proof.
  intros HL HcL Hmode. cbn zeta. rewrite do_def_off. pose proof (linv_defined legacy started stk c f decl d s Lp HL HcL Hmode) as H2.
  pose proof (okf_defined legacy started stk c f decl d s) as Ho.
  destruct (find_bound s c f) as [r|] eqn:Efb; [|auto]. apply find_bound_some in Efb. destruct Efb as (Hr & _ & <- & _).
  assert (Hr2 : In r (s_funcs (defined legacy started stk (f_ctx r) f decl d s))).
  { rewrite (defined_funcs legacy started stk (f_ctx r) f decl d s (proj1 HL)). apply in_or_app. left. exact Hr. }
  split; [apply linv_unbind; [exact H2|exact Hr2|intros ->; exact Hmode]|]. intros k. rewrite okf_unbind; [apply Ho|apply H2|exact Hr2].
Qed.

Lemma linv_do_del legacy c f s Lp : LInv Lp s -> (legacy = true -> Lp = []) ->
  let s' := do_del all_off legacy c f s in LInv Lp s' /\ forall k, okf s' c k = okf s c k.
Proof.
  intros HL Hleg. unfold do_del. destruct (find_bound s c f) as [r|] eqn:Efb; [|auto].
  apply find_bound_some in Efb. destruct Efb as (Hr & _ & <- & _).
  split; [apply linv_unbind; assumption|]. intros k. apply okf_unbind; [apply HL|exact Hr].
Qed.

Lemma do_def_frame legacy started rt stk c f decl d s :
  s_next (do_def all_off legacy started rt stk c f decl d s) = s_next s + 1 /\
  s_files (do_def all_off legacy started rt stk c f decl d s) = s_files s.
Proof.
  rewrite do_def_off. destruct (defined_frame legacy started stk c f decl d s) as (Efi & En).
  destruct (find_bound s c f) as [r|]; [|auto].
  destruct (unbind_frame legacy (defined legacy started stk c f decl d s) r) as ((_ & A & B) & _). rewrite A, B. auto.
Qed.

Lemma do_del_frame legacy c f s : s_next (do_del all_off legacy c f s) = s_next s /\ s_files (do_del all_off legacy c f s) = s_files s.
Proof. unfold do_del. destruct (find_bound s c f) as [r|]; [destruct (unbind_frame legacy s r) as ((_ & A & B) & _)|]; auto. Qed.

Lemma run_stmt_files legacy started c s x : s_files (run_stmt all_off legacy started c s x) = s_files s.
Proof. destruct x as [f decl d|f decl d|f decl d|f]; cbn [run_stmt]; [apply do_def_frame|apply do_def_frame|apply do_def_frame|apply do_del_frame]. Qed.

Lemma run_body_files legacy started c b : forall s, s_files (run_body all_off legacy started c b s) = s_files s.
Proof. intros s. apply (fold_left_inv (fun s' => s_files s' = s_files s)); [|reflexivity]. intros a x _ <-. apply run_stmt_files. Qed.

Lemma linv_body legacy started c Lp b s :
  LInv Lp s -> In c (map fst (s_files s)) -> (if negb legacy && negb started then In c Lp else Lp = []) ->
  LInv Lp (run_body all_off legacy started c b s).
Proof.
  intros HL HcL Hmode. apply (fold_left_inv (fun s' => LInv Lp s' /\ s_files s' = s_files s)); [|auto]. intros s' x _ (HL' & Efi).
  split; [|rewrite run_stmt_files; exact Efi]. rewrite <- Efi in HcL.
  destruct x as [f decl d|f decl d|f decl d|f]; cbn [run_stmt]; try (apply linv_do_def; assumption).
  apply linv_do_del; [assumption|]. intros ->. exact Hmode.
Qed.

Lemma linv_release legacy Lp s r : LInv Lp s -> In r (s_funcs s) -> LInv Lp (release all_off legacy s r).
Proof.
  intros HL Hr. destruct (linv_rec Lp s r HL Hr) as (HF & HcL & HP). rewrite release_off.
  apply linv_giveup; auto. pose proof (flags_pending r HF) as A. pose proof (flags_tracked r HF) as D. pose proof (flags_own r HF) as E.
  unfold rec_ok, flags_ok. cbn. repeat split; auto; tauto.
Qed.

Lemma stop_steps legacy Lp todo : forall s, LInv Lp s -> NoDup (gens todo) -> (forall r, In r todo -> In r (s_funcs s)) ->
  let s' := fold_left (stop_step all_off legacy) todo s in
  LInv Lp s' /\ frame s s' (map (fun x => if memN (f_gen x) (gens todo) then with_held [] x else x) (s_funcs s)).
Proof.
  induction todo as [|r todo IH]; intros s HL Hnd Hin; cbn [fold_left].
  - split; [assumption|]. split; [|auto]. symmetry. apply map_id.
  - cbn in Hnd. inversion Hnd as [|? ? Hnot Hnd']; subst.
    assert (Hr : In r (s_funcs s)) by (apply Hin; left; reflexivity).
    assert (Es : stop_step all_off legacy s r = release all_off legacy s r).
    { unfold stop_step. rewrite (flags_tracked r (linv_flags Lp s r HL Hr)). reflexivity. }
    pose proof (linv_release legacy Lp s r HL Hr) as HL1. rewrite Es, release_off in *.
    destruct (giveup_frame (f_held r) (f_gen r) (with_held []) s) as ((EF & Efi & En) & _).
    destruct (IH _ HL1 Hnd') as (HL' & EF' & Efi' & En').
    { intros r2 H2. rewrite EF. apply in_upd_at; [apply core_nodup, HL|assumption|]. right. split; [apply Hin; right; assumption|].
      intros E. apply Hnot. rewrite <- E. apply in_map. assumption. }
    split; [assumption|]. split; [|split; congruence].
    rewrite EF', EF. unfold upd_rec. rewrite map_map. apply map_ext. intros x. cbn [gens map]. rewrite memN_cons.
    destruct (N.eqb (f_gen x) (f_gen r)); [|reflexivity]. cbn [orb with_held f_gen]. destruct (memN _ _); reflexivity.
Qed.

Lemma core_not_handler s r : Core s -> In r (s_funcs s) -> f_held r = [] -> is_handler s r = false.
Proof.
  intros HC Hr Hh. unfold is_handler. destruct (existsb _ (f_decl r)) eqn:E; [|reflexivity]. exfalso.
  apply existsb_exists in E. destruct E as (k & _ & Hk). destruct (s_reg s k) as [[g m]|] eqn:Er; [|discriminate].
  apply N.eqb_eq in Hk. destruct (w_hand _ HC k g m Er) as (r0 & Hr0 & Eg & _ & Hm & _).
  rewrite (NoDup_map_inj f_gen _ r0 r (core_nodup s HC) Hr0 Hr), Hh in Hm by congruence. discriminate.
Qed.

Lemma stop_ctx_spec legacy Lp s c : LInv Lp s ->
  let s' := stop_ctx all_off legacy s c in
  LInv Lp s' /\ frame s s' (filter (fun r => negb (N.eqb (f_ctx r) c)) (s_funcs s)).
Proof.
  intros HL. pose proof (proj1 HL) as HC. pose proof (core_nodup s HC) as Hnd. unfold stop_ctx. cbn zeta.
  set (todo := filter (fun r => N.eqb (f_ctx r) c) (s_funcs s)).
  destruct (stop_steps legacy Lp todo s HL) as (HL1 & EF1 & Efi & En).
  { apply sorted_nodup, sorted_map_filter, (w_sorted _ HC). }
  { intros r H. apply filter_In in H. tauto. }
  set (s1 := fold_left (stop_step all_off legacy) todo s) in *.
  set (clr := fun x => if memN (f_gen x) (gens todo) then with_held [] x else x) in EF1.
  assert (Hclr : forall x, In x (s_funcs s) -> clr x = if N.eqb (f_ctx x) c then with_held [] x else x).
  { intros x Hx. unfold clr. destruct (N.eqb (f_ctx x) c) eqn:Ec, (memN (f_gen x) (gens todo)) eqn:Em; try reflexivity; exfalso.
    - assert (H : In (f_gen x) (gens todo)) by (apply in_map, filter_In; auto). apply memN_In in H. congruence.
    - apply memN_In, in_map_iff in Em. destruct Em as (r & Eg & Hr). apply filter_In in Hr. destruct Hr as (Hr & Ecr).
      rewrite (NoDup_map_inj f_gen _ r x Hnd Hr Hx Eg) in Ecr. congruence. }
  assert (Hempty : forall y, In y (s_funcs s1) -> N.eqb (f_ctx y) c = true -> f_held y = []).
  { intros y Hy Ec. rewrite EF1 in Hy. apply in_map_iff in Hy. destruct Hy as (x & <- & Hx). rewrite (Hclr x Hx) in *.
    destruct (N.eqb (f_ctx x) c) eqn:E0; [reflexivity|congruence]. }
  assert (E : map (fun r => if N.eqb (f_ctx r) c then with_bound false r else r)
                  (filter (fun r => negb (N.eqb (f_ctx r) c) || nonempty (f_held r) || is_handler s1 r) (s_funcs s1))
              = filter (fun r => negb (N.eqb (f_ctx r) c)) (s_funcs s1)).
  { rewrite (filter_ext_in _ (fun r => negb (N.eqb (f_ctx r) c))).
    - rewrite <- (map_id (filter _ _)) at 2. apply map_ext_in. intros y Hy. apply filter_In in Hy. destruct Hy as (_ & Ec).
      apply negb_true_iff in Ec. rewrite Ec. reflexivity.
    - intros y Hy. destruct (N.eqb (f_ctx y) c) eqn:Ec; [|reflexivity].
      rewrite (Hempty y Hy Ec), (core_not_handler s1 y (proj1 HL1) Hy (Hempty y Hy Ec)). reflexivity. }
  rewrite E. split; [apply (linv_sub Lp s1); [assumption| |apply incl_filter|reflexivity]|split; [|auto]].
  - apply core_filter; [apply HL1|]. intros y Hy Ec. apply negb_false_iff in Ec. apply Hempty; assumption.
  - cbn [set_funcs s_funcs]. rewrite EF1. apply filter_map_keep. intros x Hx. rewrite (Hclr x Hx).
    destruct (N.eqb (f_ctx x) c) eqn:Ec; cbn; rewrite Ec; [split; [reflexivity|discriminate]|auto].
Qed.

Lemma stop_all legacy Lp cs : forall s, LInv Lp s ->
  let s' := fold_left (stop_ctx all_off legacy) cs s in
  LInv Lp s' /\ frame s s' (filter (fun r => negb (memN (f_ctx r) cs)) (s_funcs s)).
Proof.
  induction cs as [|c cs IH]; intros s HW; cbn [fold_left].
  - split; [assumption|]. split; [|auto]. symmetry. apply filter_all. reflexivity.
  - destruct (stop_ctx_spec legacy Lp s c HW) as (A & B & C & D). destruct (IH _ A) as (A' & B' & C' & D').
    split; [assumption|]. split; [|split; congruence]. rewrite B', B, filter_filter. apply filter_ext. intros r.
    rewrite memN_cons, negb_orb. reflexivity.
Qed.

Lemma find_gen F g r : NoDup (gens F) -> In r F -> f_gen r = g -> find (fun x => N.eqb (f_gen x) g) F = Some r.
Proof. intros Hnd Hr <-. apply (find_key_uniq _ N.eqb_eq); assumption. Qed.

Lemma pending_gens_In s c g :
  In g (pending_gens s c) <-> exists r, In r (s_funcs s) /\ f_gen r = g /\ f_ctx r = c /\ f_pending r = true.
Proof.
  unfold pending_gens. rewrite in_map_iff. split.
  - intros (r & Eg & Hr). apply filter_In in Hr. destruct Hr as (Hr & E). apply andb_prop in E. destruct E as (Ep & Ec).
    apply N.eqb_eq in Ec. exists r. auto.
  - intros (r & Hr & Eg & Ec & Ep). exists r. split; [assumption|]. apply filter_In. split; [assumption|].
    rewrite Ep, Ec, N.eqb_refl. reflexivity.
Qed.

(* what ctx.start() of c makes of a function object *)
Definition started_rec (c : cid) (s : st) (r : frec) : frec :=
  if f_pending r && N.eqb (f_ctx r) c then committed (filter (okf s c) (f_decl r)) r else r.

(* ctx.start(): the waiting managers of c start, oldest first; each gets what its declarations could get when the start began
   ([okf_commit]) *)
Lemma start_loop Lp c todo : forall s, LInv (c :: Lp) s -> StronglySorted N.lt todo ->
  (forall g, In g todo <-> exists r, In r (s_funcs s) /\ f_gen r = g /\ f_ctx r = c /\ f_pending r = true) ->
  let s' := fold_left (start_one all_off) todo s in LInv Lp s' /\ frame s s' (map (started_rec c s) (s_funcs s)).
Proof.
  induction todo as [|g todo IH]; intros s HL Hs Htodo; cbn [fold_left].
  - assert (Hnone : forall r, In r (s_funcs s) -> f_ctx r = c -> f_pending r = true -> False).
    { intros r Hr Ec Ep. apply (Htodo (f_gen r)). exists r. auto. }
    split; [|split; [|split; reflexivity]].
    + (* who waits is of c :: Lp and not of c *)
      destruct HL as (HC & HR). split; [exact HC|]. apply (rinv_weaken _ (c :: Lp) _ Lp _ HR); [auto|].
      intros r Hr Ep [E|H]; [destruct (Hnone r Hr (eq_sym E) Ep)|exact H].
    +
      rewrite <- (map_id (s_funcs s)) at 1. apply map_ext_in. intros x Hx. unfold started_rec.
      destruct (f_pending x) eqn:Ep, (N.eqb_spec (f_ctx x) c) as [Ec|]; try reflexivity. destruct (Hnone x Hx Ec Ep).
  - inversion Hs as [|? ? Hs' Hall]; subst. rewrite Forall_forall in Hall.
    destruct (proj1 (Htodo g) (or_introl eq_refl)) as (r & Hr & Eg & Ec & Ep).
    pose proof HL as (HC & HR & HK). pose proof (core_nodup s HC) as Hnd.
    pose proof (flags_own r (linv_flags _ s r HL Hr)) as Eown. destruct (flags_pending r (linv_flags _ s r HL Hr) Ep) as (Hh & Hb).
    assert (Hso : start_one all_off s g = commit false s r) by (unfold start_one; rewrite (find_gen _ g r Hnd Hr Eg), Ep; reflexivity).
    rewrite Hso. destruct (commit_spec s r Eown) as ((EF & Efi & En) & _). rewrite Ec in EF.
    assert (Hin : forall r', In r' (s_funcs (commit false s r)) <->
                             r' = committed (filter (okf s c) (f_decl r)) r \/ In r' (s_funcs s) /\ f_gen r' <> g).
    { intros r'. rewrite EF, <- Eg. apply in_upd_at; assumption. }
    destruct (IH (commit false s r)) as (HL' & EF' & Efi' & En'); [|assumption| |].
    + (* r is the oldest waiting manager of c, and younger than every holder of c *)
      apply linv_commit; try assumption.
      * apply HK; assumption.
      * intros r' H' Ec' Ep'. assert (Hg' : In (f_gen r') (g :: todo)) by (apply Htodo; exists r'; repeat split; congruence).
        destruct Hg' as [E|Hin'].
        -- left. apply (NoDup_map_inj f_gen (s_funcs s)); auto. congruence.
        -- right. rewrite Eg. apply Hall. assumption.
    + intros g'. split.
      * intros Hg'. destruct (proj1 (Htodo g') (or_intror Hg')) as (r2 & Hr2 & Eg2 & Ec2 & Ep2). exists r2. repeat split; auto.
        apply Hin. right. split; [assumption|]. specialize (Hall g' Hg'). lia.
      * intros (r2 & Hr2 & Eg2 & Ec2 & Ep2). apply Hin in Hr2. destruct Hr2 as [->|(Hr2 & Hne)]; [discriminate|].
        assert (Hg' : In g' (g :: todo)) by (apply Htodo; exists r2; auto). destruct Hg' as [E|H]; [congruence|exact H].
    + split; [assumption|]. split; [|split; congruence].
      rewrite EF', EF. unfold upd_rec. rewrite map_map. apply map_ext_in. intros x Hx. unfold started_rec.
      assert (Hok : filter (okf (commit false s r) c) (f_decl x) = filter (okf s c) (f_decl x)).
      { apply filter_ext. intros k. apply okf_commit; assumption. }
      destruct (N.eqb_spec (f_gen x) (f_gen r)) as [E|Hne]; [|rewrite Hok; reflexivity].
      rewrite (NoDup_map_inj f_gen _ x r Hnd Hx Hr E), Ep, Ec, N.eqb_refl. reflexivity.
Qed.

Lemma start_ctx_spec oracle s c Lp : LInv (c :: Lp) s ->
  let s' := start_ctx all_off oracle s c in LInv Lp s' /\ frame s s' (map (started_rec c s) (s_funcs s)).
Proof.
  intros HL. apply (start_loop Lp c (pending_gens s c) s HL); [|apply pending_gens_In].
  apply sorted_map_filter, (w_sorted _ (proj1 HL)).
Qed.

Lemma loaded_In s c : loaded s c = true <-> In c (map fst (s_files s)).
Proof. apply (existsb_key_In _ N.eqb_eq). Qed.

Lemma file_set_In c b l c' : In c' (map fst (file_set c b l)) <-> c' = c \/ In c' (map fst l).
Proof.
  induction l as [|[c0 b0] l IH]; cbn [file_set map fst In].
  - intuition.
  - destruct (N.ltb_spec c c0); cbn [map fst In]; [intuition|].
    destruct (N.eqb_spec c c0) as [->|]; cbn [map fst In]; [intuition|]. rewrite IH. intuition.
Qed.

Lemma file_del_In c l c' : In c' (map fst (file_del c l)) <-> c' <> c /\ In c' (map fst l).
Proof.
  unfold file_del. rewrite !in_map_iff. split.
  - intros (p & E & Hp). apply filter_In in Hp. destruct Hp as (Hp & Hn). apply negb_true_iff in Hn. apply N.eqb_neq in Hn.
    split; [congruence|]. exists p. auto.
  - intros (Hne & p & E & Hp). exists p. split; [assumption|]. apply filter_In. split; [assumption|].
    apply negb_true_iff. apply N.eqb_neq. subst c'. exact Hne.
Qed.

Lemma file_write_mono w : forall l c', In c' (map fst l) ->
  In c' (map fst (fold_left (fun l p => file_set (fst p) (snd p) l) w l)).
Proof. intros l c'. apply (fold_left_inv (fun l' => In c' (map fst l'))). intros a p _ H. apply file_set_In. right. exact H. Qed.

Lemma stop_if_loaded legacy Lp s c : LInv Lp s ->
  let s1 := if loaded s c then stop_ctx all_off legacy s c else s in
  LInv Lp s1 /\ frame s s1 (filter (fun r => negb (N.eqb (f_ctx r) c)) (s_funcs s)).
Proof.
  intros HL. cbn zeta. destruct (loaded s c) eqn:El; [apply stop_ctx_spec; assumption|].
  split; [assumption|]. split; [|auto]. symmetry. apply filter_all. intros r Hr. apply negb_true_iff, N.eqb_neq. intros E.
  pose proof (linv_allctx _ _ HL r Hr) as HcL. apply loaded_In in HcL. congruence.
Qed.

(* every function object is recorded in its context: nothing to finalise, whatever the switches *)
Lemma gc_off cfg legacy s : Flags s -> gc cfg legacy s = s.
Proof.
  intros HF. assert (Hp : gc_pass cfg legacy s = s); [|unfold gc; rewrite !Hp; reflexivity].
  unfold gc_pass. rewrite filter_none; [reflexivity|]. intros r Hr. unfold collectable.
  rewrite (flags_tracked r (HF r Hr)), andb_false_r. reflexivity.
Qed.

(* [LInv [] s] (by [linv_nopend]) and every function object bound *)
Definition SInv (s : st) : Prop :=
  WInv s /\ NoPend (s_funcs s) /\ (forall r, In r (s_funcs s) -> f_bound r = true) /\ AllCtx (map fst (s_files s)) (s_funcs s).

(* the end of every operation *)
Lemma finish_off legacy s : LInv [] s -> prune (gc all_off legacy s) = set_funcs s (filter f_bound (s_funcs s)).
Proof.
  intros HL. apply linv_nopend in HL. destruct HL as ((HC & HF) & HNP & _). rewrite (gc_off all_off legacy s HF).
  unfold prune. f_equal. apply filter_ext_in. intros r Hr. unfold inert. rewrite (HNP r Hr).
  destruct (f_bound r) eqn:Eb; [reflexivity|]. pose proof (flags_unbound r (HF r Hr) Eb) as Hh.
  rewrite (core_not_handler s r HC Hr Hh), Hh. reflexivity.
Qed.

Lemma sinv_finish legacy s : LInv [] s -> SInv (prune (gc all_off legacy s)).
Proof.
  intros HL. rewrite (finish_off legacy s HL).
  assert (HL' : LInv [] (set_funcs s (filter f_bound (s_funcs s)))).
  { apply (linv_sub [] s); [exact HL|apply core_filter; [apply HL|]|apply incl_filter|reflexivity].
    intros r Hr Eb. apply (flags_unbound r (linv_flags _ _ r HL Hr) Eb). }
  apply linv_nopend in HL'. destruct HL' as (HW & HNP & HA). split; [exact HW|split; [exact HNP|split; [|exact HA]]].
  intros r Hr. apply filter_In in Hr. apply Hr.
Qed.

Lemma linv_bodies legacy Lp fs : forall s, LInv Lp s ->
  (forall p, In p fs -> In (fst p) (map fst (s_files s)) /\ if negb legacy then In (fst p) Lp else Lp = []) ->
  let s' := fold_left (fun s p => run_body all_off legacy false (fst p) (snd p) (set_inc s (fst p) (s_next s))) fs s in
  LInv Lp s' /\ s_files s' = s_files s.
Proof.
  induction fs as [|p fs IH]; intros s HL Hfs; cbn [fold_left]; [auto|].
  destruct (Hfs p (or_introl eq_refl)) as (HpL & Hmode).
  destruct (IH (run_body all_off legacy false (fst p) (snd p) (set_inc s (fst p) (s_next s)))) as (A & B).
  - apply linv_body; [apply linv_set_inc, HL|assumption|rewrite andb_true_r; exact Hmode].
  - intros q Hq. rewrite run_body_files. apply Hfs. right. assumption.
  - split; [assumption|]. rewrite B, run_body_files. reflexivity.
Qed.

Lemma linv_starts oracle cs : forall s, LInv cs s -> LInv [] (fold_left (start_ctx all_off oracle) cs s).
Proof.
  induction cs as [|c cs IH]; intros s HL; cbn [fold_left]; [assumption|]. apply IH, (start_ctx_spec oracle s c cs HL).
Qed.

Lemma sinv_linv s : SInv s -> LInv [] s.
Proof. intros (HW & HNP & _ & HA). apply linv_nopend. auto. Qed.

Theorem linv_run_op legacy s o : LInv [] s -> SInv (run_op all_off legacy s o).
Proof.
  intros HL. unfold run_op. destruct o as [c b|c b oracle|c|w oracle]; apply sinv_finish.
  - (* OExec *) destruct (loaded s c) eqn:El; [|exact HL].
    apply linv_body; [assumption|apply loaded_In; assumption|destruct legacy; reflexivity].
  - (* OLoad *)
    destruct (stop_if_loaded legacy _ s c HL) as (HL1 & _).
    set (s1 := if loaded s c then stop_ctx all_off legacy s c else s) in *.
    assert (HL3 : LInv (if legacy then [] else [c])
                    (run_body all_off legacy false c b (set_inc (set_files s1 (file_set c b (s_files s1))) c (s_next s1)))).
    { apply linv_body; [|apply file_set_In; left; reflexivity|destruct legacy; cbn; auto].
      apply linv_set_inc, linv_nil, linv_set_files; [exact HL1|]. intros r Hr. apply file_set_In. right. apply (linv_allctx _ _ HL1 r Hr). }
    destruct legacy; [exact HL3|]. apply (start_ctx_spec oracle _ c [] HL3).
  - (* OUnload *)
    destruct (loaded s c) eqn:El; [|exact HL].
    destruct (stop_ctx_spec legacy _ s c HL) as (HL1 & EF & Efi & _). set (s1 := stop_ctx all_off legacy s c) in *.
    apply linv_set_files; [exact HL1|]. rewrite EF, Efi. intros r Hr. apply filter_In in Hr. destruct Hr as (Hr & E).
    apply file_del_In. split; [apply N.eqb_neq, negb_true_iff, E|apply (linv_allctx _ _ HL r Hr)].
  - (* OReloadAll *)
    destruct (stop_all legacy _ (map fst (s_files s)) s HL) as (HL1 & _).
    set (s1 := fold_left (stop_ctx all_off legacy) (map fst (s_files s)) s) in *.
    set (s2 := set_files s1 (fold_left (fun l p => file_set (fst p) (snd p) l) w (s_files s1))).
    assert (HL2 : LInv (if legacy then [] else map fst (s_files s2)) s2).
    { apply linv_nil, linv_set_files; [exact HL1|]. intros r Hr. apply file_write_mono, (linv_allctx _ _ HL1 r Hr). }
    destruct (linv_bodies legacy _ (s_files s2) s2 HL2) as (HL3 & Efi3).
    { intros p Hp. split; [apply in_map; assumption|]. destruct legacy; cbn; [reflexivity|apply in_map; assumption]. }
    destruct legacy; [exact HL3|].
    change (start_all all_off oracle ?s ?cs) with (fold_left (start_ctx all_off oracle) cs s).
    rewrite Efi3. apply linv_starts, HL3.
Qed.

Lemma sinv_init : SInv init_st.
Proof.
  split; [split; [apply core_init|intros r []]|]. split; [intros r []|]. split; intros r [].
Qed.

Theorem sinv_run_ops legacy ops : forall s, SInv s -> SInv (run_ops all_off legacy ops s).
Proof. intros s. apply fold_left_inv. intros a o _ H. apply linv_run_op, sinv_linv, H. Qed.

Definition reachable (legacy : bool) (s : st) : Prop := exists ops, s = run_ops all_off legacy ops init_st.

Lemma reachable_sinv legacy s : reachable legacy s -> SInv s.
Proof. intros (ops & ->). apply sinv_run_ops, sinv_init. Qed.

(* what "the registry is exactly what live functions declare and own" means on a model state *)
Definition Registry_ok (s : st) : Prop :=
  (* a name is registered in HA iff some live function object holds it; count = number of live holdings *)
  (forall k, (exists h, s_reg s k = Some h) <-> exists r, In r (s_funcs s) /\ memN k (f_held r) = true) /\
  (forall k, s_cnt s k = hcount k (s_funcs s)) /\
  (forall k, (exists h, s_reg s k = Some h) <-> 0 < s_cnt s k) /\
  (* every holding is a declared name of its function, and the owner table names the holder's context *)
  (forall r k, In r (s_funcs s) -> memN k (f_held r) = true -> memN k (f_decl r) = true /\ s_owner s k = Some (f_ctx r)) /\
  (forall k, s_owner s k = None <-> s_cnt s k = 0) /\
  (* nothing but live functions: bound to their name, started, in a loaded context *)
  (forall r, In r (s_funcs s) -> f_bound r = true /\ f_pending r = false /\ loaded s (f_ctx r) = true).

Lemma sinv_registry_ok s : SInv s -> Registry_ok s.
Proof.
  intros ((HC & HF) & HNP & HB & HA).
  assert (Hreg : forall k, (exists h, s_reg s k = Some h) <-> 0 < s_cnt s k).
  { intros k. pose proof (w_reg _ HC k) as H. destruct (s_reg s k) as [h|].
    - split; [intros _|intros _; eauto]. destruct (N.eq_dec (s_cnt s k) 0) as [E|]; [|lia]. apply H in E. discriminate.
    - split; [intros (h & E); discriminate|]. intros Hp. destruct H as (H & _). specialize (H eq_refl). lia. }
  split; [|split; [|split; [|split; [|split]]]].
  - intros k. rewrite Hreg, (w_cnt _ HC). apply hcount_pos.
  - apply (w_cnt _ HC).
  - exact Hreg.
  - intros r k Hr Hm. split; [apply (w_decl _ HC r)|apply (w_ctx _ HC)]; assumption.
  - apply (w_own _ HC).
  - intros r Hr. split; [apply HB; assumption|]. split; [apply HNP; assumption|]. apply loaded_In, HA. assumption.
Qed.

Theorem registry_invariant legacy ops : Registry_ok (run_ops all_off legacy ops init_st).
Proof. apply sinv_registry_ok, sinv_run_ops, sinv_init. Qed.

(* one owner at a time; the function HA calls belongs to the owning context *)
Definition One_owner (s : st) : Prop :=
  (forall k r1 r2, In r1 (s_funcs s) -> In r2 (s_funcs s) -> memN k (f_held r1) = true -> memN k (f_held r2) = true ->
                   f_ctx r1 = f_ctx r2) /\
  (forall k g m, s_reg s k = Some (g, m) ->
     exists r, In r (s_funcs s) /\ f_gen r = g /\ memN k (f_held r) = true /\ s_owner s k = Some (f_ctx r)).

Lemma core_one_owner s : Core s -> One_owner s.
Proof.
  intros HC. split.
  - intros k r1 r2 H1 H2 M1 M2. pose proof (w_ctx _ HC r1 k H1 M1) as A. pose proof (w_ctx _ HC r2 k H2 M2) as B. congruence.
  - intros k g m Hr. destruct (w_hand _ HC k g m Hr) as (r & Hin & Eg & _ & Hm & _).
    exists r. repeat split; auto. eapply (w_ctx _ HC); eassumption.
Qed.

Theorem no_takeover legacy ops : One_owner (run_ops all_off legacy ops init_st).
Proof. apply core_one_owner, (sinv_run_ops legacy ops init_st sinv_init). Qed.

(* calling a registered service runs the most recent live definition that holds the name, with the call's data
   plus trigger_type='service', and returns its result when a response is requested *)
Definition Calls_current (s : st) : Prop := forall k data resp g kw ret,
  model_call s k data resp = OcRun g kw ret ->
  (exists r, In r (s_funcs s) /\ f_gen r = g /\ f_bound r = true /\ memN k (f_held r) = true /\ memN k (f_decl r) = true /\
             forall r', In r' (s_funcs s) -> memN k (f_held r') = true -> f_gen r' <= g) /\
  kw = call_kwargs data /\ ret = (if resp then Some g else None).

Lemma winv_calls_current s : WInv s -> Calls_current s.
Proof.
  intros (HC & HF) k data resp g kw ret. unfold model_call. destruct (s_reg s k) as [[g0 m]|] eqn:Er; [|discriminate].
  intros H. assert (E : g0 = g /\ kw = call_kwargs data /\ ret = (if resp then Some g else None)).
  { destruct m, resp; inversion H; subst; auto. }
  destruct E as (-> & -> & ->). split; [|auto].
  destruct (w_hand _ HC k g m Er) as (r & Hin & Eg & _ & Hm & Hmax).
  exists r. repeat split; auto; [|eapply (w_decl _ HC); eassumption].
  destruct (f_bound r) eqn:Eb; [reflexivity|]. rewrite (flags_unbound r (HF r Hin) Eb) in Hm. discriminate.
Qed.

Theorem calls_current legacy ops : Calls_current (run_ops all_off legacy ops init_st).
Proof. apply winv_calls_current, (sinv_run_ops legacy ops init_st sinv_init). Qed.

(* the new function object holds the declared names that no other context owns then; names another context owns are untouched *)
Definition Def_effective (c : cid) (f : fid) (decl : list key) (s s' : st) : Prop :=
  (exists r, In r (s_funcs s') /\ f_gen r = s_next s /\ f_ctx r = c /\ f_name r = f /\ f_decl r = nodupN decl /\ f_bound r = true /\
             forall k, memN k (f_held r) = memN k decl && okf s c k) /\
  (forall k, okf s c k = false -> s_reg s' k = s_reg s k /\ s_owner s' k = s_owner s k /\ s_cnt s' k = s_cnt s k).

(* every definition that registers at once (either subsystem, also at run time or with stacked decorators) *)
Lemma do_def_effective legacy started rt stk c f decl d s : Core s -> negb legacy && negb started = false ->
  Def_effective c f decl s (do_def all_off legacy started rt stk c f decl d s).
Proof.
  intros HC Hmode. unfold Def_effective. rewrite do_def_off.
  pose proof (defined_funcs legacy started stk c f decl d s HC) as EF.
  unfold defined, def_rec in *. rewrite Hmode in *. cbn zeta in *. set (nr := new_rec legacy started stk c f decl d s) in *.
  destruct (commit_spec (appended s nr) nr eq_refl) as (_ & Lc & Lo & Lr).
  change (filter (okf (appended s nr) (f_ctx nr)) (f_decl nr)) with (filter (okf s c) (nodupN decl)) in *.
  set (held := filter (okf s c) (nodupN decl)) in *. set (s2 := commit false (appended s nr) nr) in *.
  assert (Hmem : forall k, memN k held = memN k decl && okf s c k).
  { intros k. unfold held. rewrite memN_filter, memN_nodupN. reflexivity. }
  assert (Hnr2 : In (committed held nr) (s_funcs s2)) by (rewrite EF; apply in_or_app; right; left; reflexivity).
  assert (Hmaps2 : forall k, okf s c k = false -> s_reg s2 k = s_reg s k /\ s_owner s2 k = s_owner s k /\ s_cnt s2 k = s_cnt s k).
  { intros k Ek. assert (Em : memN k held = false) by (rewrite Hmem, Ek; apply andb_false_r).
    rewrite Lc, Lo, Lr, Em, (memN_false_count _ _ Em). cbn. rewrite N.add_0_r. auto. }
  destruct (find_bound s c f) as [r|] eqn:Efb.
  - (* the previous object is of context c: what it gives up is not owned by another context *)
    apply find_bound_some in Efb. destruct Efb as (Hr & _ & Ecr & _). split.
    + exists (committed held nr). split; [|repeat split; auto].
      destruct (unbind_frame legacy s2 r) as ((-> & _) & _). apply in_upd_other; [assumption|]. pose proof (w_next _ HC r Hr). cbn. lia.
    + intros k Ek.
      assert (Hnk : memN k (f_held r) = false).
      { destruct (memN k (f_held r)) eqn:E; [|reflexivity]. exfalso.
        pose proof (w_ctx _ HC r k Hr E) as Ho. unfold okf in Ek. rewrite Ho, Ecr, N.eqb_refl in Ek. discriminate. }
      destruct (unbind_frame legacy s2 r) as (_ & Hrest). destruct (Hrest k Hnk) as (A & B & C).
      destruct (Hmaps2 k Ek) as (A2 & B2 & C2). split; [|split]; congruence.
  - split; [exists (committed held nr); repeat split; auto|exact Hmaps2].
Qed.

Lemma sinv_define_effective legacy s c f decl d : SInv s -> loaded s c = true ->
  Def_effective c f decl s (run_op all_off legacy s (OExec c [SDef f decl d])).
Proof.
  intros HS Hl. apply sinv_linv in HS. unfold Def_effective.
  assert (Hmode : negb legacy && negb true = false) by (destruct legacy; reflexivity).
  unfold run_op. rewrite Hl. unfold run_body. cbn [fold_left run_stmt].
  assert (HLd : LInv [] (do_def all_off legacy true false false c f decl d s)).
  { apply linv_do_def; [exact HS|apply loaded_In; assumption|rewrite Hmode; reflexivity]. }
  rewrite (finish_off legacy _ HLd).
  destruct (do_def_effective legacy true false false c f decl d s (proj1 HS) Hmode) as ((r & Hr & P) & Q).
  split; [|exact Q]. exists r. split; [|exact P].
  apply filter_In. split; [assumption|apply P].
Qed.

Theorem define_effective legacy ops c f decl d :
  let s := run_ops all_off legacy ops init_st in
  loaded s c = true ->
  Def_effective c f decl s (run_op all_off legacy s (OExec c [SDef f decl d])).
Proof. apply sinv_define_effective, sinv_run_ops, sinv_init. Qed.
