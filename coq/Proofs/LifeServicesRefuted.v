(* C12: each deviation switch makes the Model leave the reference semantics (ServicesSpec.v) on the witness that the check
   replays on the real code, and with all switches off the Model agrees on the same witness ([refuted n]).  D126 is stated on
   the held load of ServicesMid.v, D123 on [ha_call].  At the end: instances of the hypotheses of [define_effective] and
   [outgoing_exact].  Life.ServicesCheck is imported only to be compiled with Properties/C12.vo, which is all the check builds. *)
From PV Require Import Common.Util Gen.ServiceConsts Life.Services Life.ServicesSpec Life.ServiceCalls Life.ServicesCheck
  Life.ServicesMid Proofs.LifeServices.

Local Open Scope N_scope.

Definition only (n : nat) : deviations :=
  {| d_stale_handler := Nat.eqb n 21; d_no_alias := Nat.eqb n 23; d_dup_set := Nat.eqb n 26; d_alias_abort := Nat.eqb n 120;
     d_start_order := Nat.eqb n 121; d_pending_zombie := Nat.eqb n 122; d_limit_kw := Nat.eqb n 123; d_rt_owner := Nat.eqb n 124;
     d_stack_rollback := Nat.eqb n 125; d_interleave := Nat.eqb n 127; d_spurious_remove := Nat.eqb n 126 |}.

Definition handler_gen (s : st) (k : key) : option gen := option_map fst (s_reg s k).
Definition ref_gen (t : rst) (k : key) : option gen := option_map r_gen (ref_handler t k).
(* after the sequence, for every listed name, HA's handler is the one the Spec requires (or none) *)
Definition agrees (keys : list key) (legacy : bool) (cfg : deviations) (ops : list op) : bool :=
  forallb (fun k => option_eqb N.eqb (handler_gen (run_ops cfg legacy ops init_st) k) (ref_gen (fold_left ref_op ops init_rst) k)) keys.

Definition refuted (n : nat) : Prop :=
  exists legacy ops keys, agrees keys legacy (only n) ops = false /\ agrees keys legacy all_off ops = true.

Definition startup (files : list (cid * list stmt)) (oracle : list gen) : op := OReloadAll files oracle.

Theorem refuted_D21 : refuted 21.
Proof.
  exists true, [startup [(0, [SDef 0 [1] DAbs])] []; OExec 0 [SDef 1 [1] DAbs]; OExec 0 [SDel 1]], [1].
  split; vm_compute; reflexivity.
Qed.

Theorem refuted_D23 : refuted 23.
Proof. exists false, [startup [(0, [SDef 0 [1; 2] DAbs])] []], [1; 2]. split; vm_compute; reflexivity. Qed.

Theorem refuted_D26 : refuted 26.
Proof. exists true, [startup [(0, [SDef 0 [1; 1] DAbs])] []; OExec 0 [SDel 0]], [1]. split; vm_compute; reflexivity. Qed.

Theorem refuted_D120 : refuted 120.
Proof.
  exists true, [startup [(0, [SDef 0 [1] DAbs]); (1, [SDef 0 [2; 1; 3] DAbs])] []; OUnload 1], [1; 2; 3].
  split; vm_compute; reflexivity.
Qed.

Theorem refuted_D121 : refuted 121.
Proof. exists false, [startup [(0, [SDef 0 [1] DAbs; SDef 1 [1] DAbs])] [2; 1]], [1]. split; vm_compute; reflexivity. Qed.

Theorem refuted_D122 : refuted 122.
Proof. exists false, [startup [(0, [SDef 0 [1] DAbs; SDef 0 [2] DAbs])] []], [1; 2]. split; vm_compute; reflexivity. Qed.

(* D124: a function created at run time owns its service under the maker's name, so a later declaration of the same service
   by another function of the same context is refused *)
Theorem refuted_D124 : refuted 124.
Proof.
  exists false, [startup [(0, [])] []; OExec 0 [SDefRt 0 [1] DAbs]; OExec 0 [SDef 1 [1] DAbs]], [1].
  split; vm_compute; reflexivity.
Qed.

(* D125: stacked @service decorators, one name owned elsewhere: the function loses every name *)
Theorem refuted_D125 : refuted 125.
Proof.
  exists false, [startup [(0, [SDef 0 [2] DAbs]); (1, [SDefSt 0 [1; 2; 3] DAbs])] []], [1; 2; 3].
  split; vm_compute; reflexivity.
Qed.

(* D127: interleaved start-ups: a later context takes a name an earlier function declares *)
Theorem refuted_D127 : refuted 127.
Proof.
  exists false, [startup [(0, [SDefSt 0 [2; 1; 100] DAbs]); (2, [SDef 0 [1] DAbs])] []], [1; 2; 100].
  split; vm_compute; reflexivity.
Qed.

(* D123: `limit` handed to hass.services.async_call as a control argument makes the call die with a TypeError (HomeAssistant
   2025.1 has no such parameter).  Stated on [ha_call] so as not to depend on the generated tables (State.get's table,
   Gen.hass_args_entity, recognises `limit`) *)
Theorem refuted_D123 : exists target data h,
  (exists x, In (HGiven x) h /\ kw_key x = 4) /\
  ha_call (only 123) target data h = OTypeError /\ ha_call all_off target data h = ODelivered data false.
Proof.
  exists SrOpt, [mk_kw 5 5 1; mk_kw 30 4 3], [HGiven (mk_kw 4 4 5)]. split; [|split; reflexivity].
  exists (mk_kw 4 4 5). split; [left; reflexivity|reflexivity].
Qed.

(* D126: context 1 is unloaded while its function (names 1, 2) has registered only name 1: context 0's live service 2 is
   removed as well.  (D127 is what makes the situation reachable.) *)
Definition cfg_mid (spurious : bool) : deviations :=
  {| d_stale_handler := false; d_no_alias := false; d_dup_set := false; d_alias_abort := false; d_start_order := false;
     d_pending_zombie := false; d_limit_kw := false; d_rt_owner := false; d_stack_rollback := false; d_interleave := true;
     d_spurious_remove := spurious |}.
Definition mid_final (cfg : deviations) : st :=
  let s0 := run_ops cfg false [startup [(0, [SDef 0 [2] DAbs])] []] init_st in
  let '(s1, m1) := held_load cfg s0 1 [SDefSt 0 [1; 2] DAbs] [] in
  let '(s2, m2) := interrupt cfg s1 m1 (OUnload 1) in
  release_mid cfg s2 m2.
Theorem refuted_D126 : handler_gen (mid_final (cfg_mid true)) 2 = None /\ handler_gen (mid_final (cfg_mid false)) 2 = Some 1%N.
Proof. split; vm_compute; reflexivity. Qed.

(* for [define_effective] *)
Definition demo_ops : list op :=
  [startup [(0, [SDef 0 [1] DAbs]); (1, [SDef 0 [1; 2] DOpt])] []; OExec 0 [SDef 1 [1] DOnly]; OLoad 1 [SDef 2 [2] DAbs] []].

Example define_effective_hyp : loaded (run_ops all_off true demo_ops init_st) 1 = true.
Proof. vm_compute. reflexivity. Qed.

(* context 1 asks for names 1 and 3; name 1 is owned by context 0 and stays there, 3 is registered *)
Example define_effective_instance :
  let s := run_ops all_off true demo_ops init_st in
  let s' := run_op all_off true s (OExec 1 [SDef 0 [1; 3] DAbs]) in
  okf s 1 1 = false /\ handler_gen s' 1 = handler_gen s 1 /\ handler_gen s 1 = Some 3 /\ handler_gen s' 3 = Some 5.
Proof. vm_compute. auto. Qed.

(* [outgoing_exact]: the keywords of [LifeServiceCalls.outgoing_instance] are distinct *)
Example outgoing_hyp : NoDup (map kw_key [mk_kw 40 4 7; mk_kw 2 2 1; mk_kw 3 4 1]).
Proof. cbn. repeat constructor; cbn; intuition discriminate. Qed.
