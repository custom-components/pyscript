(* Lemmas for C14 (Task/Lifecycle.v), in this order.  Facts about the model's functions; the callback table is read through
   its live list (live_add, live_rem, tbl_next_spec).  [effect], what one step can do to the one task it touches
   (step_effect), what it leaves alone (effect_local, effect_queue, effect_started) and the results read off it
   (record_changes).  The invariant [inv], which holds under every setting of the switches and is checked at the touched
   task only (effect_touched, inv_at), and the results that are its clauses.  Walks of [step] for one label
   (enabled_transfers, can_finish).  Tail: one refuting run per switch, instances of the hypotheses, and [sim_is_a_run]: the
   labels the scheduler of Task/LifecycleCheck.v emits on an example are a run of [step]. *)
From PV Require Import Common.Util Gen.LifecycleConsts Task.Lifecycle Task.LifecycleCheck.
From Coq Require Import Lia.

(* the shape of run_coro, task_reaper and user_task_cancel (function.py, via Gen/LifecycleConsts.v) that the model mirrors.
   Last conjunct: the sleep after a self-cancellation (ticks of 2^-12 s) outlasts the 2^28-tick horizon of every generated
   schedule, so Task/LifecycleCheck.v lets such a run stay suspended *)
Lemma source_shape :
  lc_finally_order = [1; 2; 3; 4; 5]%N /\ lc_registers_first = true /\ lc_start_cbrec_if_ctx = true /\
  lc_cb_loop_awaits = true /\ lc_reaper_awaits = true /\ lc_cancel_checks_ours = true /\ lc_cancel_via_reaper = true /\
  lc_remove_pops_one = true /\ lc_add_sets_entry = true /\ (2 ^ 28 < lc_self_cancel_sleep * 4096)%N.
Proof. repeat split; reflexivity. Qed.

Lemma upd_same {A} (f : N -> A) k v : upd f k v k = v.
Proof. unfold upd. rewrite N.eqb_refl. reflexivity. Qed.
Lemma upd_other {A} (f : N -> A) k v x : x <> k -> upd f k v x = f x.
Proof. unfold upd. intros H. destruct (N.eqb_spec x k); [contradiction|reflexivity]. Qed.

Lemma run_from_cons cfg s l ls : run_from cfg s (l :: ls) = match step cfg s l with Some s1 => run_from cfg s1 ls | None => None end.
Proof. reflexivity. Qed.

Lemma running_body s t : running s t = true -> phase_of s t = PBody.
Proof. unfold running. destruct (phase_of s t); try discriminate. reflexivity. Qed.

Lemma running_record s1 s2 r : st_task s1 r = st_task s2 r -> running s1 r = running s2 r.
Proof. unfold running, phase_of. intros ->. reflexivity. Qed.

Lemma cleanup_eq s t :
  cleanup s t =
  let r := st_task s t in
  mkS (upd (st_task s) t (mkT (tr_kind r) PDone false (tr_ncancel r) (tr_out r) (tr_out r) (tr_snap r)))
      (upd (st_ours s) t false) (upd (st_cb s) t None) (upd (st_ctx s) t false)
      match st_t2n s t with Some _ => upd (st_t2n s) t None | None => st_t2n s end
      match st_t2n s t with Some l => del_names (st_n2t s) l | None => st_n2t s end
      (st_rq s) (st_rbusy s) (st_log s).
Proof. unfold cleanup. destruct (st_t2n s t); reflexivity. Qed.

Lemma calls_add_log s e t :
  calls (add_log s e) t = if N.eqb (fst (fst e)) t then calls s t ++ [(snd (fst e), snd e)] else calls s t.
Proof.
  destruct e as [[t0 j] a]. unfold calls. cbn [st_log add_log rev fst snd]. rewrite filter_app, map_app. cbn [filter fst snd].
  destruct (N.eqb t0 t); cbn [map fst snd]; [reflexivity|rewrite app_nil_r; reflexivity].
Qed.

Lemma escape_done s t o : phase_of (escape s t o) t = PDone.
Proof. unfold phase_of, escape. cbn. rewrite upd_same. reflexivity. Qed.
Lemma cleanup_done s t : phase_of (cleanup s t) t = PDone.
Proof. unfold phase_of. rewrite cleanup_eq. cbn. rewrite upd_same. reflexivity. Qed.

Lemma In_remove_name x n l : In x (remove_name n l) <-> In x l /\ x <> n.
Proof. exact (In_remove_key _ N.eqb_eq (fun y => y) n x l). Qed.

Lemma del_names_some f l n v : del_names f l n = Some v <-> f n = Some v /\ ~ In n l.
Proof.
  revert f. induction l as [|a r IH]; intros f; cbn [del_names In]; [tauto|].
  rewrite IH. unfold upd. destruct (N.eqb_spec n a) as [->|Hne]; [|assert (a <> n) by congruence; tauto].
  split; [intros [H _]; discriminate|tauto].
Qed.

Definition keys (t : table) : list cbid := map fst (tbl_live t).

Lemma tbl_live_app a b : tbl_live (a ++ b) = tbl_live a ++ tbl_live b.
Proof. induction a as [|[e|] r IH]; cbn; [reflexivity|rewrite IH; reflexivity|exact IH]. Qed.

Lemma tbl_has_in j t : tbl_has j t = true <-> In j (keys t).
Proof. apply (existsb_key_In _ N.eqb_eq). Qed.

Lemma keys_set j a t : keys (tbl_set j a t) = keys t.
Proof.
  unfold keys. induction t as [|[[j' a']|] r IH]; cbn; [reflexivity| |exact IH].
  destruct (N.eqb_spec j' j); cbn; [subst; reflexivity|rewrite IH; reflexivity].
Qed.

Lemma live_add j a t : tbl_live (tbl_add j a t) = al_set (fun x y => N.eqb y x) j a (tbl_live t).
Proof.
  unfold tbl_add, tbl_has. induction t as [|[[j' a']|] r IH]; cbn; [reflexivity| |rewrite <- IH; destruct (existsb _ _); reflexivity].
  destruct (N.eqb_spec j' j) as [->|]; cbn; [reflexivity|]. rewrite <- IH. destruct (existsb _ _); reflexivity.
Qed.

Lemma nodup_add j a t : NoDup (keys t) -> NoDup (keys (tbl_add j a t)).
Proof. unfold keys. rewrite live_add. apply (al_set_NoDup _ (eqb_flip_eq _ N.eqb_eq)). Qed.

Lemma keys_rem_sub j t k : In k (keys (tbl_rem j t)) -> In k (keys t).
Proof.
  unfold keys. induction t as [|[[j' a']|] r IH]; cbn; [tauto| |exact IH].
  destruct (N.eqb_spec j' j); cbn; [auto|]. intros [H|H]; [left; exact H|right; apply IH; exact H].
Qed.

(* [tbl_rem] blanks the first slot that has the key; where keys are distinct that is all entries with the key *)
Lemma live_rem j t : NoDup (keys t) -> tbl_live (tbl_rem j t) = filter (fun e => negb (N.eqb (fst e) j)) (tbl_live t).
Proof.
  unfold keys. induction t as [|[[k a]|] r IH]; cbn; intros H; [reflexivity| |apply IH; exact H].
  inversion H as [|? ? Hk Hr]; subst. destruct (N.eqb_spec k j) as [->|]; cbn; [|rewrite (IH Hr); reflexivity].
  symmetry. apply filter_all. intros e He. apply negb_true_iff, N.eqb_neq. intros <-. exact (Hk (in_map fst _ e He)).
Qed.

Lemma nodup_rem j t : NoDup (keys t) -> NoDup (keys (tbl_rem j t)).
Proof. intros H. unfold keys. rewrite (live_rem j t H). apply NoDup_map_filter, H. Qed.

Lemma lookup_none_iff j l : tbl_lookup j l = None <-> ~ In j (map fst l).
Proof. exact (al_get_None _ (eqb_flip_eq _ N.eqb_eq) j l). Qed.
Lemma lookup_app j l l' :
  tbl_lookup j (l ++ l') = match tbl_lookup j l with Some v => Some v | None => tbl_lookup j l' end.
Proof. exact (al_get_app (fun a b => N.eqb b a) j l l'). Qed.
Lemma lookup_set j a t j' :
  tbl_lookup j' (tbl_live (tbl_set j a t)) =
  if N.eqb j j' then option_map (fun _ => a) (tbl_lookup j (tbl_live t)) else tbl_lookup j' (tbl_live t).
Proof.
  induction t as [|[[k a']|] r IH]; cbn; [destruct (N.eqb j j'); reflexivity| |exact IH].
  destruct (N.eqb_spec k j) as [->|Hk]; cbn; [destruct (N.eqb j j'); reflexivity|].
  rewrite IH. destruct (N.eqb_spec j j') as [E|]; [|reflexivity]. destruct (N.eqb_spec k j'); [congruence|reflexivity].
Qed.

Lemma lookup_add j a t j' :
  tbl_lookup j' (tbl_live (tbl_add j a t)) = if N.eqb j j' then Some a else tbl_lookup j' (tbl_live t).
Proof. rewrite live_add. exact (al_get_set _ (eqb_flip_eq _ N.eqb_eq) j j' a _). Qed.
Lemma add_registers j a t : tbl_lookup j (tbl_live (tbl_add j a t)) = Some a.
Proof. rewrite lookup_add, N.eqb_refl. reflexivity. Qed.
Lemma add_keeps_others j a t j' : j' <> j -> tbl_lookup j' (tbl_live (tbl_add j a t)) = tbl_lookup j' (tbl_live t).
Proof. intros Hne. rewrite lookup_add. destruct (N.eqb_spec j j'); [congruence|reflexivity]. Qed.
Lemma rem_unregisters j t : NoDup (keys t) -> tbl_lookup j (tbl_live (tbl_rem j t)) = None.
Proof.
  intros H. rewrite (live_rem j t H).
  pose proof (al_get_filter _ (eqb_flip_eq _ N.eqb_eq) (fun k => negb (N.eqb k j)) j (tbl_live t)) as E. cbv beta in E. rewrite N.eqb_refl in E. exact E.
Qed.
Lemma rem_keeps_others j t j' : j' <> j -> tbl_lookup j' (tbl_live (tbl_rem j t)) = tbl_lookup j' (tbl_live t).
Proof.
  intros Hne. induction t as [|[[k a']|] r IH]; cbn; [reflexivity| |exact IH].
  destruct (N.eqb_spec k j); cbn.
  - subst. destruct (N.eqb_spec j j'); [congruence|reflexivity].
  - rewrite IH. reflexivity.
Qed.

Lemma first_live_spec l :
  tbl_live l = match first_live l with Some (k, e) => e :: tbl_live (skipn k l) | None => [] end.
Proof.
  induction l as [|[e|] r IH]; cbn; [reflexivity..|]. rewrite IH. destruct (first_live r) as [[k e]|]; reflexivity.
Qed.
Lemma skipn_add {A} (c k : nat) (l : list A) : skipn k (skipn c l) = skipn (c + k) l.
Proof. revert l. induction c as [|c IH]; intros l; [reflexivity|]. destruct l; cbn; [destruct k; reflexivity|apply IH]. Qed.
Lemma tbl_next_spec cur t :
  tbl_live (skipn cur t) = match tbl_next cur t with Some (cur', e) => e :: tbl_live (skipn cur' t) | None => [] end.
Proof.
  unfold tbl_next. rewrite first_live_spec. destruct (first_live (skipn cur t)) as [[k e]|]; [rewrite skipn_add|]; reflexivity.
Qed.

Lemma filter_key_lookup j (l : list (cbid * N)) : NoDup (map fst l) ->
  filter (fun p => N.eqb (fst p) j) l = match tbl_lookup j l with Some a => [(j, a)] | None => [] end.
Proof.
  intros H. destruct (tbl_lookup j l) as [a|] eqn:E.
  - exact (filter_key_uniq _ N.eqb_eq fst l (j, a) H (al_get_In _ (eqb_flip_eq _ N.eqb_eq) j a l E)).
  - apply filter_none. intros p Hp. apply N.eqb_neq. intros <-. exact (proj1 (lookup_none_iff _ l) E (in_map fst l p Hp)).
Qed.

(* task.unique's name bookkeeping; the model builds it by setters under a [match] on the owner.  As a record, every field
   but the two name tables is [s]'s by computation *)
Definition claim_names (s : state) (t : tid) (n : name) : state :=
  let f := match st_n2t s n with
           | Some o => match st_t2n s o with Some l => upd (st_t2n s) o (Some (remove_name n l)) | None => st_t2n s end
           | None => st_t2n s
           end in
  mkS (st_task s) (st_ours s) (st_cb s) (st_ctx s)
      (upd f t (Some (n :: remove_name n (match f t with Some l => l | None => [] end))))
      (upd (st_n2t s) n (Some t)) (st_rq s) (st_rbusy s) (st_log s).

(* [l] asks to cancel [x] *)
Definition requests (s : state) (l : label) (x : tid) : Prop :=
  (exists src, l = LCancel src x) \/ (exists t n, l = LClaim t n /\ st_n2t s n = Some x /\ x <> t).
Definition queue_after (s : state) (l : label) (q : list tid) : Prop :=
  forall x, In x q -> In x (st_rq s) \/ (st_ours s x = true /\ requests s l x).

Lemma queue_same s l : queue_after s l (st_rq s).
Proof. intros x Hx. left. exact Hx. Qed.
Lemma queue_push s l y : st_ours s y = true -> requests s l y -> queue_after s l (st_rq s ++ [y]).
Proof. intros Ho Hr x Hx. apply in_app_or in Hx. destruct Hx as [Hx|[<-|[]]]; auto. Qed.

Definition same_but_phase (r r' : trec) : Prop := tr_ncancel r' = tr_ncancel r /\ tr_kind r' = tr_kind r.

(* [l] can lead from [s] to [s'], touching only [t]'s record, registry entries and callback log (the name tables and the
   reaper's queue are shared: same_at).  The premises are what the invariants need; no converse of step_effect.
   EStart: [c] the task gets a callback record if it has none, [e] the HA context is stored. *)
Inductive effect (cfg : deviations) (s : state) : label -> tid -> state -> Prop :=
| ESame l t : effect cfg s l t s
| ECreate t k (Ep : phase_of s t = PNone) :
    let s1 := set_task s t (mkT k PCreated false 0 None None []) in
    effect cfg s (LCreate t k) t (match k with KSvc | KShutL => s1 | _ => set_cb s1 t (Some []) end)
| EStart t (c e : bool) (Ep : phase_of s t = PCreated)
    (Hc : c = false -> d_service_no_cbrec cfg = true \/ d_shutdown_no_cbrec cfg = true) :
    let s1 := set_ours (set_task s t (set_phase (st_task s t) PBody)) t true in
    let s2 := if c then match st_cb s t with None => set_cb s1 t (Some []) | Some _ => s1 end else s1 in
    effect cfg s (LStart t) t (if e then set_ctx s2 t true else s2)
| ETable l y j tb tb' (Ecb : st_cb s y = Some tb) (Htb : (exists a, tb' = tbl_add j a tb) \/ tb' = tbl_rem j tb) :
    effect cfg s l y (set_cb s y (Some tb'))
| EEndBody l t o (Ho : owner l = Some t) (Ep : phase_of s t = PBody) : effect cfg s l t (end_body s t o)
| EQueue l t q (Hq : queue_after s l q) : effect cfg s l t (set_rq s q)
| EClaim t n q (Ep : phase_of s t = PBody) (Hq : queue_after s (LClaim t n) q) :
    effect cfg s (LClaim t n) t (claim_names (set_rq s q) t n)
| ECbBegin t cur n0 cur' j a (Ep : phase_of s t = PFin cur n0 false false)
    (Enext : tbl_next cur (iter_table cfg s t) = Some (cur', (j, a))) :
    effect cfg s (LCbBegin t) t (add_log (set_task s t (set_phase (st_task s t) (PFin cur' n0 true false))) (t, j, a))
| ECbEnd t res cur n0 brk creq out fin (Ep : phase_of s t = PFin cur n0 true false)
    (Hbrk : brk = true -> d_cb_raise_breaks cfg = true) :
    let r := st_task s t in
    effect cfg s (LCbEnd t res) t (set_task s t (mkT (tr_kind r) (PFin cur n0 false brk) creq (tr_ncancel r) out fin (tr_snap r)))
| EEscape l t o cur n0 incb brk (Ho : owner l = Some t) (Ep : phase_of s t = PFin cur n0 incb brk)
    (Hesc : d_fin_cancel_escapes cfg = true \/ loop_fails cfg s t cur n0 = true) :
    effect cfg s l t (escape s t o)
| EExit t cur n0 brk (Ep : phase_of s t = PFin cur n0 false brk)
    (Enext : brk = false -> tbl_next cur (iter_table cfg s t) = None) :
    effect cfg s (LExit t) t (cleanup s t)
| EReap y q (Ebusy : st_rbusy s = None) (Erq : st_rq s = y :: q) :
    let s1 := set_rq s q in
    let r := st_task s y in
    effect cfg s LReaper y
       match tr_phase r with
       | PDone | PNone => s1
       | PCreated => set_task s1 y (mkT (tr_kind r) PDone false (S (tr_ncancel r)) None (Some OCancel) (tr_snap r))
       | _ => set_rbusy (set_task s1 y (mkT (tr_kind r) (tr_phase r) true (S (tr_ncancel r)) (tr_out r) (tr_final r) (tr_snap r)))
                        (Some y)
       end
| EWake y (Ebusy : st_rbusy s = Some y) (Ep : phase_of s y = PDone) : effect cfg s LReaperWake y (set_rbusy s None)
| EProp t y (Ecreq : tr_creq (st_task s t) = true) :
    effect cfg s (LPropCancel t y) y (set_task s y (set_creq (st_task s y) true))
| EPropCreated t y (Ecreq : tr_creq (st_task s t) = true) (Ep : phase_of s y = PCreated) (Ecb : st_cb s y = None) :
    let r := st_task s y in
    effect cfg s (LPropCancel t y) y (set_task s y (mkT KSvc PDone false (tr_ncancel r) None (Some OCancel) (tr_snap r))).

Lemma step_effect cfg s l s' : step cfg s l = Some s' -> exists t, effect cfg s l t s'.
Proof.
  destruct l as [t k|t|t x j a|t x j|src x|t n|t o|t|t res|t| | |t x|t x]; cbn [step]; intros H.
  3-4: (* LAdd, LRem *)
    (destruct (running s t) eqn:Er; [|discriminate]; apply running_body in Er;
     destruct (st_cb s x) as [tb|] eqn:Ex; injection H as <-; [exists x; eapply ETable; eauto|exists t; apply EEndBody; auto]).
  - (* LCreate *) exists t. destruct (phase_of s t) eqn:Ep; try discriminate. injection H as <-. apply ECreate, Ep.
  - (* LStart: the kind and D20, D143 decide [c] and [e] *)
    exists t. destruct (tr_phase (st_task s t)) eqn:Ep; try discriminate. injection H as <-.
    destruct (tr_kind (st_task s t)).
    + apply (EStart cfg s t true true); [exact Ep|discriminate].
    + destruct (d_service_no_cbrec cfg) eqn:E; [apply (EStart cfg s t false false)|apply (EStart cfg s t true false)]; auto; discriminate.
    + apply (EStart cfg s t true false); [exact Ep|discriminate].
    + destruct (d_shutdown_no_cbrec cfg) eqn:E; [apply (EStart cfg s t false true)|apply (EStart cfg s t true true)]; auto; discriminate.
  - (* LCancel *) assert (Hp : st_ours s x = true -> effect cfg s (LCancel src x) x (set_rq s (st_rq s ++ [x]))).
    { intros Eo. apply EQueue, queue_push; [exact Eo|left; eauto]. }
    destruct src as [t|].
    + destruct (running s t) eqn:Er; [|discriminate]. apply running_body in Er.
      destruct (st_ours s x) eqn:Eo; injection H as <-; [eauto|exists t; apply EEndBody; auto].
    + exists x. destruct (st_ours s x) eqn:Eo; injection H as <-; [auto|apply ESame].
  - (* LClaim: first the previous owner is queued for cancellation (s1), then the names move *)
    exists t. destruct (running s t) eqn:Er; [|discriminate]. apply running_body in Er.
    set (s1 := match st_n2t s n with Some o => _ | None => s end) in H.
    assert (H1 : exists q, s1 = set_rq s q /\ queue_after s (LClaim t n) q).
    { assert (H0 : exists q, s = set_rq s q /\ queue_after s (LClaim t n) q).
      { exists (st_rq s). split; [destruct s; reflexivity|apply queue_same]. }
      subst s1. destruct (st_n2t s n) as [o|] eqn:En; [|exact H0]. destruct (N.eqb_spec o t); [exact H0|].
      destruct (st_ours s o) eqn:Eo; [|exact H0]. eexists. split; [reflexivity|].
      apply queue_push; [exact Eo|]. right. exists t, n. auto. }
    clearbody s1. destruct H1 as (q & -> & Hq). cbn [st_ours set_rq] in H.
    destruct (st_ours s t); injection H as <-; [|exact (EQueue cfg s _ t q Hq)].
    refine (eq_ind _ _ (EClaim cfg s t n q Er Hq) _ _). unfold claim_names. cbn.
    destruct (st_n2t s n) as [o|]; [destruct (st_t2n s o)|]; reflexivity.
  - (* LEnd *) exists t. destruct (tr_phase (st_task s t)) eqn:Ep; try discriminate.
    destruct o; destruct (tr_creq (st_task s t)); try discriminate; injection H as <-; apply EEndBody; auto.
  - (* LCbBegin *) exists t. destruct (tr_phase (st_task s t)) as [| | |cur n0 [|] [|]|] eqn:Ep; try discriminate.
    destruct (loop_fails cfg s t cur n0) eqn:Ef; [injection H as <-; eapply EEscape; eauto|].
    destruct (tbl_next cur (iter_table cfg s t)) as [[cur' [j a]]|] eqn:En; [|discriminate].
    injection H as <-. eapply ECbBegin; eauto.
  - (* LCbEnd *) exists t. destruct (tr_phase (st_task s t)) as [| | |cur n0 [|] [|]|] eqn:Ep; try discriminate.
    destruct res; destruct (tr_creq (st_task s t)); try discriminate.
    + injection H as <-. apply (ECbEnd cfg s t CbOk cur n0 false); [exact Ep|discriminate].
    + injection H as <-. apply (ECbEnd cfg s t CbRaise cur n0 (d_cb_raise_breaks cfg)); auto.
    + destruct (d_fin_cancel_escapes cfg) eqn:Ed; injection H as <-; [eapply EEscape; eauto|].
      apply (ECbEnd cfg s t CbCancelled cur n0 false); [exact Ep|discriminate].
  - (* LExit *) exists t. destruct (tr_phase (st_task s t)) as [| | |cur n0 [|] brk|] eqn:Ep; try discriminate.
    destruct brk; [injection H as <-; eapply EExit; [exact Ep|discriminate]|].
    destruct (negb (length (tbl_live (iter_table cfg s t)) =? n0)%nat) eqn:Esz.
    + injection H as <-. eapply EEscape; [reflexivity|exact Ep|]. right. unfold loop_fails. rewrite Esz. reflexivity.
    + destruct (tbl_next cur (iter_table cfg s t)) eqn:En; [discriminate|]. injection H as <-. eapply EExit; eauto.
  - (* LReaper *) destruct (st_rbusy s) eqn:Eb; [discriminate|]. destruct (st_rq s) as [|x q] eqn:Eq; [discriminate|]. exists x.
    pose proof (EReap cfg s x q Eb Eq) as F. cbv zeta in F. cbn [st_task set_rq] in H.
    destruct (tr_phase (st_task s x)); injection H as <-; exact F.
  - (* LReaperWake *) destruct (st_rbusy s) as [x|] eqn:Eb; [|discriminate]. unfold is_done in H.
    destruct (phase_of s x) eqn:Ep; try discriminate. injection H as <-. exists x. eapply EWake; eauto.
  - (* LPropCancel *)
    exists x. destruct (tr_phase (st_task s t)); try discriminate.
    destruct (tr_creq (st_task s t)) eqn:Ec; [|discriminate]. destruct (negb (t =? x)%N); [|discriminate]. cbn [andb] in H.
    destruct (tr_phase (st_task s x)) eqn:Ex.
    + (* PNone *) injection H as <-. apply ESame.
    + (* PCreated: only a service run without a callback record is ended *)
      destruct (tr_kind (st_task s x)); [injection H as <-; apply ESame| |injection H as <-; apply ESame..].
      destruct (st_cb s x) eqn:Ecb; injection H as <-; [apply ESame|apply EPropCreated; assumption].
    + (* PBody *) injection H as <-. apply EProp, Ec.
    + (* PFin *) injection H as <-. apply EProp, Ec.
    + (* PDone *) injection H as <-. apply ESame.
  - (* LCallKilled *) exists t. destruct (running s t) eqn:Er; [|discriminate]. apply running_body in Er. destruct (d_call_cancel_kills cfg); [|discriminate].
    destruct (phase_of s x); try discriminate. destruct (tr_final (st_task s x)) as [[| | |]|]; try discriminate.
    injection H as <-. apply EEndBody; auto.
Qed.

(* what the invariant says of a task depends on these only; the last: whether the reaper awaits it *)
Definition same_at (s s' : state) (x : tid) : Prop :=
  st_task s' x = st_task s x /\ st_ours s' x = st_ours s x /\ st_cb s' x = st_cb s x /\ st_ctx s' x = st_ctx s x /\
  calls s' x = calls s x /\ (st_t2n s' x = None <-> st_t2n s x = None) /\ (st_rbusy s' = Some x <-> st_rbusy s = Some x).

Lemma calls_same_log s s' x : st_log s' = st_log s -> calls s' x = calls s x.
Proof. unfold calls. intros ->. reflexivity. Qed.

Lemma same_at_intro s s' x :
  st_task s' x = st_task s x -> st_ours s' x = st_ours s x -> st_cb s' x = st_cb s x -> st_ctx s' x = st_ctx s x ->
  st_log s' = st_log s -> (st_t2n s' x = None <-> st_t2n s x = None) -> (st_rbusy s' = Some x <-> st_rbusy s = Some x) ->
  same_at s s' x.
Proof. intros E1 E2 E3 E4 E5 E6 E7. exact (conj E1 (conj E2 (conj E3 (conj E4 (conj (calls_same_log _ _ x E5) (conj E6 E7)))))). Qed.

Lemma effect_local cfg s l t s' : effect cfg s l t s' -> forall x, x <> t -> same_at s s' x.
Proof.
  intros F x Hx.
  (* all but the seven below write with the setters at t and leave the log, the name tables and the reaper alone *)
  destruct F; try (apply same_at_intro; cbn; rewrite ?upd_other by exact Hx; reflexivity).
  - (* ECreate *) destruct k; apply same_at_intro; cbn; rewrite ?upd_other by exact Hx; reflexivity.
  - (* EStart *) destruct c, e, (st_cb s t); apply same_at_intro; cbn; rewrite ?upd_other by exact Hx; reflexivity.
  - (* EClaim: away from t only the previous owner of n is touched, and it keeps a list *)
    apply same_at_intro; try reflexivity. cbn. rewrite upd_other by exact Hx.
    destruct (st_n2t s n) as [o|]; [destruct (st_t2n s o) eqn:Eo'|]; try tauto.
    unfold upd. destruct (N.eqb_spec x o) as [->|]; [rewrite Eo'; split; discriminate|tauto].
  - (* ECbBegin *) unfold same_at. rewrite calls_add_log. cbn. rewrite upd_other by exact Hx. destruct (N.eqb_spec t x); [congruence|tauto].
  - (* EExit *) rewrite cleanup_eq. apply same_at_intro; cbn; rewrite ?upd_other by exact Hx; try reflexivity.
    destruct (st_t2n s t); rewrite ?upd_other by exact Hx; reflexivity.
  - (* EReap *)
    destruct (tr_phase r); apply same_at_intro; cbn; rewrite ?upd_other, ?Ebusy by exact Hx; try reflexivity; split; congruence.
  - (* EWake *) apply same_at_intro; try reflexivity. cbn. rewrite Ebusy. split; congruence.
Qed.

Lemma effect_queue cfg s l t s' : effect cfg s l t s' -> queue_after s l (st_rq s').
Proof.
  intros F. destruct F; try exact (queue_same s _).
  - (* ECreate *) destruct k; exact (queue_same s _).
  - (* EStart *) destruct c, e, (st_cb s t); exact (queue_same s _).
  - (* EQueue *) exact Hq.
  - (* EClaim *) exact Hq.
  - (* EExit *) rewrite cleanup_eq. exact (queue_same s _).
  - (* EReap *) intros x Hx. left. rewrite Erq. right. revert Hx. destruct (tr_phase r); auto.
Qed.

Definition started (p : phase) : Prop := p <> PNone /\ p <> PCreated.

(* no step takes a task back *)
Lemma effect_started cfg s l t s' x : effect cfg s l t s' -> started (phase_of s x) -> started (phase_of s' x).
Proof.
  unfold phase_of. intros F H. destruct (N.eq_dec x t) as [->|Hne]; [|rewrite (proj1 (effect_local _ _ _ _ _ F x Hne)); exact H].
  destruct F; try exact H; try (cbn; rewrite upd_same; split; discriminate).
  - (* ECreate *) destruct (proj1 H Ep).
  - (* EStart *) destruct c, e, (st_cb s t); cbn; rewrite upd_same; split; discriminate.
  - (* EReap *) subst r s1. destruct (tr_phase (st_task s y)) eqn:Ey; cbn; rewrite ?upd_same, ?Ey; first [exact H|split; discriminate].
  - (* EProp *) cbn. rewrite upd_same. exact H.
Qed.

(* LPropCancel: asyncio hands a cancellation on.  step_frame and foreign_record_change are this, read from either side *)
Lemma record_changes cfg s l s' x : step cfg s l = Some s' ->
  st_task s' x = st_task s x \/ owner l = Some x \/ (l = LReaper /\ hd_error (st_rq s) = Some x)
  \/ (exists t0, l = LPropCancel t0 x /\ tr_creq (st_task s t0) = true).
Proof.
  intros H. apply step_effect in H as [t F].
  destruct (N.eq_dec x t) as [->|Hne]; [|left; apply (effect_local _ _ _ _ _ F), Hne].
  destruct F; auto.
  - right. right. left. rewrite Erq. split; reflexivity.
  - right. right. right. exists t. split; [reflexivity|exact Ecreq].
  - right. right. right. exists t. split; [reflexivity|exact Ecreq].
Qed.

Lemma step_frame cfg s l s' r r' :
  step cfg s l = Some s' -> owner l = Some r -> r' <> r -> st_task s' r' = st_task s r'.
Proof.
  intros H Ho Hne.
  destruct (record_changes _ _ _ _ r' H) as [E|[Ho'|[[-> _]|(t0 & -> & _)]]]; [exact E|congruence|discriminate|discriminate].
Qed.

Lemma foreign_record_change cfg s l s' x :
  step cfg s l = Some s' -> owner l <> Some x -> st_task s' x <> st_task s x ->
  (l = LReaper /\ hd_error (st_rq s) = Some x) \/ (exists t, l = LPropCancel t x /\ tr_creq (st_task s t) = true).
Proof. intros H Ho Hc. destruct (record_changes _ _ _ _ x H) as [E|[Ho'|[Hr|Hp]]]; [contradiction|contradiction|auto|auto]. Qed.

Lemma rq_only_by_request cfg s l s' x :
  step cfg s l = Some s' -> In x (st_rq s') -> In x (st_rq s) \/ requests s l x.
Proof. intros H Hx. apply step_effect in H as [t F]. destruct (effect_queue _ _ _ _ _ F x Hx) as [Hi|[_ Hr]]; auto. Qed.

(* task.unique's name tables are modelled in full in Task/Unique.v (C13); here LClaim only cancels and the exit releases the
   names.  cleanup_all needs this direction of the tables' agreement *)
Definition names_ok (s : state) : Prop :=
  forall n t, st_n2t s n = Some t -> exists l, st_t2n s t = Some l /\ In n l.

Lemma names_claim s t n : names_ok s -> names_ok (claim_names s t n).
Proof.
  intros Inm. unfold claim_names.
  set (f := match st_n2t s n with Some _ => _ | None => _ end).
  assert (Hf : forall x lx, st_t2n s x = Some lx -> exists lx', f x = Some lx' /\ (forall m, m <> n -> In m lx -> In m lx')).
  { intros x lx Ex. subst f. destruct (st_n2t s n) as [o|]; [|eauto]. destruct (st_t2n s o) as [lo|] eqn:Eo; [|eauto].
    unfold upd. destruct (N.eqb_spec x o) as [->|Hne]; [|eauto].
    eexists; split; [reflexivity|]. intros m Hm Hi. apply In_remove_name. split; [congruence|exact Hm]. }
  intros m x Hm. cbn in *. unfold upd in Hm. destruct (N.eqb_spec m n) as [->|Hmn].
  - injection Hm as <-. rewrite upd_same. eexists; split; [reflexivity|]. left; reflexivity.
  - apply Inm in Hm. destruct Hm as (lm & Elm & Him). destruct (Hf x lm Elm) as (lx' & Elx' & Hsub).
    unfold upd. destruct (N.eqb_spec x t) as [->|Hne].
    + eexists; split; [reflexivity|]. right. apply In_remove_name. split; [|exact Hmn]. rewrite Elx'. apply Hsub; assumption.
    + exists lx'. split; [exact Elx'|]. apply Hsub; assumption.
Qed.

Lemma names_cleanup s t : names_ok s -> names_ok (cleanup s t).
Proof.
  intros Inm n x Hn.
  assert (Hx : st_n2t s n = Some x /\ x <> t).
  { unfold cleanup in Hn. destruct (st_t2n s t) as [l|] eqn:El; cbn in Hn.
    - apply del_names_some in Hn. destruct Hn as [Hn Hni]. split; [exact Hn|]. intros ->.
      apply Inm in Hn. destruct Hn as (l' & El' & Hin). congruence.
    - split; [exact Hn|]. intros ->. apply Inm in Hn. destruct Hn as (l' & El' & _). congruence. }
  destruct Hx as [Hx Hne]. apply Inm in Hx. unfold cleanup. destruct (st_t2n s t); cbn; rewrite ?upd_other by exact Hne; exact Hx.
Qed.

Lemma effect_names cfg s l t s' : effect cfg s l t s' -> names_ok s -> names_ok s'.
Proof.
  intros F Inm. destruct F; try exact Inm.
  - (* ECreate *) destruct k; exact Inm.
  - (* EStart *) destruct c, e, (st_cb s t); exact Inm.
  - (* EClaim *) apply (names_claim (set_rq s q)), Inm.
  - (* EExit *) apply names_cleanup, Inm.
  - (* EReap *) destruct (tr_phase r); exact Inm.
Qed.

Definition clean4 (s : state) (t : tid) : Prop :=
  st_ours s t = false /\ st_cb s t = None /\ st_ctx s t = false /\ st_t2n s t = None.

Definition no_escape (cfg : deviations) : Prop := d_fin_cancel_escapes cfg = false /\ d_live_iter cfg = false.
Definition conformant_loop (cfg : deviations) : Prop :=
  d_cb_raise_breaks cfg = false /\ d_fin_cancel_escapes cfg = false /\ d_live_iter cfg = false.

Definition has_rec (cfg : deviations) (s : state) (t : tid) : Prop :=
  d_service_no_cbrec cfg = false -> d_shutdown_no_cbrec cfg = false -> st_cb s t <> None.

(* what the phase of a task whose record is [r] says of its registry entries, its logged calls and the snapshot the loop
   walks over; a clause a deviation breaks is guarded by that switch being off.  Last clause of PFin, the loop's invariant:
   the calls so far followed by the entries from the iterator's position on are the snapshot. *)
Definition phase_ok (cfg : deviations) (s : state) (t : tid) (r : trec) : Prop :=
  match tr_phase r with
  | PNone => clean4 s t /\ calls s t = []
  | PCreated => (st_ours s t = false /\ st_ctx s t = false /\ st_t2n s t = None) /\ calls s t = [] /\ tr_snap r = [] /\
                (tr_kind r <> KSvc -> tr_kind r <> KShutL -> st_cb s t <> None)
  | PBody => calls s t = [] /\ has_rec cfg s t
  | PFin cur n0 _ brk =>
      n0 = length (tbl_live (tr_snap r)) /\ has_rec cfg s t /\ (brk = true -> d_cb_raise_breaks cfg = true) /\
      (d_live_iter cfg = false -> calls s t ++ tbl_live (skipn cur (tr_snap r)) = tbl_live (tr_snap r))
  | PDone => no_escape cfg -> clean4 s t /\ (d_cb_raise_breaks cfg = false -> calls s t = tbl_live (tr_snap r))
  end.

(* a cancellation was delivered to t only while the reaper awaits t, and it awaits t until t is done *)
Definition cancel_ok (s : state) (t : tid) (r : trec) : Prop :=
  (tr_ncancel r <= 1)%nat /\ ((1 <= tr_ncancel r)%nat -> st_rbusy s = Some t \/ tr_phase r = PDone).

Definition task_ok (cfg : deviations) (s : state) (t : tid) (r : trec) : Prop :=
  phase_ok cfg s t r /\ NoDup (keys (tr_snap r)) /\ NoDup (keys (table_of s t)) /\ cancel_ok s t r.
Definition inv (cfg : deviations) (s : state) : Prop :=
  (forall t, task_ok cfg s t (st_task s t)) /\ names_ok s /\ (forall x, In x (st_rq s) -> started (phase_of s x)).

Lemma task_ok_same cfg s s' x : same_at s s' x -> task_ok cfg s x (st_task s x) -> task_ok cfg s' x (st_task s' x).
Proof.
  intros (E1 & E2 & E3 & E4 & E5 & E6 & E7) (P & Ns & Nt & Ck).
  unfold task_ok, phase_ok, clean4, has_rec, table_of, cancel_ok in *. rewrite E1, E2, E3, E4, E5.
  split; [destruct (tr_phase (st_task s x)); rewrite ?E6; exact P|split; [exact Ns|split; [exact Nt|rewrite E7; exact Ck]]].
Qed.

(* every clause but [names_ok] and the queue's speaks of one task, so it is shown of the touched task only *)
Lemma inv_at cfg s l t s' : inv cfg s -> effect cfg s l t s' -> task_ok cfg s' t (st_task s' t) -> inv cfg s'.
Proof.
  intros (It & Inm & Iq) F Ht. split; [|split; [exact (effect_names _ _ _ _ _ F Inm)|]].
  - intros x. destruct (N.eq_dec x t) as [->|Hne]; [exact Ht|exact (task_ok_same cfg s s' x (effect_local _ _ _ _ _ F x Hne) (It x))].
  - (* a task enters the queue while in our_tasks, so started *)
    intros x Hx. apply (effect_started _ _ _ _ _ x F).
    destruct (effect_queue _ _ _ _ _ F x Hx) as [Hi|[Ho _]]; [apply Iq, Hi|]. destruct (It x) as (P & _). unfold phase_ok, clean4, phase_of in *.
    destruct (tr_phase (st_task s x)); split; try discriminate; intros _; destruct P as ((Ho' & _) & _); congruence.
Qed.

Lemma touched_intro cfg s' t r' :
  st_task s' t = r' -> phase_ok cfg s' t r' -> NoDup (keys (tr_snap r')) -> NoDup (keys (table_of s' t)) -> cancel_ok s' t r' ->
  task_ok cfg s' t (st_task s' t).
Proof. intros <- Hp Hs Hc Hk. exact (conj Hp (conj Hs (conj Hc Hk))). Qed.

(* with the escapes off the loop's size check runs on the snapshot, whose length [n0] is *)
Lemma loop_sound cfg s t cur n0 incb brk :
  no_escape cfg -> phase_ok cfg s t (st_task s t) -> phase_of s t = PFin cur n0 incb brk ->
  ~ (d_fin_cancel_escapes cfg = true \/ loop_fails cfg s t cur n0 = true).
Proof.
  intros [H1 H2] P Ep [E|E]; [congruence|]. unfold phase_ok, phase_of in *. rewrite Ep in P. destruct P as (P & _).
  unfold loop_fails, iter_table in E. rewrite H2, <- P, Nat.eqb_refl in E. discriminate.
Qed.

Lemma cancel_keep s s' t r r' :
  cancel_ok s t r -> st_rbusy s' = st_rbusy s -> (tr_ncancel r' <= tr_ncancel r)%nat -> (tr_phase r = PDone -> tr_phase r' = PDone) ->
  cancel_ok s' t r'.
Proof. unfold cancel_ok. intros [C1 C2] -> Hn Hd. split; [lia|]. intros H1. destruct C2 as [Hb|Hp]; [lia|left; exact Hb|right; auto]. Qed.

Lemma cancel_deliver s s' y r r' :
  cancel_ok s y r -> st_rbusy s = None -> tr_phase r <> PDone -> tr_ncancel r' = S (tr_ncancel r) ->
  st_rbusy s' = Some y \/ tr_phase r' = PDone -> cancel_ok s' y r'.
Proof.
  intros [_ C2] Eb Hy En Hr. destruct (tr_ncancel r) eqn:E0; [|destruct C2 as [C|C]; [lia|congruence|contradiction]].
  split; [lia|intros _; exact Hr].
Qed.

(* a task with a callback record is neither unborn nor cleaned up; in between the clauses ask at most that it has one *)
Lemma phase_ok_table cfg s y tb tb' r :
  st_cb s y = Some tb -> phase_ok cfg s y r -> phase_ok cfg (set_cb s y (Some tb')) y r.
Proof.
  intros Ecb P. unfold phase_ok, clean4, has_rec in *. change (calls (set_cb s y (Some tb')) y) with (calls s y).
  cbn [st_ours st_cb st_ctx st_t2n set_cb]. rewrite upd_same. destruct (tr_phase r).
  - (* PNone *) destruct P as ((_ & E & _) & _). congruence.
  - (* PCreated *) destruct P as (A & B & C & _). split; [exact A|split; [exact B|split; [exact C|intros _ _; discriminate]]].
  - (* PBody *) split; [apply P|intros _ _; discriminate].
  - (* PFin *) destruct P as (Pn & _ & Q). split; [exact Pn|split; [intros _ _; discriminate|exact Q]].
  - (* PDone *) intros Hc. destruct (P Hc) as ((_ & E & _) & _). congruence.
Qed.

Lemma effect_touched cfg s l t s' : inv cfg s -> effect cfg s l t s' -> task_ok cfg s' t (st_task s' t).
Proof.
  intros (It & _ & Iq) F. destruct (It t) as (P & Ns & Nt & Ck). pose proof P as P0. unfold phase_ok, clean4, phase_of in P.
  (* unless the reaper takes part, [Ck] carries over: the count stays and a done task stays done *)
  pose proof (fun s' r' => cancel_keep s s' t (st_task s t) r' Ck) as Ck'.
  destruct F; try (unfold phase_of in Ep; rewrite Ep in P).
  - (* ESame *) exact (It t).
  - (* ECreate *)
    destruct P as ((Eo & Ec & Ex & En) & El).
    destruct k;
      (eapply touched_intro;
         [apply upd_same
         |unfold phase_ok; cbn; rewrite ?upd_same; repeat split; auto; congruence
         |apply NoDup_nil
         |unfold table_of; cbn; rewrite ?upd_same, ?Ec; apply NoDup_nil
         |split; cbn; lia]).
  - (* EStart; has_rec: with [c] the table is Some, without it D20 or D143 is on (Hc) *)
    destruct P as (_ & El & _ & _). unfold table_of in Nt.
    destruct c, e, (st_cb s t) eqn:Ecb;
      (eapply touched_intro;
         [apply upd_same
         |unfold phase_ok, has_rec; cbn; rewrite ?upd_same, ?Ecb;
          split; [exact El|]; intros D1 D2; try discriminate; destruct (Hc eq_refl); congruence
         |exact Ns
         |unfold table_of; cbn; rewrite ?upd_same, ?Ecb; first [exact Nt|apply NoDup_nil]
         |apply Ck'; [reflexivity|apply Nat.le_refl|congruence]]).
  - (* ETable *) eapply touched_intro; [reflexivity| |exact Ns| |exact Ck].
    + exact (phase_ok_table cfg s y tb tb' _ Ecb P0).
    + unfold table_of in *. cbn. rewrite upd_same. rewrite Ecb in Nt.
      destruct Htb as [[a ->]| ->]; [apply nodup_add|apply nodup_rem]; exact Nt.
  - (* EEndBody: the snapshot is the table, nothing called yet *) destruct P as (El & Hr).
    eapply touched_intro; [apply upd_same| |exact Nt|exact Nt|apply Ck'; [reflexivity|apply Nat.le_refl|congruence]].
    unfold phase_ok. change (calls (end_body s t o) t) with (calls s t). rewrite El. cbn.
    split; [reflexivity|split; [exact Hr|split; [discriminate|reflexivity]]].
  - (* EQueue *) exact (It t).
  - (* EClaim *) eapply touched_intro; [reflexivity| |exact Ns|exact Nt|apply Ck'; auto].
    unfold phase_ok. cbn [claim_names set_rq st_task]. rewrite Ep. exact P.
  - (* ECbBegin *) destruct P as (Pn & Hr & _ & Pc).
    eapply touched_intro; [apply upd_same| |exact Ns|exact Nt|apply Ck'; [reflexivity|apply Nat.le_refl|congruence]].
    unfold phase_ok. rewrite calls_add_log. change (calls (set_task s t _) t) with (calls s t). cbn. rewrite N.eqb_refl.
    split; [exact Pn|split; [exact Hr|split; [discriminate|]]].
    intros Hl. unfold iter_table in Enext. rewrite Hl in Enext.
    rewrite <- app_assoc, <- (Pc Hl), (tbl_next_spec cur), Enext. reflexivity.
  - (* ECbEnd *) destruct P as (Pn & Hr & _ & Pc).
    eapply touched_intro; [apply upd_same| |exact Ns|exact Nt|apply Ck'; [reflexivity|apply Nat.le_refl|congruence]].
    exact (conj Pn (conj Hr (conj Hbrk Pc))).
  - (* EEscape *)
    eapply touched_intro; [apply upd_same| |exact Ns|exact Nt|apply Ck'; auto].
    intros Hc. destruct (loop_sound cfg s t cur n0 incb brk Hc P0 Ep Hesc).
  - (* EExit *) destruct P as (_ & _ & Hb & Pc). rewrite cleanup_eq.
    eapply touched_intro; [apply upd_same| |exact Ns|unfold table_of; cbn; rewrite upd_same; apply NoDup_nil|apply Ck'; auto].
    unfold phase_ok, clean4. change (calls _ t) with (calls s t). cbn. rewrite !upd_same. intros [_ Hl].
    split; [destruct (st_t2n s t) eqn:En; rewrite ?upd_same; auto|]. intros Hd.
    (* D22 off: the loop was not left by break, so it ran out of entries *)
    destruct brk; [rewrite (Hb eq_refl) in Hd; discriminate|]. specialize (Enext eq_refl). unfold iter_table in Enext. rewrite Hl in Enext.
    rewrite <- (Pc Hl), tbl_next_spec, Enext, app_nil_r. reflexivity.
  - (* EReap: the head of the queue is started; a delivery leaves what the phase clauses speak of alone *)
    destruct (Iq y) as [Hn Hcr]; [rewrite Erq; left; reflexivity|]. unfold phase_of in Hn, Hcr. subst r s1.
    pose proof (fun s' r' => cancel_deliver s s' y (st_task s y) r' Ck Ebusy) as Cd.
    destruct (tr_phase (st_task s y)) eqn:Ey.
    + (* PNone *) destruct Hn; reflexivity.
    + (* PCreated *) destruct Hcr; reflexivity.
    + (* PBody *) eapply touched_intro; [apply upd_same|exact P|exact Ns|exact Nt|apply Cd; [discriminate|reflexivity|left; reflexivity]].
    + (* PFin *) eapply touched_intro; [apply upd_same|exact P|exact Ns|exact Nt|apply Cd; [discriminate|reflexivity|left; reflexivity]].
    + (* PDone *) exact (It y).
  - (* EWake *)
    eapply touched_intro; [reflexivity|exact P0|exact Ns|exact Nt|]. split; [apply Ck|intros _; right; exact Ep].
  - (* EProp *) eapply touched_intro; [apply upd_same|exact P0|exact Ns|exact Nt|apply Ck'; auto].
  - (* EPropCreated *)
    subst r. destruct P as ((Eo & Ex & En) & El & Es & _).
    eapply touched_intro; [apply upd_same| |exact Ns|exact Nt|apply Ck'; auto].
    unfold phase_ok, clean4. cbn [tr_phase tr_snap]. rewrite Es. intros _. split; [cbn; auto|intros _; exact El].
Qed.

Lemma inv_step cfg s l s' : inv cfg s -> step cfg s l = Some s' -> inv cfg s'.
Proof. intros I H. apply step_effect in H as [t F]. exact (inv_at cfg s l t s' I F (effect_touched cfg s l t s' I F)). Qed.

Lemma inv_run cfg ls s : run cfg ls = Some s -> inv cfg s.
Proof.
  apply (fold_left_opt_inv (inv cfg) (step cfg) (inv_step cfg)).
  split; [intros t; repeat split; try apply NoDup_nil; cbn; lia|split; [discriminate|intros x []]].
Qed.

Theorem cleanup_all cfg : no_escape cfg ->
  forall ls s, run cfg ls = Some s -> forall t, phase_of s t = PDone -> clean4 s t /\ forall n, st_n2t s n <> Some t.
Proof.
  intros Hc ls s H t Hd. destruct (inv_run cfg ls s H) as (It & Inm & _).
  destruct (It t) as (P & _). unfold phase_ok, phase_of in *. rewrite Hd in P. destruct (P Hc) as (Hcl & _). split; [exact Hcl|].
  intros n Hn. apply Inm in Hn. destruct Hn as (l & El & _). destruct Hcl as (_ & _ & _ & Ht). congruence.
Qed.

Theorem callbacks_once cfg : conformant_loop cfg ->
  forall ls s t, run cfg ls = Some s -> phase_of s t = PDone ->
  calls s t = tbl_live (tr_snap (st_task s t)) /\ NoDup (map fst (calls s t)).
Proof.
  intros (Hb & Hc) ls s t H Hd. destruct (inv_run cfg ls s H) as (It & _). destruct (It t) as (P & Ns & _).
  unfold phase_ok, phase_of in *. rewrite Hd in P. destruct (P Hc) as (_ & E). rewrite (E Hb). split; [reflexivity|exact Ns].
Qed.

Corollary callbacks_exactly_once cfg : conformant_loop cfg ->
  forall ls s t j, run cfg ls = Some s -> phase_of s t = PDone ->
  filter (fun p => N.eqb (fst p) j) (calls s t) =
  match tbl_lookup j (tbl_live (tr_snap (st_task s t))) with Some a => [(j, a)] | None => [] end.
Proof.
  intros Hc ls s t j H Hd. destruct (callbacks_once cfg Hc ls s t H Hd) as [E Hn].
  rewrite <- E. apply filter_key_lookup. exact Hn.
Qed.

Lemma tables_nodup cfg : conformant_loop cfg -> forall ls s x tb, run cfg ls = Some s -> st_cb s x = Some tb -> NoDup (keys tb).
Proof.
  intros _ ls s x tb H E. destruct (inv_run cfg ls s H) as (It & _). destruct (It x) as (_ & _ & Nt & _).
  unfold table_of in Nt. rewrite E in Nt. exact Nt.
Qed.

Theorem reaper_serialises cfg : forall ls s, run cfg ls = Some s -> forall t, (tr_ncancel (st_task s t) <= 1)%nat.
Proof. intros ls s H t. destruct (inv_run cfg ls s H) as (It & _). apply (It t). Qed.

(* D20, D143 off: a task has a callback record from its start (its creation, unless it is a service or legacy shutdown
   run) to the end of its finally *)
Definition rinv (s : state) (t : tid) : Prop :=
  match phase_of s t with
  | PCreated => tr_kind (st_task s t) <> KSvc -> tr_kind (st_task s t) <> KShutL -> st_cb s t <> None
  | PBody | PFin _ _ _ _ => st_cb s t <> None
  | _ => True
  end.

Lemma rinv_phase s s' t :
  st_cb s' t = st_cb s t -> st_cb s t <> None \/ phase_of s' t = PDone ->
  (match phase_of s' t with PNone | PCreated => False | _ => True end) -> rinv s' t.
Proof. unfold rinv. intros -> [H|H]; [|rewrite H; auto]. destruct (phase_of s' t); tauto. Qed.

Lemma rinv_run cfg : d_service_no_cbrec cfg = false -> d_shutdown_no_cbrec cfg = false ->
  forall ls s, run cfg ls = Some s -> forall t, rinv s t.
Proof.
  intros Hd Hd2 ls s H t. destruct (inv_run cfg ls s H) as (It & _). destruct (It t) as (P & _).
  unfold rinv, phase_ok, has_rec, phase_of in *. destruct (tr_phase (st_task s t)); tauto.
Qed.

Theorem add_registers_on_running cfg : d_service_no_cbrec cfg = false -> d_shutdown_no_cbrec cfg = false ->
  forall ls s t x j a, run cfg ls = Some s -> running s t = true -> phase_of s x = PBody ->
  exists tb, st_cb s x = Some tb /\ step cfg s (LAdd t x j a) = Some (set_cb s x (Some (tbl_add j a tb))).
Proof.
  intros Hd Hd2 ls s t x j a H Hr Hx. pose proof (rinv_run cfg Hd Hd2 ls s H x) as R. unfold rinv in R. rewrite Hx in R.
  destruct (st_cb s x) as [tb|] eqn:E; [|congruence]. exists tb. split; [reflexivity|]. cbn [step]. rewrite Hr, E. reflexivity.
Qed.

Lemma snapshot_at_body_end cfg s t o s' :
  step cfg s (LEnd t o) = Some s' -> tr_snap (st_task s' t) = table_of s t /\ tr_out (st_task s' t) = Some o.
Proof.
  intros H. assert (E : s' = end_body s t o).
  { cbn [step] in H. destruct (tr_phase (st_task s t)); try discriminate. destruct o, (tr_creq (st_task s t)); congruence. }
  subst s'. unfold end_body. cbn. rewrite upd_same. split; reflexivity.
Qed.

Lemma enabled_transfers cfg s1 s2 l r :
  d_live_iter cfg = false -> d_call_cancel_kills cfg = false -> owner l = Some r -> st_task s1 r = st_task s2 r ->
  step cfg s1 l <> None -> step cfg s2 l <> None.
Proof.
  intros Hl Hk Ho He.
  destruct l as [t k|t|t y j a|t y j|src y|t n|t o|t|t res|t| | |t y|t y]; cbn [owner] in Ho; try discriminate Ho.
  (* both steps are read with the record of r in s2; where a guard on that record refuses, the hypothesis is the goal *)
  all: first [injection Ho as ->|subst src]; cbn [step]; unfold phase_of, loop_fails, iter_table; rewrite ?(running_record s1 s2 r He), ?Hl, ?Hk, ?He.
  - (* LCreate *) destruct (tr_phase (st_task s2 r)); auto. intros _; discriminate.
  - (* LStart *) destruct (tr_phase (st_task s2 r)); auto. intros _; discriminate.
  - (* LAdd *) destruct (running s2 r); auto. intros _; destruct (st_cb s2 y); discriminate.
  - (* LRem *) destruct (running s2 r); auto. intros _; destruct (st_cb s2 y); discriminate.
  - (* LCancel *) destruct (running s2 r); auto. intros _; destruct (st_ours s2 y); discriminate.
  - (* LClaim *) destruct (running s2 r); auto. intros _; destruct (st_ours _ r); discriminate.
  - (* LEnd *) destruct (tr_phase (st_task s2 r)), o, (tr_creq (st_task s2 r)); auto; intros _; discriminate.
  - (* LCbBegin *) destruct (tr_phase (st_task s2 r)) as [| | |cur n0 [|] [|]|]; auto. cbn [andb]. rewrite !orb_false_r.
    destruct (negb _); [intros _; discriminate|]. destruct (tbl_next _ _) as [[c' [j a]]|]; auto. intros _; discriminate.
  - (* LCbEnd *) destruct (tr_phase (st_task s2 r)) as [| | |cur n0 [|] [|]|]; auto.
    destruct res, (tr_creq (st_task s2 r)); auto; try destruct (d_fin_cancel_escapes cfg); intros _; discriminate.
  - (* LExit *) destruct (tr_phase (st_task s2 r)) as [| | |cur n0 [|] brk|]; auto. destruct brk; [intros _; discriminate|].
    destruct (negb _); [intros _; discriminate|]. destruct (tbl_next _ _); auto. intros _; discriminate.
  - (* LCallKilled: refused with D142 off *) rewrite !andb_false_r. auto.
Qed.

Lemma enabled_local cfg s1 s2 l r :
  d_live_iter cfg = false -> d_call_cancel_kills cfg = false -> owner l = Some r -> st_task s1 r = st_task s2 r ->
  (step cfg s1 l <> None <-> step cfg s2 l <> None).
Proof. intros Hl Hk Ho He. split; apply (enabled_transfers cfg _ _ l r); auto. Qed.

Lemma exit_done cfg s t s' : step cfg s (LExit t) = Some s' -> phase_of s' t = PDone.
Proof.
  cbn [step]. destruct (tr_phase (st_task s t)) as [| | |cur n0 [|] brk|]; try discriminate. destruct brk.
  - intros [= <-]. apply cleanup_done.
  - destruct (negb _).
    + intros [= <-]. apply escape_done.
    + destruct (tbl_next _ _); [discriminate|]. intros [= <-]. apply cleanup_done.
Qed.

Definition completes (cfg : deviations) (s : state) (t : tid) : Prop :=
  exists ls s', (forall l, In l ls -> owner l = Some t) /\ run_from cfg s ls = Some s' /\ phase_of s' t = PDone.

Lemma completes_done cfg s t : phase_of s t = PDone -> completes cfg s t.
Proof. intros Hd. exists [], s. split; [intros l []|split; [reflexivity|exact Hd]]. Qed.

Lemma completes_step cfg s t l s1 : owner l = Some t -> step cfg s l = Some s1 -> completes cfg s1 t -> completes cfg s t.
Proof.
  intros Ho E (ls & s' & Hown & Hrun & Hd). exists (l :: ls), s'. split; [|split; [|exact Hd]].
  - intros l' [<-|Hi]; [exact Ho|apply Hown, Hi].
  - rewrite run_from_cons, E. exact Hrun.
Qed.

(* each step uses up a suspended callback or an entry of the table the loop walks over, or ends the task; no other task
   moves, so with D141 on the live table stays too.  A pending cancellation is taken by the suspended callback, not the loop *)
Lemma can_finish_within cfg :
  forall n s t cur n0 incb brk,
    phase_of s t = PFin cur n0 incb brk -> (incb = true -> brk = false) ->
    (2 * length (tbl_live (skipn cur (iter_table cfg s t))) + (if incb then 1 else 0) < n)%nat -> completes cfg s t.
Proof.
  intros n. induction n as [|n IH]; intros s t cur n0 incb brk Ep Hb Hn; [lia|]. unfold phase_of in Ep. destruct incb.
  - rewrite (Hb eq_refl) in Ep. destruct (tr_creq (st_task s t)) eqn:Hc; [destruct (d_fin_cancel_escapes cfg) eqn:Hd|].
    + apply (completes_step cfg s t (LCbEnd t CbCancelled) (escape s t OCancel) eq_refl); [cbn [step]; rewrite Ep, Hc, Hd; reflexivity|].
      apply completes_done, escape_done.
    + eapply (completes_step cfg s t (LCbEnd t CbCancelled) _ eq_refl); [cbn [step]; rewrite Ep, Hc, Hd; reflexivity|].
      apply (IH _ t cur n0 false false); unfold phase_of, iter_table, table_of in *; cbn; rewrite ?upd_same; cbn; [reflexivity|discriminate|lia].
    + eapply (completes_step cfg s t (LCbEnd t CbOk) _ eq_refl); [cbn [step]; rewrite Ep, Hc; reflexivity|].
      apply (IH _ t cur n0 false false); unfold phase_of, iter_table, table_of in *; cbn; rewrite ?upd_same; cbn; [reflexivity|discriminate|lia].
  - destruct (step cfg s (LExit t)) as [s'|] eqn:Ex.
    + exact (completes_step cfg s t (LExit t) s' eq_refl Ex (completes_done cfg s' t (exit_done _ _ _ _ Ex))).
    + (* LExit is refused only when another callback is due *)
      cbn [step] in Ex. rewrite Ep in Ex. destruct brk; [discriminate|].
      destruct (negb _) eqn:Esz; [discriminate|]. destruct (tbl_next cur _) as [[cur' [j a]]|] eqn:En; [clear Ex|discriminate].
      destruct (loop_fails cfg s t cur n0) eqn:Ef.
      * (* the live dict changed under the loop *)
        apply (completes_step cfg s t (LCbBegin t) (escape s t OEscape) eq_refl); [cbn [step]; rewrite Ep, Ef; reflexivity|].
        apply completes_done, escape_done.
      * eapply (completes_step cfg s t (LCbBegin t) _ eq_refl); [cbn [step]; rewrite Ep, Ef, En; reflexivity|].
        rewrite tbl_next_spec, En in Hn. cbn [length] in Hn.
        apply (IH _ t cur' n0 true false); unfold phase_of, iter_table, table_of in *; cbn; rewrite ?upd_same; cbn; [reflexivity|reflexivity|lia].
Qed.

Theorem can_finish cfg s t cur n0 incb brk :
  phase_of s t = PFin cur n0 incb brk -> (incb = true -> brk = false) -> completes cfg s t.
Proof. intros Ep Hb. exact (can_finish_within cfg _ s t cur n0 incb brk Ep Hb (Nat.lt_succ_diag_r _)). Qed.

Local Open Scope N_scope.

Definition only_d22 := mkDev true false false false false false.
Definition only_d20 := mkDev false true false false false false.
Definition only_d140 := mkDev false false true false false false.
Definition only_d141 := mkDev false false false true false false.
Definition only_d142 := mkDev false false false false true false.
Definition only_d143 := mkDev false false false false false true.

(* D22: the first of two callbacks raises: the second is never called *)
Definition wit_d22 : list label :=
  [LCreate 0 KTrig; LStart 0; LAdd 0 0 0 5; LAdd 0 0 1 6; LEnd 0 (ORet None); LCbBegin 0; LCbEnd 0 CbRaise; LExit 0].
Lemma refuted_D22 :
  exists s, run only_d22 wit_d22 = Some s /\ phase_of s 0 = PDone /\
            tbl_live (tr_snap (st_task s 0)) = [(0, 5); (1, 6)]%N /\ calls s 0 = [(0, 5)]%N.
Proof. eexists. split; [vm_compute; reflexivity|]. vm_compute. auto. Qed.

(* D20: add_done_callback on a running service task: no record, the caller's body dies with KeyError *)
Definition wit_d20 : list label := [LCreate 0 KSvc; LStart 0; LAdd 0 0 0 5].
Lemma refuted_D20 :
  exists s0 s, run only_d20 (firstn 2 wit_d20) = Some s0 /\ running s0 0 = true /\ phase_of s0 0 = PBody /\
               run only_d20 wit_d20 = Some s /\ st_cb s 0 = None /\ tr_out (st_task s 0) = Some ORaise.
Proof. do 2 eexists. do 4 (split; [vm_compute; reflexivity|]). vm_compute. auto. Qed.

(* D140: task.cancel arrives while the first done-callback of a task that returned 7 is suspended: the second never
   runs, every registry keeps the dead task, which reports "cancelled" *)
Definition wit_d140 : list label :=
  [LCreate 0 KTrig; LStart 0; LAdd 0 0 0 5; LAdd 0 0 1 6; LClaim 0 3; LEnd 0 (ORet (Some 7)); LCbBegin 0;
   LCancel None 0; LReaper; LCbEnd 0 CbCancelled; LReaperWake].
Lemma refuted_D140 :
  exists s, run only_d140 wit_d140 = Some s /\ phase_of s 0 = PDone /\
            st_ours s 0 = true /\ st_cb s 0 <> None /\ st_ctx s 0 = true /\ st_t2n s 0 <> None /\ st_n2t s 3 = Some 0%N /\
            calls s 0 = [(0, 5)]%N /\ tr_out (st_task s 0) = Some (ORet (Some 7%N)) /\ tr_final (st_task s 0) = Some OCancel.
Proof. eexists. split; [vm_compute; reflexivity|]. vm_compute. repeat split; try discriminate. Qed.

(* D141: task 1 adds a callback to task 0 while task 0's first done-callback is suspended: RuntimeError leaves run_coro *)
Definition wit_d141 : list label :=
  [LCreate 0 KTrig; LStart 0; LCreate 1 KTrig; LStart 1; LAdd 0 0 0 5; LEnd 0 (ORet None); LCbBegin 0;
   LAdd 1 0 1 6; LCbEnd 0 CbOk; LCbBegin 0].
Lemma refuted_D141 :
  exists s, run only_d141 wit_d141 = Some s /\ phase_of s 0 = PDone /\
            st_ours s 0 = true /\ st_cb s 0 <> None /\ st_ctx s 0 = true /\
            calls s 0 = [(0, 5)]%N /\ tr_final (st_task s 0) = Some OEscape.
Proof. eexists. split; [vm_compute; reflexivity|]. vm_compute. repeat split; try discriminate. Qed.

(* D142: task 0 is blocked in service.call on service run 1, which is cancelled: task 0 ends cancelled although no
   cancellation was delivered to it *)
Definition wit_d142 : list label :=
  [LCreate 0 KTrig; LStart 0; LCreate 1 KSvc; LStart 1; LCancel None 1; LReaper; LEnd 1 OCancel; LExit 1; LReaperWake; LCallKilled 0 1; LExit 0].
Lemma refuted_D142 :
  exists s, run only_d142 wit_d142 = Some s /\ phase_of s 0 = PDone /\ tr_final (st_task s 0) = Some OCancel /\
            tr_ncancel (st_task s 0) = 0%nat.
Proof. eexists. split; [vm_compute; reflexivity|]. vm_compute. auto. Qed.
Lemma callee_cancel_spares_caller cfg s t x : d_call_cancel_kills cfg = false -> step cfg s (LCallKilled t x) = None.
Proof. intros H. cbn [step]. rewrite H, andb_false_r. reflexivity. Qed.

(* D143: a legacy shutdown run (started by the waiter task without ast_ctx) has no callback record either *)
Definition wit_d143 : list label := [LCreate 0 KShutL; LStart 0; LAdd 0 0 0 5].
Lemma refuted_D143 :
  exists s0 s, run only_d143 (firstn 2 wit_d143) = Some s0 /\ running s0 0 = true /\ st_ctx s0 0 = true /\
               run only_d143 wit_d143 = Some s /\ st_cb s 0 = None /\ tr_out (st_task s 0) = Some ORaise.
Proof. do 2 eexists. do 4 (split; [vm_compute; reflexivity|]). vm_compute. auto. Qed.

(* with the live-dict loop, whether task 0 takes its next loop step normally depends on task 1 *)
Lemma independent_needs_D141_off :
  exists s1 s2, st_task s1 0%N = st_task s2 0%N /\
    (exists s', step only_d141 s1 (LExit 0) = Some s' /\ st_cb s' 0 = None) /\
    (exists s', step only_d141 s2 (LExit 0) = Some s' /\ st_cb s' 0 <> None).
Proof.
  pose (pre := [LCreate 0 KTrig; LStart 0; LCreate 1 KTrig; LStart 1; LAdd 0 0 0 5; LEnd 0 (ORet None); LCbBegin 0; LCbEnd 0 CbOk]).
  exists (match run only_d141 pre with Some s => s | None => init_state end),
         (match run only_d141 (pre ++ [LAdd 1 0 1 6]) with Some s => s | None => init_state end).
  split; [vm_compute; reflexivity|]. split; eexists; (split; [vm_compute; reflexivity|]); vm_compute; [reflexivity|discriminate].
Qed.

Example no_escape_conformant : no_escape no_dev /\ no_escape (mkDev true true false false true true).
Proof. repeat split. Qed.
Example conformant_loop_no_dev : conformant_loop no_dev.
Proof. repeat split. Qed.

Definition ex_tasks : list tdesc :=
  [mkTd KTrig 1024 [SSleep 4096; SCreate 1; SAdd 1 0 4; SAdd 1 1 5; SAdd 1 0 6; SRem 1 1; SWait 1; SSleep 16384; SRet 2];
   mkTd KCreate 0 [SSleep 8192; SClaim 0; SSleep 65536; SRet 7];
   mkTd KSvc 2048 [SSleep 32768; SCancel 1; SSleep 131072; SCancelSelf]]%N.
Definition ex_cbs : list cbdesc := [mkCd 0 false; mkCd 0 false]%N.
Example sim_is_a_run :
  let sc := sim no_dev ex_tasks ex_cbs [] in
  sc_err sc = false /\
  exists s, run no_dev (rev (sc_labels sc)) = Some s /\
            forallb (fun t => is_done s t && N.eqb (bits_of s t) 0) [0; 1; 2]%N = true /\ calls s 1 = [(0, 6)]%N.
Proof. cbv zeta. split; [vm_compute; reflexivity|]. eexists. split; [vm_compute; reflexivity|]. vm_compute. auto. Qed.
