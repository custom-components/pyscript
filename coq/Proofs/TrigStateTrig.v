(* Lemmas for C04 (Trig/Notify.v, Trig/StateTrig.v).  One delivered event, one trigger: the code's decision is the property's
   ([decide_ok], [unsub_not_qualifies], together [push_runs]).  Then one burst and a history of bursts, for any projection of
   the runs whose per-event verdict is known ([Section Proj]); one decorator's and one function's runs are its two instances.
   After them: the order of the runs (from [hist_events_ids]), the kwargs, the converse of [trig_runs_general]
   ([refutes_runs_unless]: a witness per deviation switch, refuting whatever the other switches are), an example script, and
   that the trace check's Model side implies its Spec side ([scase_model_implies_spec]). *)
From Coq Require Import NArith List Bool Lia Sorted.
From PV Require Import Common.Util Gen.StateTrigConsts Trig.Notify Trig.StateTrig Trig.StateTrigCheck.
Import ListNotations.
Local Open Scope N_scope.

(* an equation and not a conversion: [assoc] binds its value type inside the fix *)
Lemma assoc_al {B} k (l : list (N * B)) : assoc k l = al_get N.eqb k l.
Proof. induction l as [|[k' v] r IH]; cbn [assoc al_get]; [|rewrite IH]; reflexivity. Qed.

Lemma assoc_filter_key {B} (g : N -> bool) k (l : list (N * B)) :
  assoc k (filter (fun p => g (fst p)) l) = if g k then assoc k l else None.
Proof. rewrite !assoc_al. apply (al_get_filter _ N.eqb_eq). Qed.

Lemma assoc_app {B} k (a b : list (N * B)) :
  assoc k (a ++ b) = match assoc k a with Some v => Some v | None => assoc k b end.
Proof. rewrite !assoc_al. apply al_get_app. Qed.

Lemma assoc_map {B} (f : N -> B -> B) k (l : list (N * B)) :
  assoc k (map (fun p => (fst p, f (fst p) (snd p))) l) = option_map (f k) (assoc k l).
Proof. rewrite !assoc_al. apply (al_get_map _ N.eqb_eq). Qed.

Lemma assoc_keys {B} k (l : list (N * B)) :
  existsb (N.eqb k) (map fst l) = match assoc k l with Some _ => true | None => false end.
Proof. rewrite assoc_al. apply al_get_keys. Qed.

Lemma assoc_some_in_keys {B} k (l : list (N * B)) v : assoc k l = Some v -> In k (map fst l).
Proof.
  intros H. pose proof (assoc_keys k l) as E. rewrite H in E. apply existsb_exists in E.
  destruct E as [x [Hx E]]. apply N.eqb_eq in E. subst x. exact Hx.
Qed.

Lemma filter_flat_map {A B} (f : B -> bool) (g : A -> bool) (F : A -> list B) l :
  (forall x, filter f (F x) = if g x then F x else []) -> filter f (flat_map F l) = flat_map F (filter g l).
Proof.
  intros H. induction l as [|x r IH]; cbn [flat_map filter]; [reflexivity|].
  rewrite filter_app, IH, H. destruct (g x); reflexivity.
Qed.

Lemma hget_hdel h e x : hget (hdel h e) x = if N.eqb x e then None else hget h x.
Proof. unfold hget, hdel. rewrite (assoc_filter_key (fun y => negb (N.eqb y e))). destruct (N.eqb x e); reflexivity. Qed.

Lemma hget_hset h e s x : hget (hset h e s) x = if N.eqb x e then Some s else hget h x.
Proof.
  change (hget (hset h e s) x) with (if N.eqb x e then Some s else hget (hdel h e) x).
  rewrite hget_hdel. destruct (N.eqb x e); reflexivity.
Qed.

Lemma apply_op_event h id o h' ev :
  apply_op h id o = (h', Some ev) ->
  ev_id ev = id /\ hget h (ev_ent ev) = ev_old ev
  /\ forall x, hget h' x = if N.eqb x (ev_ent ev) then ev_new ev else hget h x.
Proof.
  destruct o as [e v a|e]; cbn [apply_op]; destruct (hget h e) as [old|] eqn:G.
  - destruct (sv_same old (mkSv v a)); intros H; inversion H; subst. exact (conj eq_refl (conj G (hget_hset h e _))).
  - intros H; inversion H; subst. exact (conj eq_refl (conj G (hget_hset h e _))).
  - intros H; inversion H; subst. exact (conj eq_refl (conj G (hget_hdel h e))).
  - discriminate.
Qed.

Lemma apply_op_noevent h id o h' : apply_op h id o = (h', None) -> h' = h.
Proof.
  destruct o as [e v a|e]; cbn [apply_op].
  - destruct (hget h e) as [old|]; [destruct (sv_same old (mkSv v a))|]; intros H; inversion H; reflexivity.
  - destruct (hget h e); intros H; inversion H; reflexivity.
Qed.

Lemma oeval_ext f g o : (forall t, In (term_name t) (oexp_names o) -> f t = g t) -> oeval f o = oeval g o.
Proof.
  unfold oexp_names. induction o as [t|o IH|o IH|o IH|o IH|o IH|o IH|o IH]; cbn [oeval oexp_terms map]; intros H;
    [rewrite (H t (or_introl eq_refl))|rewrite (IH H)..]; reflexivity.
Qed.

Lemma beval_ext f g b : (forall t, In (term_name t) (bexp_names b) -> f t = g t) -> beval f b = beval g b.
Proof.
  induction b as [o c|o c|o u|o u|o n|o|b IH|b IHb c IHc|b IHb c IHc]; cbn [bexp_names beval]; intros H.
  - (* BEqC *) rewrite (oeval_ext f g o H); reflexivity.
  - (* BNeC *) rewrite (oeval_ext f g o H); reflexivity.
  - (* BEqT *) rewrite (oeval_ext f g o), (oeval_ext f g u); [reflexivity| |]; intros t Ht; apply H, in_or_app; auto.
  - (* BNeT *) rewrite (oeval_ext f g o), (oeval_ext f g u); [reflexivity| |]; intros t Ht; apply H, in_or_app; auto.
  - (* BGtC *) rewrite (oeval_ext f g o H); reflexivity.
  - (* BTruthy *) rewrite (oeval_ext f g o H); reflexivity.
  - (* BNot *) rewrite (IH H). reflexivity.
  - (* BAnd *) rewrite IHb, IHc; [reflexivity| |]; intros t Ht; apply H, in_or_app; auto.
  - (* BOr *) rewrite IHb, IHc; [reflexivity| |]; intros t Ht; apply H, in_or_app; auto.
Qed.

Lemma exprs_truthy_ext f g l :
  (forall t, In (term_name t) (flat_map bexp_names l) -> f t = g t) -> exprs_truthy f l = exprs_truthy g l.
Proof.
  intros H. unfold exprs_truthy. replace (all_vals g l) with (all_vals f l); [reflexivity|].
  induction l as [|b r IH]; cbn [all_vals flat_map] in *; [reflexivity|].
  rewrite (beval_ext f g b), IH; [reflexivity| |]; intros t Ht; apply H, in_or_app; auto.
Qed.

(* pyscript's name resolution (notify_vars, then hass.states, then getattr) agrees with "the event's own values, NAME.old =
   previous value, undefined = None" on a queue entry whose notify_var_last agrees with hass.states as of its event *)
Definition snapshot_ok (it : item) : Prop :=
  (forall x v, assoc x (it_last it) = Some v -> v = hget (it_hass it) x)
  /\ hget (it_hass it) (ev_ent (it_ev it)) = ev_new (it_ev it).

Section Names.
  Variables (cfg : sdev) (vn : list name) (it : item).
  Hypothesis Hit : snapshot_ok it.
  Notation ev := (it_ev it).
  Notation h' := (it_hass it).
  Notation nv := (nv_lookup vn it).
  (* harmless: undefined names read as None, or notify_var_get handles it (it is in var_names) *)
  Definition name_ok (n : name) : Prop := d_undef_raises cfg = false \/ mem_name n vn = true.

  Lemma undef_off : d_undef_raises cfg = false -> undef cfg = RVal PNone.
  Proof. intros H. unfold undef. rewrite H. reflexivity. Qed.

  Lemma name_ok_not_mem n : name_ok n -> mem_name n vn = false -> d_undef_raises cfg = false.
  Proof. intros [H|H] M; [exact H|congruence]. Qed.

  Lemma eval_ent_ok x : name_ok (NEnt x) -> eval_ent cfg nv h' x = RVal (of_osv (hget h' x)).
  Proof.
    intros Hok. unfold eval_ent, nv_lookup.
    destruct (N.eqb x (ev_ent ev)) eqn:E.
    - apply N.eqb_eq in E. subst x. rewrite (proj2 Hit). reflexivity.
    - destruct (mem_name (NEnt x) vn) eqn:M.
      + cbn [fill]. destruct (assoc x (it_last it)) as [v|] eqn:A.
        * rewrite (proj1 Hit _ _ A). reflexivity.
        * destruct (hget h' x) eqn:G; reflexivity.
      + destruct (hget h' x) eqn:G; [reflexivity|]. apply undef_off, (name_ok_not_mem _ Hok M).
  Qed.

  Lemma eval_old_ok x :
    name_ok (NOld x) ->
    eval_old cfg nv h' x = RVal (if N.eqb x (ev_ent ev) then of_osv (ev_old ev) else PNone).
  Proof.
    intros Hok. unfold eval_old. unfold nv_lookup at 1.
    destruct (N.eqb x (ev_ent ev)) eqn:E; [reflexivity|].
    destruct (mem_name (NOld x) vn) eqn:M; [reflexivity|].
    pose proof (name_ok_not_mem _ Hok M) as Hd.
    rewrite (eval_ent_ok x (or_introl Hd)). apply undef_off, Hd.
  Qed.

  Lemma getattr_strict_osv o a :
    d_undef_raises cfg = false -> getattr_strict cfg (RVal (of_osv o)) a = RVal (of_oatom (ogetattr a o)).
  Proof. intros Hd. destruct o as [s|]; cbn; [destruct (get_attr a s)|]; auto using undef_off. Qed.

  Lemma tev_ok t : name_ok (term_name t) -> tev cfg nv h' t = RVal (spec_term ev h' t).
  Proof.
    intros Hok. destruct t as [x|x a|x|x a]; cbn [tev spec_term term_name] in *.
    - apply eval_ent_ok. exact Hok.
    - unfold nv_lookup at 1.
      destruct (mem_name (NAttr x a) vn) eqn:M.
      + cbn [fill]. destruct (assoc x (it_last it)) as [v|] eqn:A.
        * rewrite (proj1 Hit _ _ A). reflexivity.
        * destruct (ogetattr a (hget h' x)) eqn:G; reflexivity.
      + pose proof (name_ok_not_mem _ Hok M) as Hd.
        destruct (ogetattr a (hget h' x)) as [v|] eqn:G; [reflexivity|].
        rewrite (eval_ent_ok x (or_introl Hd)), (getattr_strict_osv _ _ Hd), G. reflexivity.
    - apply eval_old_ok. exact Hok.
    - unfold nv_lookup at 1.
      destruct (mem_name (NOldAttr x a) vn) eqn:M.
      + cbn [fill]. destruct (N.eqb x (ev_ent ev)); reflexivity.
      + pose proof (name_ok_not_mem _ Hok M) as Hd. rewrite (eval_old_ok x (or_introl Hd)).
        destruct (N.eqb x (ev_ent ev)); [apply (getattr_strict_osv _ _ Hd)|apply (getattr_strict_osv None _ Hd)].
  Qed.
End Names.

Lemma name_eqb_refl n : name_eqb n n = true.
Proof. destruct n; cbn; rewrite ?N.eqb_refl; reflexivity. Qed.

Lemma mem_name_in n l : In n l -> mem_name n l = true.
Proof. intros H. unfold mem_name. apply existsb_exists. exists n. split; [exact H|apply name_eqb_refl]. Qed.

Lemma value_differs_sym a b : value_differs a b = value_differs b a.
Proof. unfold value_differs, oval_eqb. destruct a, b; cbn; try reflexivity. rewrite N.eqb_sym. reflexivity. Qed.

Definition no_aold (T : trig) : Prop := forall e, ~ In (AOld e) (trig_anys T).

(* settings under which the code's decision is the property's.  First conjunct: D41 and D44 act only on a decorator with
   watch=.  Second: D42 acts only in the default subsystem, on a decorator without expression, and there only if some change
   that is no any-change match gets through to the decision, which takes watch= or a "d.e.old" form ([no_any_no_value_change]) *)
Definition benign (cfg : sdev) (legacy : bool) (T : trig) : Prop :=
  (t_watch T = None \/ (d_undef_raises cfg = false /\ d_watch_hides_any cfg = false))
  /\ (d_noexpr_runs cfg = false \/ legacy = true \/ (t_watch T = None /\ no_aold T)).

Lemma benign_off legacy T : benign sdev_off legacy T.
Proof. split; [right; split; reflexivity|left; reflexivity]. Qed.

Lemma benign_no_watch cfg legacy T : t_watch T = None -> no_aold T -> benign cfg legacy T.
Proof. intros Hw Hno. split; [left; exact Hw|right; right; split; assumption]. Qed.

Lemma any_name_changed ev f :
  (forall e, f <> AOld e) -> name_changed ev (any_name f) = true -> any_form_changed ev f = true.
Proof.
  intros Hn. destruct f as [e|e a|e|e]; cbn [any_name name_changed any_form_changed]; intros H.
  - rewrite value_differs_sym. exact H.
  - exact H.
  - destruct (Hn e eq_refl).
  - discriminate.
Qed.

Lemma no_any_no_value_change T ev :
  t_watch T = None -> trig_exprs T = [] -> no_aold T ->
  any_changed ev (trig_anys T) = false -> values_changed ev (trig_ident T) = false.
Proof.
  intros Hw Hex Hno Hany. unfold trig_ident. rewrite Hw, Hex. cbn [flat_map app].
  unfold values_changed. destruct (existsb (name_changed ev) (map any_name (trig_anys T))) eqn:E; [|reflexivity].
  apply existsb_exists in E. destruct E as [n [Hin Hn]]. apply in_map_iff in Hin. destruct Hin as [f [<- Hin]].
  rewrite <- Hany. symmetry. apply existsb_exists. exists f. split; [exact Hin|].
  apply any_name_changed; [|exact Hn]. intros e ->. exact (Hno e Hin).
Qed.

(* the trigger task, running when hass.states is [hnow], evaluates an entry on the states [h'] as of its event *)
Definition reads_event (cfg : sdev) (hnow h' : hass) : Prop := (if d_late_read cfg then hnow else h') = h'.

Lemma decide_ok cfg legacy hnow T it :
  snapshot_ok it -> benign cfg legacy T -> reads_event cfg hnow (it_hass it) ->
  decide cfg legacy T it hnow = qualifies T (it_ev it) (it_hass it).
Proof.
  unfold reads_event, decide, qualifies. intros Hit [Hb1 Hb2] Hnow.
  destruct (any_changed (it_ev it) (trig_anys T)) eqn:A; [reflexivity|]. cbn [orb].
  destruct (values_changed (it_ev it) (trig_ident T)) eqn:V; cbn [negb andb]; [|reflexivity].
  destruct (trig_exprs T) as [|b r] eqn:Ex.
  - change (spec_truthy (it_ev it) (it_hass it) []) with false. destruct Hb2 as [H|[H|[Hw Hno]]].
    + rewrite H. apply andb_false_r.
    + rewrite H. reflexivity.
    + rewrite (no_any_no_value_change T _ Hw Ex Hno A) in V. discriminate.
  - rewrite Hnow, <- Ex. apply exprs_truthy_ext. intros t Ht. apply (tev_ok cfg (trig_ident T) it Hit).
    (* without watch= the names of the expressions are in var_names *)
    destruct Hb1 as [Hw|[Hu _]]; [right|left; exact Hu].
    apply mem_name_in. unfold trig_ident. rewrite Hw. apply in_or_app. left. exact Ht.
Qed.

Lemma names_have_ent_in l n e : In n l -> name_ent n = Some e -> names_have_ent l e = true.
Proof.
  intros Hin Hn. unfold names_have_ent. apply existsb_exists. exists n. split; [exact Hin|]. rewrite Hn. apply N.eqb_refl.
Qed.

Lemma name_changed_ent ev n : name_changed ev n = true -> name_ent n = Some (ev_ent ev).
Proof.
  destruct n as [e|e a|e|e a|e]; cbn [name_changed name_ent]; intros H; try discriminate;
    apply andb_true_iff in H; destruct H as [H _]; apply N.eqb_eq in H; subst; reflexivity.
Qed.

Lemma any_form_changed_ent ev f : any_form_changed ev f = true -> name_ent (any_name f) = Some (ev_ent ev).
Proof.
  destruct f as [e|e a|e|e]; cbn [any_form_changed any_name name_ent]; intros H; try discriminate;
    apply andb_true_iff in H; destruct H as [H _]; apply N.eqb_eq in H; subst; reflexivity.
Qed.

Lemma sub_names_incl cfg T n :
  (t_watch T = None \/ d_watch_hides_any cfg = false) ->
  In n (trig_ident T) \/ In n (map any_name (trig_anys T)) -> In n (trig_sub_names cfg T).
Proof.
  unfold trig_sub_names, trig_ident. intros Hc. destruct (t_watch T) as [w|].
  - destruct Hc as [Hc| ->]; [discriminate|]. apply in_or_app.
  - intros [H|H]; [exact H|apply in_or_app; right; exact H].
Qed.

Lemma unsub_not_qualifies cfg T ev S :
  (t_watch T = None \/ d_watch_hides_any cfg = false) ->
  names_have_ent (trig_sub_names cfg T) (ev_ent ev) = false -> qualifies T ev S = false.
Proof.
  intros Hc Hs. unfold qualifies.
  destruct (any_changed ev (trig_anys T)) eqn:A.
  - unfold any_changed in A. apply existsb_exists in A. destruct A as [f [Hf Hch]].
    rewrite (names_have_ent_in _ _ _ (sub_names_incl cfg T _ Hc (or_intror (in_map any_name _ f Hf))) (any_form_changed_ent ev f Hch)) in Hs.
    discriminate.
  - cbn [orb]. destruct (values_changed ev (trig_ident T)) eqn:V; [|reflexivity].
    unfold values_changed in V. apply existsb_exists in V. destruct V as [n [Hn Hch]].
    rewrite (names_have_ent_in _ _ _ (sub_names_incl cfg T n Hc (or_introl Hn)) (name_changed_ent ev n Hch)) in Hs. discriminate.
Qed.

(* the entries State.update makes for one event, as a function of the subscriber *)
Definition pushes_of (cfg : sdev) (it : item) (q : trig) : list (trig * item) :=
  if subscribed (trig_sub_names cfg) q (ev_ent (it_ev it)) then [(q, it)] else [].

Lemma state_update_eq cfg trigs h' last ev :
  state_update (trig_sub_names cfg) trigs h' last ev
  = let L := if notify_has (trig_sub_names cfg) trigs (ev_ent ev) then (ev_ent ev, ev_new ev) :: last else last in
    (L, flat_map (pushes_of cfg (mkItem ev h' L)) trigs).
Proof.
  unfold state_update, notify_has. destruct (existsb _ trigs) eqn:Nh; cbv zeta; f_equal.
  (* nobody is subscribed: no entries *)
  induction trigs as [|q r IH]; cbn in *; [reflexivity|]. apply orb_false_iff in Nh. destruct Nh as [Hq Hr].
  unfold pushes_of at 1. cbn [it_ev]. rewrite Hq. exact (IH Hr).
Qed.

(* the property's verdict on one event: [spec_trig_runs] is [flat_map (one_run T)] over the history's events *)
Definition one_run (T : trig) (p : event * hass) : list run :=
  if qualifies T (fst p) (snd p) then [mk_run T (fst p)] else [].

Lemma push_runs cfg legacy hnow T it :
  snapshot_ok it -> benign cfg legacy T -> reads_event cfg hnow (it_hass it) ->
  flat_map (decide_push cfg legacy hnow) (pushes_of cfg it T) = one_run T (it_ev it, it_hass it).
Proof.
  intros Hit Hb Hnow. unfold pushes_of, one_run. cbn [fst snd].
  destruct (subscribed (trig_sub_names cfg) T (ev_ent (it_ev it))) eqn:Sb; cbn [flat_map].
  - rewrite app_nil_r. unfold decide_push. cbn [fst snd]. rewrite (decide_ok cfg legacy hnow T it Hit Hb Hnow). reflexivity.
  - rewrite (unsub_not_qualifies cfg T _ _); [reflexivity| |exact Sb].
    destruct Hb as [[Hw|[_ Hd]] _]; [left; exact Hw|right; exact Hd].
Qed.

(* only entities with a subscriber: State.update records a change only when somebody is subscribed, so an entry for another
   entity would go stale *)
Definition last_ok (cfg : sdev) (trigs : list trig) (st : gstate) : Prop :=
  forall x v, assoc x (g_last st) = Some v ->
    notify_has (trig_sub_names cfg) trigs x = true /\ v = hget (g_h st) x.

Lemma last_ok_init cfg trigs h0 : last_ok cfg trigs (g_init h0).
Proof. intros x v H. cbn in H. discriminate. Qed.

(* one delivered event: the invariant is kept, and it makes the entries of this event snapshots *)
Lemma last_ok_step cfg trigs st o h' ev :
  last_ok cfg trigs st ->
  apply_op (g_h st) (g_next st) o = (h', Some ev) ->
  let L := if notify_has (trig_sub_names cfg) trigs (ev_ent ev) then (ev_ent ev, ev_new ev) :: g_last st else g_last st in
  last_ok cfg trigs (mkG h' L (N.succ (g_next st))) /\ snapshot_ok (mkItem ev h' L).
Proof.
  intros Hinv Ap L. destruct (apply_op_event _ _ _ _ _ Ap) as [_ [_ Hh']].
  assert (Hinv2 : last_ok cfg trigs (mkG h' L (N.succ (g_next st)))).
  { intros x v. subst L. cbn [g_last g_h]. rewrite Hh'. destruct (N.eqb_spec x (ev_ent ev)) as [->|Hne].
    - destruct (notify_has (trig_sub_names cfg) trigs (ev_ent ev)) eqn:Hn; cbn [assoc].
      + rewrite N.eqb_refl. intros H. inversion H. split; reflexivity.
      + intros H. destruct (Hinv _ _ H) as [Hs _]. congruence.
    - destruct (notify_has (trig_sub_names cfg) trigs (ev_ent ev)); cbn [assoc];
        [rewrite (proj2 (N.eqb_neq _ _) Hne)|]; exact (Hinv x v). }
  split; [exact Hinv2|]. split; cbn [it_hass it_last it_ev].
  - intros x v Hx. exact (proj2 (Hinv2 x v Hx)).
  - rewrite Hh', N.eqb_refl. reflexivity.
Qed.

(* a burst of at most one write: the trigger tasks run before anything else changes *)
Lemma settled_reads cfg trigs b st st' pushes :
  d_late_read cfg = false \/ (length b <= 1)%nat -> burst_events cfg trigs st b = (st', pushes) ->
  Forall (fun p => reads_event cfg (g_h st') (snd p)) (hist_events (g_h st) (g_next st) b).
Proof.
  unfold reads_event. intros [->|Hlen] Be; [apply Forall_forall; reflexivity|].
  destruct b as [|o [|o2 r]]; [constructor| |cbn in Hlen; lia].
  cbn [burst_events hist_events] in *. destruct (apply_op (g_h st) (g_next st) o) as [h' [ev|]]; [|constructor].
  destruct (state_update _ _ _ _ _). inversion Be. repeat constructor. cbn. destruct (d_late_read cfg); reflexivity.
Qed.

Definition settled (hist : list (list op)) : Prop := Forall (fun b => (length b <= 1)%nat) hist.

(* [sel]: the observed projection of the runs (one decorator, or one function); [spec_ev]: the property's verdict per event;
   [Hev]: the statement for the queue entries of one event *)
Section Proj.
  Variables (cfg : sdev) (s : sys) (sel : run -> bool) (spec_ev : event * hass -> list run).
  Hypothesis Hev : forall hnow it,
    snapshot_ok it -> reads_event cfg hnow (it_hass it) ->
    filter sel (flat_map (decide_push cfg (s_legacy s) hnow) (flat_map (pushes_of cfg it) (s_trigs s))) = spec_ev (it_ev it, it_hass it).
  (* the order in which a burst's runs start does not matter for this projection *)
  Hypothesis Hproj : forall hnow pushes,
    filter sel (burst_runs cfg (s_legacy s) hnow pushes) = filter sel (flat_map (decide_push cfg (s_legacy s) hnow) pushes).

  Lemma burst_proj hnow rest :
    forall ops st st' pushes,
      last_ok cfg (s_trigs s) st ->
      burst_events cfg (s_trigs s) st ops = (st', pushes) ->
      Forall (fun p => reads_event cfg hnow (snd p)) (hist_events (g_h st) (g_next st) ops) ->
      last_ok cfg (s_trigs s) st'
      /\ flat_map spec_ev (hist_events (g_h st) (g_next st) (ops ++ rest))
         = filter sel (flat_map (decide_push cfg (s_legacy s) hnow) pushes)
           ++ flat_map spec_ev (hist_events (g_h st') (g_next st') rest).
  Proof.
    induction ops as [|o r IH]; intros st st' pushes Hinv Be Hnow.
    - cbn in Be. inversion Be; subst. split; [exact Hinv|reflexivity].
    - cbn [burst_events] in Be. cbn [hist_events] in Hnow. cbn [app hist_events].
      destruct (apply_op (g_h st) (g_next st) o) as [h' [ev|]] eqn:Ap.
      + destruct (last_ok_step _ _ _ _ _ _ Hinv Ap) as [Hinv2 Hit]. rewrite state_update_eq in Be. cbv beta iota zeta in Be.
        set (L := if notify_has _ _ _ then _ else _) in *.
        destruct (burst_events cfg (s_trigs s) (mkG h' L (N.succ (g_next st))) r) as [st2 more] eqn:Be2.
        inversion Be; subst st' pushes. clear Be. inversion Hnow as [|? ? HnowP Hnowr]; subst.
        destruct (IH _ _ _ Hinv2 Be2 Hnowr) as [Hinv' Hruns]. split; [exact Hinv'|].
        cbn [flat_map g_h g_next] in *. rewrite Hruns, flat_map_app, filter_app, <- app_assoc. f_equal. symmetry.
        exact (Hev hnow (mkItem ev h' L) Hit HnowP).
      + apply apply_op_noevent in Ap. subst h'. exact (IH (mkG (g_h st) (g_last st) (N.succ (g_next st))) _ _ Hinv Be Hnow).
  Qed.

  Lemma history_proj :
    forall hist st,
      last_ok cfg (s_trigs s) st ->
      (d_late_read cfg = false \/ settled hist) ->
      filter sel (run_bursts cfg s st hist) = flat_map spec_ev (hist_events (g_h st) (g_next st) (concat hist)).
  Proof.
    induction hist as [|b r IH]; intros st Hinv Hs; [reflexivity|].
    cbn [run_bursts concat]. destruct (burst_events cfg (s_trigs s) st b) as [st' pushes] eqn:Be.
    assert (Hb : d_late_read cfg = false \/ (length b <= 1)%nat)
      by (destruct Hs as [H|H]; [left; exact H|right; exact (Forall_inv H)]).
    assert (Hr : d_late_read cfg = false \/ settled r)
      by (destruct Hs as [H|H]; [left; exact H|right; exact (Forall_inv_tail H)]).
    destruct (burst_proj (g_h st') (concat r) b st st' pushes Hinv Be (settled_reads _ _ _ _ _ _ Hb Be)) as [Hinv' ->].
    rewrite filter_app, Hproj. f_equal. apply IH; [exact Hinv'|exact Hr].
  Qed.
End Proj.

Definition tid_is (tid : N) (r : run) : bool := N.eqb (r_tid r) tid.
Definition push_is (tid : N) (p : trig * item) : bool := N.eqb (t_id (fst p)) tid.

Lemma filter_decide_push cfg legacy hnow tid l :
  filter (tid_is tid) (flat_map (decide_push cfg legacy hnow) l)
  = flat_map (decide_push cfg legacy hnow) (filter (push_is tid) l).
Proof.
  apply filter_flat_map. intros p. unfold decide_push, tid_is, push_is.
  destruct (decide _ _ _ _ _), (N.eqb (t_id (fst p)) tid) eqn:E; cbn; rewrite ?E; reflexivity.
Qed.

Lemma filter_pushes cfg it tid trigs :
  filter (push_is tid) (flat_map (pushes_of cfg it) trigs)
  = flat_map (pushes_of cfg it) (filter (fun q => N.eqb (t_id q) tid) trigs).
Proof.
  apply filter_flat_map. intros q. unfold pushes_of, push_is.
  destruct (subscribed _ q _), (N.eqb (t_id q) tid) eqn:E; cbn; rewrite ?E; reflexivity.
Qed.

Lemma dedup_In x l : In x (dedup l) <-> In x l.
Proof.
  induction l as [|a r IH]; cbn [dedup In]; [tauto|].
  rewrite filter_In, IH, negb_true_iff, N.eqb_neq. destruct (N.eq_dec a x); intuition congruence.
Qed.

Lemma dedup_NoDup l : NoDup (dedup l).
Proof.
  induction l as [|a r IH]; cbn [dedup]; constructor; [|apply NoDup_filter, IH].
  rewrite filter_In, N.eqb_refl. intros [_ H]. discriminate H.
Qed.

(* grouping the runs of a burst by trigger does not change any single trigger's runs *)
Lemma burst_runs_proj cfg legacy hnow pushes tid :
  filter (tid_is tid) (burst_runs cfg legacy hnow pushes)
  = filter (tid_is tid) (flat_map (decide_push cfg legacy hnow) pushes).
Proof.
  unfold burst_runs. destruct (d_grouped_order cfg); [|reflexivity]. rewrite (filter_decide_push _ _ _ _ pushes).
  set (G := fun t => flat_map (decide_push cfg legacy hnow) (filter (push_is t) pushes)).
  set (ks := dedup (map (fun p => t_id (fst p)) pushes)).
  change (filter (tid_is tid) (flat_map G ks) = G tid).
  (* the entries of group t all belong to decorator t: of the groups, only that of [tid] is left *)
  rewrite (filter_flat_map (tid_is tid) (fun t => N.eqb t tid) G).
  2:{ intros t. unfold G. rewrite filter_decide_push. destruct (N.eqb_spec t tid) as [->|Hne].
      - rewrite filter_all; [reflexivity|]. intros p Hp. apply filter_In in Hp. exact (proj2 Hp).
      - rewrite filter_none; [reflexivity|]. intros p Hp. apply filter_In in Hp. destruct Hp as [_ Hp].
        apply N.eqb_eq in Hp. apply N.eqb_neq. unfold push_is in *. congruence. }
  destruct (in_dec N.eq_dec tid ks) as [Hin|Hout].
  - rewrite (filter_key_uniq _ N.eqb_eq (fun t => t) ks tid); [apply app_nil_r|rewrite map_id; apply dedup_NoDup|exact Hin].
  - (* a decorator without an entry in the burst has no group, and no runs *)
    unfold G. rewrite filter_none, (filter_none (push_is tid)); [reflexivity| |].
    + intros p Hp. apply N.eqb_neq. intros E. apply Hout, dedup_In. rewrite <- E. exact (in_map (fun p => t_id (fst p)) _ _ Hp).
    + intros t Ht. apply N.eqb_neq. intros ->. exact (Hout Ht).
Qed.

Theorem trig_runs_general cfg s T h0 hist :
  NoDup (map t_id (s_trigs s)) -> In T (s_trigs s) -> benign cfg (s_legacy s) T ->
  (d_late_read cfg = false \/ settled hist) ->
  trig_runs cfg s (t_id T) h0 hist = spec_trig_runs T h0 hist.
Proof.
  intros Hnd Hin Hb Hs. unfold trig_runs, run_history, spec_trig_runs.
  apply (history_proj cfg s (tid_is (t_id T)) (one_run T)); [|intros; apply burst_runs_proj|apply last_ok_init|exact Hs].
  (* one event: of everything it causes, the entries of T are those made for T *)
  intros hnow it Hit Hnow.
  rewrite filter_decide_push, filter_pushes, (filter_key_uniq _ N.eqb_eq t_id _ T Hnd Hin). cbn [flat_map]. rewrite app_nil_r.
  apply push_runs; assumption.
Qed.

(* C04, first sentence, for conformant code, both subsystems *)
Theorem trig_runs_spec s T h0 hist :
  NoDup (map t_id (s_trigs s)) -> In T (s_trigs s) ->
  trig_runs sdev_off s (t_id T) h0 hist = spec_trig_runs T h0 hist.
Proof.
  intros Hnd Hin. apply trig_runs_general; [exact Hnd|exact Hin|apply benign_off|left; reflexivity].
Qed.

(* with every switch on *)
Theorem trig_runs_code_settled s T h0 hist :
  NoDup (map t_id (s_trigs s)) -> In T (s_trigs s) ->
  t_watch T = None -> no_aold T -> settled hist ->
  trig_runs sdev_code s (t_id T) h0 hist = spec_trig_runs T h0 hist.
Proof.
  intros Hnd Hin Hw Hno Hs. apply trig_runs_general; [exact Hnd|exact Hin|apply benign_no_watch; assumption|right; exact Hs].
Qed.

Definition fn_is (fn : N) (r : run) : bool := N.eqb (r_fn r) fn.
(* as [one_run], for [spec_fn_runs] *)
Definition fn_spec_ev (s : sys) (fn : N) (p : event * hass) : list run :=
  flat_map (fun T => if N.eqb (t_fn T) fn && qualifies T (fst p) (snd p) then [mk_run T (fst p)] else []) (s_trigs s).

Lemma event_fn_runs cfg legacy hnow fn it :
  snapshot_ok it -> reads_event cfg hnow (it_hass it) ->
  forall l,
    (forall T, In T l -> benign cfg legacy T) ->
    filter (fn_is fn) (flat_map (decide_push cfg legacy hnow) (flat_map (pushes_of cfg it) l))
    = flat_map (fun T => if N.eqb (t_fn T) fn && qualifies T (it_ev it) (it_hass it) then [mk_run T (it_ev it)] else []) l.
Proof.
  intros Hit Hnow. induction l as [|T r IH]; intros Hb; [reflexivity|].
  cbn [flat_map]. rewrite flat_map_app, filter_app, (push_runs cfg legacy hnow T it Hit (Hb T (or_introl eq_refl)) Hnow).
  rewrite IH; [|intros T' HT'; apply Hb; right; exact HT']. f_equal.
  unfold one_run, fn_is. cbn [fst snd]. destruct (qualifies T _ _); cbn; [destruct (N.eqb (t_fn T) fn)|rewrite andb_false_r]; reflexivity.
Qed.

Theorem fn_runs_general cfg s fn h0 hist :
  (forall T, In T (s_trigs s) -> benign cfg (s_legacy s) T) ->
  d_grouped_order cfg = false ->
  (d_late_read cfg = false \/ settled hist) ->
  fn_runs cfg s fn h0 hist = spec_fn_runs s fn h0 hist.
Proof.
  intros Hb Hg Hs. unfold fn_runs, run_history, spec_fn_runs.
  apply (history_proj cfg s (fn_is fn) (fn_spec_ev s fn)); [| |apply last_ok_init|exact Hs].
  - intros hnow it Hit Hnow. exact (event_fn_runs cfg (s_legacy s) hnow fn it Hit Hnow (s_trigs s) Hb).
  - intros hnow pushes. unfold burst_runs. rewrite Hg. reflexivity.
Qed.

(* C04, second sentence (order), for conformant code *)
Theorem fn_runs_spec s fn h0 hist : fn_runs sdev_off s fn h0 hist = spec_fn_runs s fn h0 hist.
Proof. apply fn_runs_general; [intros T _; apply benign_off|reflexivity|left; reflexivity]. Qed.

Definition evid (p : event * hass) : N := ev_id (fst p).

Lemma hist_events_ids : forall ops h id,
  StronglySorted N.lt (map evid (hist_events h id ops))
  /\ forall lo, (lo < id)%N -> Forall (N.lt lo) (map evid (hist_events h id ops)).
Proof.
  induction ops as [|o r IH]; intros h id; cbn [hist_events]; [split; constructor|].
  destruct (apply_op h id o) as [h' [ev|]] eqn:Ap; destruct (IH h' (N.succ id)) as [Hs Hlo].
  - destruct (apply_op_event _ _ _ _ _ Ap) as [Hid _]. cbn [map]. unfold evid at 1 3. cbn [fst]. rewrite Hid.
    split; [|intros lo Hlt]; constructor; auto; apply Hlo; lia.
  - split; [exact Hs|]. intros lo Hlt. apply Hlo. lia.
Qed.

Definition spec_part (T : trig) (evs : list (event * hass)) : list run :=
  flat_map (fun p => if qualifies T (fst p) (snd p) then [mk_run T (fst p)] else []) evs.

Lemma spec_part_app T a b : spec_part T (a ++ b) = spec_part T a ++ spec_part T b.
Proof. unfold spec_part. apply flat_map_app. Qed.

Lemma spec_part_ids T evs :
  map r_ev (spec_part T evs) = map evid (filter (fun p => qualifies T (fst p) (snd p)) evs).
Proof.
  induction evs as [|p r IH]; cbn [spec_part flat_map filter]; [reflexivity|].
  rewrite map_app. fold (spec_part T r). rewrite IH. destruct (qualifies T (fst p) (snd p)); reflexivity.
Qed.

Theorem spec_trig_runs_sorted T h0 hist : StronglySorted N.lt (map r_ev (spec_trig_runs T h0 hist)).
Proof.
  change (spec_trig_runs T h0 hist) with (spec_part T (hist_events h0 1 (concat hist))). rewrite spec_part_ids.
  apply sorted_map_filter, hist_events_ids.
Qed.

(* one decorator's runs start in event order, none lost or duplicated, also in bursts *)
Theorem trig_runs_sorted s T h0 hist :
  NoDup (map t_id (s_trigs s)) -> In T (s_trigs s) ->
  StronglySorted N.lt (map r_ev (trig_runs sdev_off s (t_id T) h0 hist)).
Proof. intros Hnd Hin. rewrite (trig_runs_spec s T h0 hist Hnd Hin). apply spec_trig_runs_sorted. Qed.

Lemma sorted_le_app_const c l1 l2 :
  Forall (eq c) l1 -> Forall (N.le c) l2 -> StronglySorted N.le l2 -> StronglySorted N.le (l1 ++ l2).
Proof.
  intros H1 H2 Hs. induction H1 as [|x l1 <- H1 IH]; cbn [app]; [exact Hs|]. constructor; [exact IH|].
  apply Forall_app. split; [|exact H2]. apply (Forall_impl _ (fun y (E : c = y) => N.eq_le_incl _ _ E) H1).
Qed.

Lemma sorted_flat_map {A B} (ka : A -> N) (kb : B -> N) (F : A -> list B) l :
  (forall a b, In b (F a) -> kb b = ka a) ->
  StronglySorted N.lt (map ka l) -> StronglySorted N.le (map kb (flat_map F l)).
Proof.
  intros HF. induction l as [|a r IH]; cbn [map flat_map]; intros Hs; [constructor|].
  inversion Hs as [|? ? Hs' Hlt]; subst. rewrite map_app. rewrite Forall_map, Forall_forall in Hlt.
  apply (sorted_le_app_const (ka a)); [| |apply IH; exact Hs']; apply Forall_map, Forall_forall; intros b Hb.
  - symmetry. apply HF. exact Hb.
  - apply in_flat_map in Hb. destruct Hb as [a' [Ha' Hb]]. rewrite (HF _ _ Hb). apply N.lt_le_incl, Hlt, Ha'.
Qed.

Lemma fn_spec_ev_in s fn p r : In r (fn_spec_ev s fn p) -> exists T, In T (s_trigs s) /\ r = mk_run T (fst p).
Proof.
  intros Hin. apply in_flat_map in Hin. destruct Hin as [T [HT Hin]].
  destruct (N.eqb (t_fn T) fn && qualifies T (fst p) (snd p)); [|destruct Hin].
  destruct Hin as [<-|[]]. exists T. split; [exact HT|reflexivity].
Qed.

Theorem spec_fn_runs_sorted s fn h0 hist : StronglySorted N.le (map r_ev (spec_fn_runs s fn h0 hist)).
Proof.
  apply (sorted_flat_map evid r_ev (fn_spec_ev s fn)); [|apply hist_events_ids].
  intros p r Hr. destruct (fn_spec_ev_in _ _ _ _ Hr) as [T [_ ->]]. reflexivity.
Qed.

Theorem fn_runs_sorted s fn h0 hist : StronglySorted N.le (map r_ev (fn_runs sdev_off s fn h0 hist)).
Proof. rewrite fn_runs_spec. apply spec_fn_runs_sorted. Qed.

Lemma sorted_nondecreasing l : StronglySorted N.le l -> nondecreasing l = true.
Proof.
  induction l as [|x r IH]; intros H; [reflexivity|]. inversion H as [|? ? Hs Hf]; subst.
  destruct r as [|y r']; [reflexivity|]. cbn [nondecreasing]. inversion Hf; subst.
  apply andb_true_iff. split; [apply N.leb_le; assumption|apply IH; exact Hs].
Qed.

(* func_args.update(kwargs) *)
Theorem merge_kw_lookup std user k :
  assoc k (merge_kw std user) = match assoc k user with Some u => Some u | None => assoc k std end.
Proof.
  unfold merge_kw.
  rewrite assoc_app, (assoc_map (fun k v => match assoc k user with Some u => u | None => v end)),
    (assoc_filter_key (fun k => negb (existsb (N.eqb k) (map fst std)))), assoc_keys.
  destruct (assoc k std), (assoc k user); reflexivity.
Qed.

(* the keys are read from state_changed by the translator *)
Theorem std_kw_values ev :
  assoc key_trigger_type (std_kw ev) = Some KTypeState
  /\ assoc key_var_name (std_kw ev) = Some (KEnt (ev_ent ev))
  /\ assoc key_value (std_kw ev) = Some (match ev_new ev with Some s => KSv s | None => KNone end)
  /\ assoc key_old_value (std_kw ev) = Some (match ev_old ev with Some s => KSv s | None => KNone end)
  /\ assoc key_context (std_kw ev) = Some (KCtx (ev_id ev)).
Proof. repeat split; reflexivity. Qed.

Theorem spec_trig_runs_in T h0 hist r :
  In r (spec_trig_runs T h0 hist) ->
  exists ev S, In (ev, S) (hist_events h0 1 (concat hist)) /\ qualifies T ev S = true /\ r = mk_run T ev.
Proof.
  intros Hr. apply in_flat_map in Hr. destruct Hr as [[ev S] [Hp Hr]]. cbn [fst snd] in Hr.
  destruct (qualifies T ev S) eqn:Q; [|destruct Hr]. destruct Hr as [<-|[]].
  exists ev, S. repeat split; [exact Hp|exact Q].
Qed.

Theorem trig_runs_of_event s T h0 hist r :
  NoDup (map t_id (s_trigs s)) -> In T (s_trigs s) ->
  In r (trig_runs sdev_off s (t_id T) h0 hist) ->
  exists ev S, In (ev, S) (hist_events h0 1 (concat hist)) /\ qualifies T ev S = true /\ r = mk_run T ev.
Proof. intros Hnd Hin. rewrite (trig_runs_spec s T h0 hist Hnd Hin). apply spec_trig_runs_in. Qed.

(* each deviation alone refutes the property: one witness each (replayed on the real code by the check, see
   known_findings.d/C04.json) *)
Definition only_D40 := {| d_late_read := true; d_undef_raises := false; d_noexpr_runs := false; d_grouped_order := false; d_watch_hides_any := false |}.
Definition only_D41 := {| d_late_read := false; d_undef_raises := true; d_noexpr_runs := false; d_grouped_order := false; d_watch_hides_any := false |}.
Definition only_D42 := {| d_late_read := false; d_undef_raises := false; d_noexpr_runs := true; d_grouped_order := false; d_watch_hides_any := false |}.
Definition only_D43 := {| d_late_read := false; d_undef_raises := false; d_noexpr_runs := false; d_grouped_order := true; d_watch_hides_any := false |}.
Definition only_D44 := {| d_late_read := false; d_undef_raises := false; d_noexpr_runs := false; d_grouped_order := false; d_watch_hides_any := true |}.

Definition mkT (id fn : N) (args : list arg) (w : option (list name)) : trig :=
  {| t_id := id; t_fn := fn; t_args := args; t_watch := w; t_kwargs := [] |}.

(* [cfg] refutes the first sentence of C04; a script of one decorator suffices *)
Definition refutes_runs (cfg : sdev) : Prop := exists s T h0 hist,
  NoDup (map t_id (s_trigs s)) /\ In T (s_trigs s) /\ trig_runs cfg s (t_id T) h0 hist <> spec_trig_runs T h0 hist.

Lemma refutes_runs_single cfg legacy T h0 hist :
  trig_runs cfg {| s_legacy := legacy; s_trigs := [T] |} (t_id T) h0 hist <> spec_trig_runs T h0 hist -> refutes_runs cfg.
Proof.
  intros H. exists {| s_legacy := legacy; s_trigs := [T] |}, T, h0, hist.
  split; [repeat constructor; intros []|]. split; [left; reflexivity|exact H].
Qed.

(* D40: e1 exists before the trigger starts; burst e0 := s1, e1 := s1.  At the first event e1 is still s0. *)
Definition w40_T := mkT 0 0 [AExpr (BAnd (BEqC (TVal 0) (CStr 1)) (BEqC (TVal 1) (CStr 0)))] None.
(* D41: watch=[e0], expression e1 == None, e1 undefined *)
Definition w41_T := mkT 0 0 [AExpr (BEqC (TVal 1) CNone)] (Some [NEnt 0]).
(* D42: default subsystem, only the any-change form "e0.x0", watch={e0}: a value change runs the function *)
Definition w42_T := mkT 0 0 [AExpr (BTruthy (TAttr 0 0))] (Some [NEnt 0]).
(* D44: any-change form "e1" with watch=[e0] *)
Definition w44_T := mkT 0 0 [AExpr (BTruthy (TVal 1))] (Some [NEnt 0]).

(* the converse of [trig_runs_general] over all scripts: each of the four switches refutes whatever the others are set to.
   The witness of the first one that is on does not meet the others, but for D43 and D44 being read on the way *)
Theorem refutes_runs_unless cfg :
  d_late_read cfg || d_undef_raises cfg || d_noexpr_runs cfg || d_watch_hides_any cfg = true -> refutes_runs cfg.
Proof.
  destruct cfg as [lr ur nr go wh]. cbn. intros Hon.
  destruct lr.
  { apply (refutes_runs_single _ true w40_T [(1, mkSv 0 [])] [[OSet 0 1 []; OSet 1 1 []]]).
    destruct go; intros H; vm_compute in H; discriminate H. }
  destruct ur.
  { apply (refutes_runs_single _ true w41_T [] [[OSet 0 1 []]]). destruct go, wh; intros H; vm_compute in H; discriminate H. }
  destruct nr.
  { apply (refutes_runs_single _ false w42_T [] [[OSet 0 0 []]]). destruct go, wh; intros H; vm_compute in H; discriminate H. }
  destruct wh; [|discriminate Hon].
  apply (refutes_runs_single _ true w44_T [] [[OSet 1 1 []]]). destruct go; intros H; vm_compute in H; discriminate H.
Qed.

(* D43: two decorators on one function, burst e0, e1, e0: the runs start as events 1, 3, 2 *)
Definition w43_s := {| s_legacy := true; s_trigs := [mkT 0 0 [AExpr (BTruthy (TVal 0))] None; mkT 1 0 [AExpr (BTruthy (TVal 1))] None] |}.
Theorem grouped_order_refutes cfg : d_grouped_order cfg = true -> exists s fn h0 hist,
  NoDup (map t_id (s_trigs s)) /\ fn_runs cfg s fn h0 hist <> spec_fn_runs s fn h0 hist
  /\ ~ StronglySorted N.le (map r_ev (fn_runs cfg s fn h0 hist)).
Proof.
  destruct cfg as [lr ur nr go wh]. cbn. intros ->.
  exists w43_s, 0, [], [[OSet 0 0 []; OSet 1 0 []; OSet 0 1 []]].
  split; [repeat constructor; cbn; intuition discriminate|]. split.
  - intros H. vm_compute in H. discriminate H.
  - intros H. apply sorted_nondecreasing in H. vm_compute in H. discriminate H.
Qed.

Definition ex_T0 := mkT 0 0 [AExpr (BAnd (BEqC (TVal 0) (CStr 1)) (BNeT (TVal 0) (TOld 0))); AStarArg 1] None.
Definition ex_T1 := {| t_id := 1; t_fn := 0; t_args := [AExpr (BEqC (TAttr 1 0) (CInt 2))]; t_watch := Some [NAttr 1 0; NEnt 0];
                       t_kwargs := [(key_var_name, KInt 7); (5%N, KInt 1)] |}.
Definition ex_sys := {| s_legacy := false; s_trigs := [ex_T0; ex_T1] |}.
Definition ex_hist : list (list op) :=
  [[OSet 0 1 []]; [OSet 1 0 [(0%N, 2%N)]; OSet 0 1 [(1%N, 1%N)]; OSet 1 0 []]; [ODel 0; OSet 0 1 []]].

Example ex_nodup : NoDup (map t_id (s_trigs ex_sys)).
Proof. repeat constructor; cbn; intuition discriminate. Qed.

(* bursts, deletes and attribute-only updates; both decorators run and skip events *)
Example ex_runs_nontrivial :
  map r_ev (trig_runs sdev_off ex_sys 0 [] ex_hist) = [1; 2; 4; 6]%N
  /\ map r_ev (trig_runs sdev_off ex_sys 1 [] ex_hist) = [2]%N
  /\ map r_ev (fn_runs sdev_off ex_sys 0 [] ex_hist) = [1; 2; 2; 4; 6]%N.
Proof. vm_compute. repeat split. Qed.

Example ex_benign_code_settled :
  benign sdev_code (s_legacy ex_sys) ex_T0 /\ t_watch ex_T0 = None /\ no_aold ex_T0
  /\ settled [[OSet 0 1 []]; [OSet 1 0 [(0%N, 2%N)]]; []; [ODel 0]].
Proof.
  assert (Hno : no_aold ex_T0). { intros e H. vm_compute in H. intuition discriminate. }
  split; [apply benign_no_watch; [reflexivity|exact Hno]|]. split; [reflexivity|]. split; [exact Hno|]. repeat constructor.
Qed.

Definition case_wf (c : scase) : Prop :=
  NoDup (map t_id (sc_trigs c)) /\ forall T, In T (sc_trigs c) -> assoc key_context (t_kwargs T) = None.

Lemma kw_eqb_lookup a b k v :
  kw_eqb a b = true -> assoc k a = Some v -> exists w, assoc k b = Some w /\ kwval_eqb v w = true.
Proof.
  intros H Ha. unfold kw_eqb in H. rewrite forallb_forall in H.
  specialize (H k (in_or_app _ _ _ (or_introl (assoc_some_in_keys _ _ _ Ha)))). rewrite Ha in H.
  destruct (assoc k b) as [w|]; [|discriminate]. exists w. split; [reflexivity|exact H].
Qed.

Lemma runs_match_evids ms : forall os,
  (forall m, In m ms -> assoc key_context (r_kw m) = Some (KCtx (r_ev m))) ->
  runs_match ms os = true -> map o_evid os = map r_ev ms.
Proof.
  induction ms as [|m r IH]; intros [|o os] Hm H; cbn [runs_match] in H; try discriminate; [reflexivity|].
  apply andb_true_iff in H. destruct H as [H1 H2]. cbn [map]. f_equal.
  - unfold run_matches in H1. rewrite !andb_true_iff in H1. destruct H1 as [[[_ _] Hk] _].
    destruct (kw_eqb_lookup _ _ _ _ Hk (Hm m (or_introl eq_refl))) as [w [Hw E]]. unfold o_evid. rewrite Hw.
    destruct w; try discriminate E. apply N.eqb_eq in E. symmetry. exact E.
  - apply IH; [intros m' Hm'; apply Hm; right; exact Hm'|exact H2].
Qed.

Theorem scase_model_implies_spec c : case_wf c -> scase_model_ok sdev_off c = true -> scase_spec_ok c = true.
Proof.
  intros [Hnd Hctx] H. unfold scase_model_ok in H. unfold scase_spec_ok.
  apply andb_true_iff in H as [H Hf]. apply andb_true_iff in H as [Hca Ht]. rewrite forallb_forall in Ht, Hf.
  rewrite Hca. cbn [andb]. apply andb_true_iff. split; apply forallb_forall.
  - (* per decorator *)
    intros T HT. rewrite <- (trig_runs_spec (case_sys c) T (sc_init c) (sc_hist c) Hnd HT). exact (Ht T HT).
  - (* per function: the observed runs match the Model's, so they carry its event numbers, which are in order *)
    intros f Hfn. specialize (Hf f Hfn).
    change (filter (fun r => N.eqb (r_fn r) f) (run_history sdev_off (case_sys c) (sc_init c) (sc_hist c)))
      with (fn_runs sdev_off (case_sys c) f (sc_init c) (sc_hist c)) in Hf.
    rewrite (runs_match_evids (fn_runs sdev_off (case_sys c) f (sc_init c) (sc_hist c)) _); [| |exact Hf].
    + apply sorted_nondecreasing. apply fn_runs_sorted.
    + (* a run carries the context of its event unless the decorator's kwargs override it *)
      intros m Hm. rewrite fn_runs_spec in Hm. apply in_flat_map in Hm. destruct Hm as [p [_ Hm]].
      destruct (fn_spec_ev_in _ _ _ _ Hm) as [T [HT ->]].
      cbn [mk_run r_kw r_ev]. rewrite merge_kw_lookup, (Hctx T HT). reflexivity.
Qed.

Example ex_case_wf :
  case_wf {| sc_legacy := false; sc_init := []; sc_trigs := s_trigs ex_sys; sc_hist := ex_hist; sc_obs := []; sc_clean := true |}.
Proof. split; [exact ex_nodup|]. intros T [H|[H|[]]]; subst T; reflexivity. Qed.
