(* C08: exactly-once, in-order delivery for every schedule of the LTS of Trig/EventFlow.v, independence of consumption from
   runs, context parenting, exactness of event.fire.  The facts about reachable states are inductions by [reachable_ind], which
   offers the five forms a step can take; [fifo_inv] is the invariant behind delivery.  At the end: one refuting witness per
   deviation switch (D80-D82) and instances that meet the hypotheses of the theorems. *)
From PV Require Import Common.Util Trig.EventBase Gen.EventFlowConsts Trig.EventFlow.
From Coq Require Import Lia.

(* the tables generated from the source say what the documentation says *)
Lemma base_args_spec : forall legacy o, base_args legacy o = spec_base o.
Proof. intros [|] [[| |] key ep ctx attrs data opt]; reflexivity. Qed.

Lemma ctx_key_action_spec : forall legacy, ctx_key_action legacy = s_context.
Proof. intros [|]; reflexivity. Qed.

Lemma ctx_key_fire_spec : ctx_key_fire = s_context.
Proof. reflexivity. Qed.

Lemma upd_same {A} (f : nat -> A) i x : upd f i x i = x.
Proof. unfold upd. rewrite Nat.eqb_refl. reflexivity. Qed.

Lemma upd_other {A} (f : nat -> A) i j x : j <> i -> upd f i x j = f j.
Proof. intros H. unfold upd. destruct (Nat.eqb j i) eqn:E; [apply Nat.eqb_eq in E; congruence|reflexivity]. Qed.

Lemma mk_context_parent_indep S c c' K m : c_parent (mk_context S c K m) = c_parent (mk_context S c' K m).
Proof. reflexivity. Qed.

Lemma pending_nil S T : pending S T [] = [].
Proof. unfold pending. destruct (trig_at S T); [destruct (sy_legacy S)|]; reflexivity. Qed.

Lemma pending_app S T q1 q2 : pending S T (q1 ++ q2) = pending S T q1 ++ pending S T q2.
Proof.
  unfold pending. destruct (trig_at S T) as [tr|]; [|reflexivity].
  destruct (sy_legacy S); [rewrite filter_app|]; rewrite map_app; reflexivity.
Qed.

Lemma model_runs_app S T o1 o2 : model_runs S T (o1 ++ o2) = model_runs S T o1 ++ model_runs S T o2.
Proof.
  unfold model_runs. destruct (trig_at S T) as [tr|]; [|reflexivity].
  rewrite filter_app, map_app. reflexivity.
Qed.

Lemma pending_deliver S T o : pending S T (deliver S T o) = model_runs S T [o].
Proof.
  unfold pending, deliver, model_runs, matches, expected_parent, mk_context, run_kwargs.
  destruct (trig_at S T) as [tr|]; [|reflexivity]. cbn [filter].
  destruct (sy_live S T && subscribed tr o), (sy_legacy S); cbn [andb filter m_args]; try reflexivity;
    destruct (passes tr (base_args _ o)); reflexivity.
Qed.

(* every step is built from [bus], [emit], [begun] and [start_run] or [dequeue] *)
Definition begun (st : state) (r : nat) : state :=
  {| st_q := st_q st; st_occs := st_occs st; st_runs := set_begun (st_runs st) r; st_acts := st_acts st |}.
Definition dequeue (st : state) (T : nat) (rest : list msg) : state :=
  {| st_q := upd (st_q st) T rest; st_occs := st_occs st; st_runs := st_runs st; st_acts := st_acts st |}.

Lemma step_run_preserves S (P : state -> Prop) :
  (forall st o, P st -> P (bus S st o)) ->
  (forall st e rn, P st -> nth_error (st_runs st) (em_run e) = Some rn ->
                   (em_explicit e = false -> em_ctx e = r_ctx rn) -> P (emit st e)) ->
  (forall st r, P st -> P (begun st r)) ->
  forall st r a st', P st -> step_run S st r a = Some st' -> P st'.
Proof.
  intros Hbus Hemit Hbegun st r a st' H E. unfold step_run in E.
  destruct (nth_error (st_runs st) r) as [rn|] eqn:ER; [|discriminate].
  (* every action but AInternal is guarded by a test: only the passing branch is a step *)
  destruct a as [kw c|key given data c ep|c|c|];
    try (match type of E with (if ?b then _ else _) = _ => destruct b end; [|discriminate]);
    injection E as <-.
  - (* ABegin *) apply Hbegun, H.
  - (* AFire *) apply Hbus. eapply Hemit; [exact H|exact ER|]. cbn. destruct (fire_explicit given); [discriminate|reflexivity].
  - (* ASet *) eapply Hemit; [exact H|exact ER|reflexivity].
  - (* ACall *) eapply Hemit; [exact H|exact ER|reflexivity].
  - (* AInternal *) exact H.
Qed.

(* a consumption starts the run that [pending] promised for the head of the queue, if any *)
Lemma consume_cases S (P : state -> Prop) st T c st' : consume S st T c = Some st' ->
  (forall tr m rest K, trig_at S T = Some tr -> st_q st T = m :: rest ->
     pending S T (m :: rest) = (K, c_parent (mk_context S c K (m_occ m))) :: pending S T rest ->
     P (start_run S st T tr K c (m_occ m) rest)) ->
  (forall m rest, st_q st T = m :: rest -> pending S T (m :: rest) = pending S T rest -> P (dequeue st T rest)) ->
  P st'.
Proof.
  unfold consume, pending. destruct (trig_at S T) as [tr|]; [|discriminate].
  destruct (st_q st T) as [|m rest]; [discriminate|]. intros E Hstart Hdeq.
  specialize (Hstart tr m rest). specialize (Hdeq m rest). cbn [filter] in *.
  destruct (sy_legacy S); [destruct (passes tr (m_args m))|]; injection E as <-.
  - apply Hstart; reflexivity.
  - apply Hdeq; reflexivity.
  - (* new subsystem: filtered when handed over *) apply Hstart; reflexivity.
Qed.

Lemma reachable_ind S (P : state -> Prop) :
  P init_state ->
  (forall st o, P st -> P (bus S st o)) ->
  (forall st e rn, P st -> nth_error (st_runs st) (em_run e) = Some rn ->
                   (em_explicit e = false -> em_ctx e = r_ctx rn) -> P (emit st e)) ->
  (forall st r, P st -> P (begun st r)) ->
  (forall st T tr m rest K c, P st -> trig_at S T = Some tr -> st_q st T = m :: rest ->
     pending S T (m :: rest) = (K, c_parent (mk_context S c K (m_occ m))) :: pending S T rest ->
     P (start_run S st T tr K c (m_occ m) rest)) ->
  (forall st T m rest, P st -> st_q st T = m :: rest -> pending S T (m :: rest) = pending S T rest ->
     P (dequeue st T rest)) ->
  forall ls st, run_lts S ls = Some st -> P st.
Proof.
  intros Hinit Hbus Hemit Hbegun Hstart Hdeq ls st. apply (fold_left_opt_inv P (step S)); [|exact Hinit].
  intros st0 [o|T c|r a] st1 H E; cbn [step] in E.
  - injection E as <-. apply Hbus, H.
  - apply (consume_cases S P st0 T c st1 E); [intros tr m rest K; apply Hstart, H|intros m rest; apply Hdeq, H].
  - exact (step_run_preserves S P Hbus Hemit Hbegun _ _ _ _ H E).
Qed.

Lemma started_start_run S st T tr K c mocc rest T' :
  started (start_run S st T tr K c mocc rest) T' =
  started st T' ++ (if Nat.eqb T' T then [(K, c_parent (mk_context S c K mocc))] else []).
Proof.
  unfold started, start_run; cbn [st_runs]. rewrite filter_app, map_app. cbn [filter r_trig].
  rewrite (Nat.eqb_sym T T'). destruct (Nat.eqb T' T); reflexivity.
Qed.

Lemma set_begun_proj {B} (f : run -> B) (g : run -> bool) :
  (forall x, f (mark_begun x) = f x) -> (forall x, g (mark_begun x) = g x) ->
  forall rs r, map f (filter g (set_begun rs r)) = map f (filter g rs).
Proof.
  intros Hf Hg. induction rs as [|x rs IH]; intros [|r]; cbn [set_begun filter]; try reflexivity.
  - rewrite Hg. destruct (g x); cbn [map]; [rewrite Hf|]; reflexivity.
  - destruct (g x); cbn [map]; rewrite IH; reflexivity.
Qed.

Lemma started_begun st r T : started (begun st r) T = started st T.
Proof. apply set_begun_proj; intros x; reflexivity. Qed.

Definition fifo_inv (S : sys) (st : state) : Prop :=
  forall T, started st T ++ pending S T (st_q st T) = model_runs S T (st_occs st).

Theorem fifo_invariant_model : forall S ls st, run_lts S ls = Some st -> fifo_inv S st.
Proof.
  intros S. apply (reachable_ind S (fifo_inv S)).
  - intros T. cbn [init_state st_q st_occs]. rewrite pending_nil. unfold model_runs. destruct (trig_at S T); reflexivity.
  - intros st o H T. change (started (bus S st o) T) with (started st T). cbn [bus st_q st_occs].
    rewrite pending_app, model_runs_app, app_assoc, H, pending_deliver. reflexivity.
  - intros st e rn H _ _. exact H.
  - intros st r H T. rewrite started_begun. exact (H T).
  - intros st T tr m rest K c H _ EQ EP T'. specialize (H T').
    rewrite started_start_run. cbn [start_run st_q st_occs]. unfold upd.
    destruct (Nat.eqb_spec T' T) as [->|NE]; [|rewrite app_nil_r; exact H].
    rewrite EQ, EP in H. rewrite <- app_assoc. exact H.
  - intros st T m rest H EQ EP T'. specialize (H T').
    change (started (dequeue st T rest) T') with (started st T'). cbn [dequeue st_q st_occs]. unfold upd.
    destruct (Nat.eqb_spec T' T) as [->|NE]; [|exact H].
    rewrite EQ, EP in H. exact H.
Qed.

Definition conformant (S : sys) : Prop := ctx_shadow S = false /\ forall T, sy_live S T = true.

Lemma matches_spec S T tr o : conformant S -> trig_at S T = Some tr -> matches S T o = spec_matches tr o.
Proof. intros [_ Hl] ET. unfold matches, spec_matches. rewrite ET, Hl, base_args_spec. reflexivity. Qed.

Lemma run_kwargs_spec legacy tr o : run_kwargs legacy tr o = spec_kwargs tr o.
Proof. unfold run_kwargs, spec_kwargs. rewrite base_args_spec. reflexivity. Qed.

Lemma expected_parent_spec S tr o : conformant S -> expected_parent S tr o = o_ctx o.
Proof. intros [E _]. unfold expected_parent. rewrite E. reflexivity. Qed.

Lemma model_runs_spec S T tr occs : conformant S -> trig_at S T = Some tr -> model_runs S T occs = spec_runs tr occs.
Proof.
  intros C ET. unfold model_runs, spec_runs. rewrite ET, (filter_ext _ _ (fun o => matches_spec S T tr o C ET)).
  apply map_ext. intros o. rewrite (expected_parent_spec S tr o C), run_kwargs_spec. reflexivity.
Qed.

Lemma mk_sys_conformant legacy trigs order : conformant (mk_sys all_off legacy trigs order).
Proof.
  split; [destruct legacy; reflexivity|]. intros T. cbn. unfold compute_live. cbn. rewrite orb_true_r. reflexivity.
Qed.

Theorem fifo_invariant : forall legacy trigs order ls st T tr,
  let S := mk_sys all_off legacy trigs order in
  run_lts S ls = Some st -> nth_error trigs T = Some tr ->
  started st T ++ pending S T (st_q st T) = spec_runs tr (st_occs st).
Proof.
  intros legacy trigs order ls st T tr S E ET.
  rewrite (fifo_invariant_model S ls st E T).
  apply model_runs_spec; [apply mk_sys_conformant|exact ET].
Qed.

(* at every moment nothing is started that the Spec does not demand, in the Spec's order *)
Corollary fifo_prefix : forall legacy trigs order ls st T tr,
  run_lts (mk_sys all_off legacy trigs order) ls = Some st -> nth_error trigs T = Some tr ->
  exists rest, spec_runs tr (st_occs st) = started st T ++ rest.
Proof. intros. eexists. symmetry. eapply fifo_invariant; eassumption. Qed.

(* nothing in the queue will start a run any more (legacy: only filtered-out messages left) *)
Definition drained (S : sys) (st : state) (T : nat) : Prop := pending S T (st_q st T) = [].

Lemma empty_queue_drained S st T : st_q st T = [] -> drained S st T.
Proof.
  intros E. unfold drained. rewrite E. apply pending_nil.
Qed.

Lemma quiescent_model S ls st T : run_lts S ls = Some st -> drained S st T -> started st T = model_runs S T (st_occs st).
Proof. intros E D. rewrite <- (fifo_invariant_model S ls st E T), D. symmetry. apply app_nil_r. Qed.

Corollary fifo_quiescent : forall legacy trigs order ls st T tr,
  let S := mk_sys all_off legacy trigs order in
  run_lts S ls = Some st -> nth_error trigs T = Some tr -> drained S st T ->
  started st T = spec_runs tr (st_occs st).
Proof.
  intros legacy trigs order ls st T tr S E ET D. rewrite (quiescent_model S ls st T E D).
  apply model_runs_spec; [apply mk_sys_conformant|exact ET].
Qed.

(* independence: consumption never waits for a run *)
Theorem consume_enabled_total : forall S st T c,
  trig_at S T <> None -> consume_enabled st T = true -> exists st', step S st (LConsume T c) = Some st'.
Proof.
  intros S st T c HT HE. cbn [step]. unfold consume, consume_enabled in *.
  destruct (trig_at S T) as [tr|]; [|congruence].
  destruct (st_q st T) as [|m rest]; [discriminate|].
  destruct (sy_legacy S); [destruct (passes tr (m_args m))|]; eexists; reflexivity.
Qed.

Lemma app_not_nil {A} (l1 l2 : list A) : l1 <> [] -> l1 ++ l2 <> [].
Proof. destruct l1; [congruence|discriminate]. Qed.

Theorem run_step_keeps_consume_enabled : forall S st r a st' T,
  step S st (LRun r a) = Some st' -> consume_enabled st T = true -> consume_enabled st' T = true.
Proof.
  intros S st r a st' T E HE. cbn [step] in E.
  refine (step_run_preserves S (fun s => consume_enabled s T = true) _ _ _ st r a st' HE E); try (intros; assumption).
  intros s o H. unfold consume_enabled in *. cbn [bus st_q]. destruct (st_q s T); [discriminate|reflexivity].
Qed.

(* a consumption depends on the queues only *)
Theorem consume_ignores_runs : forall S st1 st2 T c,
  st_q st1 T = st_q st2 T ->
  match consume S st1 T c, consume S st2 T c with
  | Some a, Some b => st_q a T = st_q b T /\
                      exists new, st_runs a = st_runs st1 ++ new /\ st_runs b = st_runs st2 ++ new
  | None, None => True
  | _, _ => False
  end.
Proof.
  intros S st1 st2 T c EQ. unfold consume. rewrite <- EQ.
  destruct (trig_at S T) as [tr|]; [|exact I].
  destruct (st_q st1 T) as [|m rest]; [exact I|].
  destruct (sy_legacy S); [destruct (passes tr (m_args m))|]; unfold start_run; cbn [st_q st_runs]; rewrite !upd_same;
    (split; [reflexivity|]).
  - eexists; split; reflexivity.
  - exists []. rewrite !app_nil_r. split; reflexivity.
  - eexists; split; reflexivity.
Qed.

(* run [i] exists and its HA context is [c]: stays true whatever is started or begun later *)
Definition ctx_at (rs : list run) (i : nat) (c : ctxv) : Prop := exists rn, nth_error rs i = Some rn /\ c = r_ctx rn.

Lemma ctx_at_set_begun rs r i c : ctx_at rs i c -> ctx_at (set_begun rs r) i c.
Proof.
  unfold ctx_at. revert r i. induction rs as [|x rs IH]; intros r i (rn & E & ->); [destruct i; discriminate|].
  destruct r as [|r], i as [|i]; cbn [set_begun nth_error] in *; eauto.
  injection E as <-. eauto.
Qed.

Lemma ctx_at_app rs new i c : ctx_at rs i c -> ctx_at (rs ++ new) i c.
Proof.
  intros (rn & E & ->). exists rn. split; [|reflexivity]. rewrite nth_error_app1; [exact E|]. apply nth_error_Some. congruence.
Qed.

Definition acts_inv (st : state) : Prop :=
  forall e, In e (st_acts st) -> em_explicit e = false -> ctx_at (st_runs st) (em_run e) (em_ctx e).

Lemma acts_inv_reachable S ls st : run_lts S ls = Some st -> acts_inv st.
Proof.
  apply (reachable_ind S acts_inv).
  - intros e [].
  - intros s o H. exact H.
  - intros s e rn H ER Hc e' Hin Hx. apply in_app_or in Hin as [Hin|[<-|[]]]; [exact (H e' Hin Hx)|].
    exists rn. exact (conj ER (Hc Hx)).
  - intros s r H e Hin Hx. apply ctx_at_set_begun, (H e Hin Hx).
  - intros s T tr m rest K c H _ _ _ e Hin Hx. apply ctx_at_app, (H e Hin Hx).
  - intros s T m rest H _ _. exact H.
Qed.

Lemma run_in_started st rn : In rn (st_runs st) -> In (r_kwargs rn, c_parent (r_ctx rn)) (started st (r_trig rn)).
Proof.
  intros H. unfold started. apply in_map_iff. exists rn. split; [reflexivity|].
  apply filter_In. split; [exact H|apply Nat.eqb_refl].
Qed.

Definition runs_wf (S : sys) (st : state) : Prop :=
  Forall (fun rn => exists tr, trig_at S (r_trig rn) = Some tr /\ r_func rn = t_func tr) (st_runs st).

Lemma set_begun_Forall (P : run -> Prop) : (forall x, P x -> P (mark_begun x)) ->
  forall rs r, Forall P rs -> Forall P (set_begun rs r).
Proof.
  intros HP. induction rs as [|x rs IH]; intros [|r] H; cbn [set_begun]; auto; inversion H; subst; constructor; auto.
Qed.

Lemma runs_wf_reachable S ls st : run_lts S ls = Some st -> runs_wf S st.
Proof.
  apply (reachable_ind S (runs_wf S)); try (intros; assumption).
  - constructor.
  - intros s r H. apply set_begun_Forall; [|exact H]. intros x Hx. exact Hx.
  - intros s T tr m rest K c H ET _ _. apply Forall_app. split; [exact H|]. constructor; [|constructor]. exists tr. split; [exact ET|reflexivity].
Qed.

(* whatever the switches, every run has behind it an occurrence that matched its decorator *)
Theorem run_justified : forall S ls st rn, run_lts S ls = Some st -> In rn (st_runs st) ->
  exists tr o, trig_at S (r_trig rn) = Some tr /\ r_func rn = t_func tr /\ In o (st_occs st) /\
               matches S (r_trig rn) o = true /\ r_kwargs rn = run_kwargs (sy_legacy S) tr o /\
               c_parent (r_ctx rn) = expected_parent S tr o.
Proof.
  intros S ls st rn E Ei.
  pose proof (runs_wf_reachable _ _ _ E) as W. unfold runs_wf in W. rewrite Forall_forall in W.
  destruct (W rn Ei) as (tr & ET & EF).
  (* the run is among those started for its decorator, all of which [model_runs] lists *)
  assert (HI : In (r_kwargs rn, c_parent (r_ctx rn)) (model_runs S (r_trig rn) (st_occs st))).
  { rewrite <- (fifo_invariant_model S ls st E). apply in_or_app. left. exact (run_in_started st rn Ei). }
  unfold model_runs in HI. rewrite ET in HI.
  apply in_map_iff in HI. destruct HI as (o & [= <- <-] & Io). apply filter_In in Io. destruct Io as [Io Mo].
  exists tr, o. exact (conj ET (conj EF (conj Io (conj Mo (conj eq_refl eq_refl))))).
Qed.

(* conformant: match and kwargs are the Spec's, the parent is the occurrence's context; what a run emits carries the run's *)
Theorem context_parent : forall legacy trigs order ls st,
  run_lts (mk_sys all_off legacy trigs order) ls = Some st ->
  (forall i rn, nth_error (st_runs st) i = Some rn ->
     exists tr o, nth_error trigs (r_trig rn) = Some tr /\ r_func rn = t_func tr /\ In o (st_occs st) /\
                  spec_matches tr o = true /\ r_kwargs rn = spec_kwargs tr o /\ c_parent (r_ctx rn) = o_ctx o) /\
  (forall e, In e (st_acts st) -> em_explicit e = false ->
     exists rn, nth_error (st_runs st) (em_run e) = Some rn /\ em_ctx e = r_ctx rn).
Proof.
  intros legacy trigs order ls st E. split.
  - intros i rn Ei. destruct (run_justified _ ls st rn E (nth_error_In _ _ Ei)) as (tr & o & ET & J).
    pose proof (mk_sys_conformant legacy trigs order) as C.
    rewrite (matches_spec _ _ tr o C ET), run_kwargs_spec, (expected_parent_spec _ tr o C) in J.
    exists tr, o. exact (conj ET J).
  - exact (acts_inv_reachable _ _ _ E).
Qed.

Lemma kw_get_set_other kw k k' v : k <> k' -> kw_get k (kw_set kw k' v) = kw_get k kw.
Proof.
  intros NE. rewrite (get_set_eqs N.eqb N.eqb_eq None Some kw_get (fun k v l => kw_set l k v)) by reflexivity.
  rewrite (proj2 (N.eqb_neq k k') NE). reflexivity.
Qed.

Lemma kw_get_update_notin k b : ~ In k (map fst b) -> forall a, kw_get k (kw_update a b) = kw_get k a.
Proof. intros NI a. unfold kw_update. apply (fold_left_inv (fun a' => kw_get k a' = kw_get k a)); [|reflexivity]. intros a' x Hx <-. apply kw_get_set_other. intros ->. exact (NI (in_map fst b x Hx)). Qed.

(* whatever the switches: the parent is right unless the event data or the decorator kwargs bind the name "context" *)
Theorem expected_parent_unshadowed : forall S tr o,
  o_kind o = KEvent -> ~ In s_context (map fst (o_data o)) -> ~ In s_context (map fst (t_kwargs tr)) ->
  expected_parent S tr o = o_ctx o.
Proof.
  intros S tr o Hk Hd Hkw. unfold expected_parent. destruct (ctx_shadow S); [|reflexivity].
  unfold ctx_parent_of, run_kwargs. rewrite ctx_key_action_spec, base_args_spec.
  rewrite kw_get_update_notin by exact Hkw. unfold spec_base. rewrite Hk.
  rewrite kw_get_update_notin by exact Hd. cbn. destruct (o_ctx o); reflexivity.
Qed.

Lemma spec_fire_data_notin given : ~ In s_context (map fst given) -> spec_fire_data given = given.
Proof.
  unfold spec_fire_data. induction given as [|[k v] r IH]; intros NI; cbn [filter fst snd]; [reflexivity|].
  cbn [map fst In] in NI. destruct (N.eqb_spec k s_context) as [->|_]; [tauto|].
  cbn [andb negb]. rewrite IH by tauto. reflexivity.
Qed.

(* keys are unique, so deleting the first binding of "context" deletes the only one *)
Lemma fire_data_spec : forall given, NoDup (map fst given) -> fire_data given = spec_fire_data given.
Proof.
  unfold fire_data, fire_explicit. rewrite ctx_key_fire_spec.
  induction given as [|[k v] r IH]; intros ND; [reflexivity|].
  cbn [map fst] in ND. inversion ND as [|? ? NI ND']; subst.
  unfold spec_fire_data. cbn [kw_get kw_del filter fst snd]. fold (spec_fire_data r).
  rewrite (N.eqb_sym k). destruct (N.eqb_spec s_context k) as [<-|_]; cbn [andb negb].
  - rewrite (spec_fire_data_notin r NI). destruct v; reflexivity.
  - rewrite <- (IH ND'). destruct (kw_get s_context r) as [[]|]; reflexivity.
Qed.

Lemma ctxv_eqb_eq a b : ctxv_eqb a b = true -> c_id a = c_id b /\ c_parent a = c_parent b.
Proof.
  unfold ctxv_eqb. intros H. apply andb_true_iff in H as [H1 H2]. apply N.eqb_eq in H1. split; [exact H1|].
  destruct (c_parent a), (c_parent b); cbn in H2; try discriminate; [apply N.eqb_eq in H2; congruence|reflexivity].
Qed.

(* event.fire puts exactly the given parameters (minus a Context-typed `context`) on the bus, under the explicit context if
   one was given, else the run's *)
Theorem fire_exact : forall S st r key given data c ep st',
  NoDup (map fst given) ->
  step S st (LRun r (AFire key given data c ep)) = Some st' ->
  kw_eqb data (spec_fire_data given) = true /\
  st_occs st' = st_occs st ++ [ {| o_kind := KEvent; o_key := key; o_epoch := ep; o_ctx := Some (c_id c); o_attrs := [];
                                  o_data := spec_fire_data given; o_opt := None |} ] /\
  (match kw_get s_context given with
   | Some (VCtx x) => c_id c = x
   | _ => exists rn, nth_error (st_runs st) r = Some rn /\ c_id c = c_id (r_ctx rn) /\ c_parent c = c_parent (r_ctx rn)
   end).
Proof.
  intros S st r key given data c ep st' ND E. cbn [step] in E. unfold step_run in E.
  destruct (nth_error (st_runs st) r) as [rn|] eqn:ER; [|discriminate].
  (* the guard: the run has begun, [data] is [fire_data given], [c] is the explicit context or the run's *)
  cbv zeta in E. destruct (r_begun rn && kw_eqb data (fire_data given) && _) eqn:EB; [|discriminate]. injection E as <-.
  apply andb_true_iff in EB as [EB Ec]. apply andb_true_iff in EB as [_ Ed].
  rewrite (fire_data_spec given ND) in Ed. split; [exact Ed|]. split.
  - cbn [bus emit st_occs]. unfold fired_occ. rewrite (fire_data_spec given ND). reflexivity.
  - unfold fire_explicit in Ec. rewrite ctx_key_fire_spec in Ec.
    (* only a Context-typed value ([VCtx x]) is an explicit context; in every other case the guard compared with the run's *)
    destruct (kw_get s_context given) as [[z|s| |b|x|i t]|];
      try (exists rn; split; [reflexivity|apply ctxv_eqb_eq, Ec]).
    apply N.eqb_eq, Ec.
Qed.

Definition wh_occ (key : N) : occ :=
  {| o_kind := KWebhook; o_key := key; o_epoch := 0; o_ctx := None; o_attrs := [(s_payload, VOther 50 true)]; o_data := []; o_opt := None |}.
Definition wh_trig (f key : N) : trigger :=
  {| t_func := f; t_dm := f; t_epochs := [0%N]; t_kind := KWebhook; t_key := key; t_filter := None; t_kwargs := [] |}.

(* D80: two functions share a webhook id (new subsystem): the second never runs although the request matches it
   (stated on the final state of a concrete schedule; states contain functions, so no equation on states) *)
Theorem refuted_D80 :
  exists trigs order ls T tr,
    let S := mk_sys {| d_webhook_dup := true; d_ctx_shadow_legacy := false; d_ctx_shadow_new := false |} false trigs order in
    nth_error trigs T = Some tr /\
    match run_lts S ls with
    | Some st => drained S st T /\ started st T <> spec_runs tr (st_occs st)
    | None => False
    end.
Proof.
  exists [wh_trig 100 40; wh_trig 101 40], [(true, 0%nat); (true, 1%nat)], [LBus (wh_occ 40); LConsume 0 7], 1%nat, (wh_trig 101 40).
  cbv zeta. split; [reflexivity|]. vm_compute. split; [reflexivity|discriminate].
Qed.

Definition ev_occ_shadow : occ :=
  {| o_kind := KEvent; o_key := 41; o_epoch := 0; o_ctx := Some 9%N; o_attrs := []; o_data := [(s_context, VStr 42)]; o_opt := None |}.
Definition ev_trig (f key : N) : trigger :=
  {| t_func := f; t_dm := f; t_epochs := [0%N]; t_kind := KEvent; t_key := key; t_filter := None; t_kwargs := [] |}.

(* D81 (legacy) and D82 (new subsystem): under the subsystem's own switch the run's HA context has no parent although
   the event has a context; the kwargs are the Spec's *)
Theorem refuted_ctx_shadow : forall legacy,
  exists trigs order ls T tr,
    let S := mk_sys {| d_webhook_dup := false; d_ctx_shadow_legacy := legacy; d_ctx_shadow_new := negb legacy |}
                    legacy trigs order in
    nth_error trigs T = Some tr /\
    match run_lts S ls with
    | Some st => drained S st T /\ started st T <> spec_runs tr (st_occs st) /\
                 map fst (started st T) = map fst (spec_runs tr (st_occs st))
    | None => False
    end.
Proof.
  intros legacy. exists [ev_trig 100 41], [], [LBus ev_occ_shadow; LConsume 0 7], 0%nat, (ev_trig 100 41).
  cbv zeta. split; [reflexivity|]. destruct legacy; vm_compute; (split; [reflexivity|split; [discriminate|reflexivity]]).
Qed.

Definition ex_trigs : list trigger :=
  [ {| t_func := 100; t_dm := 100; t_epochs := [0%N]; t_kind := KEvent; t_key := 41; t_filter := Some (FCmp CmpEq 43 (VInt 1)); t_kwargs := [(44%N, VInt 5)] |};
    {| t_func := 100; t_dm := 100; t_epochs := [0%N]; t_kind := KEvent; t_key := 41; t_filter := None; t_kwargs := [] |} ].
Definition ex_occ (c : N) (x : Z) : occ :=
  {| o_kind := KEvent; o_key := 41; o_epoch := 0; o_ctx := Some c; o_attrs := []; o_data := [(43%N, VInt x)]; o_opt := None |}.

Example fifo_example_legacy :
  match run_lts (mk_sys all_off true ex_trigs [])
          [LBus (ex_occ 1 1); LBus (ex_occ 2 2); LBus (ex_occ 3 1); LConsume 1 10; LConsume 0 11;
           LRun 0 (ABegin (spec_kwargs (ev_trig 100 41) (ex_occ 1 1)) {| c_id := 10; c_parent := Some 1%N |});
           LConsume 0 12; LConsume 0 13] with
  | Some st => map snd (started st 0) = [Some 1%N; Some 3%N] /\ length (st_q st 1) = 2%nat /\ drained (mk_sys all_off true ex_trigs []) st 0
  | None => False
  end.
Proof. vm_compute. repeat split. Qed.

Example fire_exact_example :
  NoDup (map fst [(s_rid, VInt 1); (43%N, VStr 45); (s_context, VCtx 9)]) /\
  spec_fire_data [(s_rid, VInt 1); (43%N, VStr 45); (s_context, VCtx 9)] = [(s_rid, VInt 1); (43%N, VStr 45)].
Proof.
  split; [|reflexivity].
  repeat constructor; cbn; intuition discriminate.
Qed.

Example expected_parent_current_example :
  o_kind (ex_occ 1 1) = KEvent /\ ~ In s_context (map fst (o_data (ex_occ 1 1))) /\
  ~ In s_context (map fst (t_kwargs (ev_trig 100 41))).
Proof. cbn. intuition discriminate. Qed.
