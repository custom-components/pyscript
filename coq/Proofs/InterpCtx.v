(* C11.  First what the model's tables, contexts and candidate search do, up to what an import and a call can do
   ([import_with_cases], [call_with_cases]).  Then what a sweep says of a result ([ends_in]) and the generic sweep: relations that
   the primitive steps respect ([respected]) are respected by every statement ([holds_exec]).  Its instances follow, each with
   its end result: the context pointers ([kept], [call_restores]), coherence ([co_kept], under name resolution,
   [defining_globals]) and one context per module name (the invariant [inv], [module_singleton]).  The frame property
   ([frame]) has a sweep of its own over pure programs, after the pointers.  Last the star import, and the runs that witness
   the hypotheses and the findings D110, D111. *)
From PV Require Import Common.Util Gen.CtxConsts Interp.Ctx.

Lemma path_eqb_eq a b : path_eqb a b = true <-> a = b.
Proof. apply list_eqb_eq. intros; apply N.eqb_eq. Qed.
Lemma path_eqb_neq a b : a <> b -> path_eqb a b = false.
Proof. apply (eqb_neq_of _ path_eqb_eq). Qed.

Lemma memP_In p l : memP p l = true <-> In p l.
Proof. exact (existsb_eqb_In _ path_eqb_eq p l). Qed.

Lemma tget_tset t x y v : tget (tset t x v) y = if N.eqb y x then Some v else tget t y.
Proof. apply (get_set_eqs N.eqb N.eqb_eq None Some (fun k l => tget l k) (fun k v l => tset l k v)); reflexivity. Qed.

Lemma pget_pset {A} (m : list (path * A)) p q a : pget (pset m p a) q = if path_eqb q p then Some a else pget m q.
Proof. apply (get_set_eqs path_eqb path_eqb_eq None Some (fun k l => pget l k) (fun k v l => pset l k v)); reflexivity. Qed.

Lemma upd_nth_length {A} (l : list A) i f : length (upd_nth l i f) = length l.
Proof. revert i; induction l as [|x r IH]; intros [|i]; cbn; auto. Qed.
Lemma nth_upd_nth_ne {A} (l : list A) i j f : i <> j -> nth_error (upd_nth l i f) j = nth_error l j.
Proof. revert i j; induction l as [|x r IH]; intros [|i] [|j] H; cbn; auto; try congruence. Qed.
Lemma nth_upd_nth_eq {A} (l : list A) i f : nth_error (upd_nth l i f) i = option_map f (nth_error l i).
Proof. revert i; induction l as [|x r IH]; intros [|i]; cbn; auto. Qed.

Lemma ctx_of_upd w i f c :
  ctx_of (set_ctxs w (upd_nth (w_ctxs w) i f)) c = if Nat.eqb i c then option_map f (ctx_of w c) else ctx_of w c.
Proof. unfold ctx_of; cbn. destruct (Nat.eqb_spec i c) as [->|Ne]; [apply nth_upd_nth_eq|apply nth_upd_nth_ne, Ne]. Qed.
Lemma tab_set_tab w c x v c' :
  tab (set_tab w c x v) c' = if Nat.eqb c c' then match ctx_of w c with Some _ => tset (tab w c) x v | None => [] end else tab w c'.
Proof.
  unfold tab, set_tab. rewrite ctx_of_upd. destruct (Nat.eqb_spec c c') as [->|_]; [|reflexivity].
  destruct (ctx_of w c'); reflexivity.
Qed.

Definition modflag (w : world) (c : nat) : bool := match ctx_of w c with Some g => g_mod g | None => false end.
Lemma modflag_lt w c : modflag w c = true -> c < length (w_ctxs w).
Proof.
  unfold modflag, ctx_of. destruct (nth_error (w_ctxs w) c) eqn:E; [|discriminate].
  intros _. apply nth_error_Some. congruence.
Qed.
Lemma modflag_upd w i f : (forall g, g_mod (f g) = g_mod g) ->
  forall c, modflag (set_ctxs w (upd_nth (w_ctxs w) i f)) c = modflag w c.
Proof.
  intros Hf c. unfold modflag. rewrite ctx_of_upd. destruct (Nat.eqb i c); [|reflexivity].
  destruct (ctx_of w c); cbn; auto.
Qed.
Lemma modflag_mark_eq w c : c < length (w_ctxs w) -> modflag (mark_module w c) c = true.
Proof.
  intros L. unfold modflag, mark_module. rewrite ctx_of_upd, Nat.eqb_refl.
  destruct (ctx_of w c) eqn:E; [reflexivity|]. apply nth_error_None in E. lia.
Qed.
Lemma modflag_mark_mono w c c0 : modflag w c0 = true -> modflag (mark_module w c) c0 = true.
Proof.
  intros F. unfold modflag, mark_module in *. rewrite ctx_of_upd. destruct (Nat.eqb c c0); [|exact F].
  destruct (ctx_of w c0); [reflexivity|discriminate].
Qed.

Lemma find_loaded_Some w : forall l cn c, find_loaded w l = Some (cn, c) -> pget (w_mgr w) cn = Some c.
Proof.
  induction l as [|[[cn0 fp] rel] r IH]; intros cn c H; cbn in H; [discriminate|].
  destruct (pget (w_mgr w) cn0) as [c0|] eqn:P; [|auto].
  destruct (ctx_of w c0) as [g|]; [|auto].
  destruct (g_mod g); [|auto]. inversion H; subst. exact P.
Qed.
Lemma find_loaded_None w : forall l, find_loaded w l = None ->
  forall cn fp rel c, In (cn, fp, rel) l -> pget (w_mgr w) cn = Some c -> modflag w c = false.
Proof.
  induction l as [|[[cn0 fp0] rel0] r IH]; intros H cn fp rel c Hin P; [destruct Hin|].
  cbn in H. destruct Hin as [E|Hin].
  - inversion E; subst. rewrite P in H. unfold modflag. destruct (ctx_of w c) as [g|]; [|reflexivity].
    destruct (g_mod g); [discriminate|reflexivity].
  - destruct (pget (w_mgr w) cn0) as [c0|]; [|eapply IH; eauto].
    destruct (ctx_of w c0) as [g|]; [|eapply IH; eauto]. destruct (g_mod g); [discriminate|eapply IH; eauto].
Qed.
Lemma find_file_In w : forall l cd src, find_file w l = Some (cd, src) -> In cd l.
Proof.
  induction l as [|[[cn fp] rel] r IH]; intros cd src H; cbn in H; [discriminate|].
  destruct (pget (w_fs w) fp); [inversion H; subst; left; reflexivity|right; eapply IH; eauto].
Qed.

(* an import that loads a file: created (name on the loading stack), popped after the body, registered after a normal end *)
Definition w_created (w : world) (cn : path) (rel : option path) : world :=
  fst (new_ctx (set_loading w (cn :: w_loading w) (w_cyc w || memP cn (w_loading w))) cn rel).
Definition w_popped (w3 : world) : world := set_loading w3 (tl (w_loading w3)) (w_cyc w3).
Definition w_registered (w4 : world) (cn : path) (c self : nat) : world :=
  add_log (add_import (mark_module (set_mgr w4 (pset (w_mgr w4) cn c)) c) self cn) [LImp cn c; LLoad cn c].
Lemma created_length w cn rel : length (w_ctxs (w_created w cn rel)) = S (length (w_ctxs w)).
Proof. unfold w_created, new_ctx; cbn. rewrite app_length; cbn. lia. Qed.

Lemma consts_ctx : call_restore_in_finally = true /\ star_skip_underscore = true /\ lookup_before_load = true.
Proof. repeat split; reflexivity. Qed.

(* what the search through the candidates found is said of the state: the name is registered, or whatever it is registered
   as has no module object *)
Lemma import_with_cases cfg blk w self m level (Q : world * ires -> Prop) :
  Q (w, IExc) ->
  (forall cn c, pget (w_mgr w) cn = Some c -> Q (add_log (add_import w self cn) [LImp cn c], IOk c)) ->
  (forall cn rel src w3 e3 o3, (forall c0, pget (w_mgr w) cn = Some c0 -> modflag w c0 = false) ->
     blk (w_created w cn rel) (fresh_ev (length (w_ctxs w))) src = (w3, e3, o3) ->
     Q (match o3 with
        | ONormal => (w_registered (w_popped w3) cn (length (w_ctxs w)) self, IOk (length (w_ctxs w)))
        | OFuel => (w_popped w3, IFuel)
        | _ => (w_popped w3, IExc)
        end)) ->
  Q (import_with cfg blk w self m level).
Proof.
  intros Q0 Q1 Q2. unfold import_with.
  destruct (ctx_of w self) as [g|]; [|exact Q0].
  destruct (resolve cfg g m level) as [|cands]; [exact Q0|].
  rewrite (proj2 (proj2 consts_ctx)).
  destruct (find_loaded w cands) as [[cn c]|] eqn:FL; [exact (Q1 _ _ (find_loaded_Some _ _ _ _ FL))|].
  destruct (find_file w cands) as [[[[cn fp] rel] src]|] eqn:FF; [|exact Q0].
  cbv beta iota zeta delta [new_ctx]. destruct (blk _ _ src) as [[w3 e3] o3] eqn:B.
  exact (Q2 _ _ _ _ _ _ (fun c0 => find_loaded_None _ _ FL _ _ _ _ (find_file_In _ _ _ _ FF)) B).
Qed.

Lemma call_with_cases blk na w e v (Q : res -> Prop) :
  Q (w, e, OExc) ->
  (forall c f gl body w1 e1 o1, v = VFun c f gl body ->
     let fi := {| fi_gl := gl; fi_ln := local_names gl body |} in
     blk w (enter_call e c fi) body = (w1, e1, o1) ->
     Q (match o1 with
        | OFuel => (w1, e1, OFuel)
        | OExc => (w1, leave_call e c e1, OExc)
        | ONormal => (w1, leave_call e c e1, OReturn VNone)
        | OReturn r => (w1, leave_call e c e1, OReturn r)
        end)) ->
  Q (call_with blk na w e v).
Proof.
  intros Q0 Q1. unfold call_with. destruct v as [| | |c f gl body| |]; try exact Q0.
  destruct (negb (arity_ok f na)); [exact Q0|].
  destruct (blk w _ body) as [[w1 e1] o1] eqn:B. rewrite (proj1 consts_ctx). exact (Q1 _ _ _ _ _ _ _ eq_refl B).
Qed.

(* what the sweeps below say of a result: [A] of the world always, [B] unless fuel ran out (then a call does not restore the
   evaluator) *)
Definition ends_in (A : world -> Prop) (B : world -> evst -> outcome -> Prop) (r : res) : Prop :=
  let '(w', e', o) := r in A w' /\ (o <> OFuel -> B w' e' o).

Lemma ends_in_weaken A (B B' : world -> evst -> outcome -> Prop) r :
  (forall w' e' o, B w' e' o -> B' w' e' o) -> ends_in A B r -> ends_in A B' r.
Proof. destruct r as [[w' e'] o]. intros H (M & K). split; auto. Qed.

(* a call ends as its body does, after [leave_call] *)
Lemma call_with_leaves blk na w e v A B :
  ends_in A B (w, e, OExc) ->
  (forall c f gl body, v = VFun c f gl body ->
     ends_in A (fun w1 e1 o1 => B w1 (leave_call e c e1) match o1 with ONormal => OReturn VNone | _ => o1 end)
       (blk w (enter_call e c {| fi_gl := gl; fi_ln := local_names gl body |}) body)) ->
  ends_in A B (call_with blk na w e v).
Proof.
  intros Q0 H. apply call_with_cases; [exact Q0|].
  intros c f gl body w1 e1 o1 E fi B1. pose proof (H _ _ _ _ E) as K. fold fi in K. rewrite B1 in K. destruct K as (M & K).
  destruct o1; (split; [exact M|]); intros NF; [apply K; discriminate..|destruct (NF eq_refl)].
Qed.

Definition holds (Rw : world -> world -> Prop) (Rs : world -> evst -> world -> evst -> Prop) (w : world) (e : evst) : res -> Prop :=
  ends_in (Rw w) (fun w' e' _ => Rs w e w' e').

(* closure under the primitive steps.  [rs_leave] alone ties [leave_call] to [enter_call]; [rw_loaded] concludes for both
   worlds a load can end in, of which the body's outcome picks one *)
Set Implicit Arguments.
Record respected (Rw : world -> world -> Prop) (Rs : world -> evst -> world -> evst -> Prop) : Prop := {
  rw_refl : forall w, Rw w w;
  rs_trans : forall w1 e1 w2 e2 w3 e3, Rs w1 e1 w2 e2 -> Rs w2 e2 w3 e3 -> Rs w1 e1 w3 e3;
  rs_rw : forall w e w' e', Rs w e w' e' -> Rw w w';
  rs_of_rw : forall w e w', Rw w w' -> Rs w e w' e;
  rw_set_tab : forall w c x v, Rw w (set_tab w c x v);
  rs_local : forall w e t t', e_sym e = SymL t -> Rs w e w (with_sym e (SymL t'));
  rs_setctx : forall w e c, Rs w e (bump_nsw w) (set_global_ctx e c);
  rs_leave : forall w e c fi w1 e1, Rs w (enter_call e c fi) w1 e1 -> Rs w e w1 (leave_call e c e1);
  rw_found : forall w self cn c, pget (w_mgr w) cn = Some c -> Rw w (add_log (add_import w self cn) [LImp cn c]);
  rw_loaded : forall w self cn rel w3, (forall c0, pget (w_mgr w) cn = Some c0 -> modflag w c0 = false) ->
              Rw (w_created w cn rel) w3 ->
              Rw w (w_popped w3) /\ Rw w (w_registered (w_popped w3) cn (length (w_ctxs w)) self)
}.
Unset Implicit Arguments.

Section Sweep.
Variable Rw : world -> world -> Prop.
Variable Rs : world -> evst -> world -> evst -> Prop.
Hypothesis RS : respected Rw Rs.

Lemma rs_refl w e : Rs w e w e.
Proof. apply (rs_of_rw RS), (rw_refl RS). Qed.
Lemma holds_to w e w1 e1 o : Rs w e w1 e1 -> holds Rw Rs w e (w1, e1, o).
Proof. intros H. split; [eapply (rs_rw RS), H|auto]. Qed.
Lemma holds_same w e o : holds Rw Rs w e (w, e, o).
Proof. apply holds_to, rs_refl. Qed.
Lemma holds_let w e (p : world * evst) o : Rs w e (fst p) (snd p) -> holds Rw Rs w e (let '(w', e') := p in (w', e', o)).
Proof. destruct p. apply holds_to. Qed.
Lemma holds_then w e w1 e1 r : Rs w e w1 e1 -> holds Rw Rs w1 e1 r -> holds Rw Rs w e r.
Proof.
  destruct r as [[w' e'] o]. intros H1 [H0 H2].
  split; [|intros NF; eapply (rs_trans RS), H2, NF; exact H1].
  exact (rs_rw RS _ _ _ _ (rs_trans RS _ _ _ _ _ _ H1 (rs_of_rw RS _ e1 _ H0))).
Qed.

Lemma rs_bind_sym w e x v : Rs w e (fst (bind_sym w e x v)) (snd (bind_sym w e x v)).
Proof. unfold bind_sym. destruct (e_sym e) eqn:E; cbn; [apply (rs_of_rw RS), (rw_set_tab RS)|eapply (rs_local RS), E]. Qed.
Lemma rs_assign w e x v : Rs w e (fst (assign_name w e x v)) (snd (assign_name w e x v)).
Proof. unfold assign_name. destruct (is_global_decl e x); [apply (rs_of_rw RS), (rw_set_tab RS)|apply rs_bind_sym]. Qed.

Lemma rs_bind_items : forall items w e c,
  Rs w e (fst (fst (bind_items w e c items))) (snd (fst (bind_items w e c items))).
Proof.
  induction items as [|[x b] r IH]; intros w e c; cbn; [apply rs_refl|].
  destruct (tget (tab w c) x) as [v|]; [|apply rs_refl].
  pose proof (rs_bind_sym w e b v) as H. destruct (bind_sym w e b v) as [w1 e1].
  eapply (rs_trans RS), IH; exact H.
Qed.
Lemma rs_bind_all : forall l w e, Rs w e (fst (bind_all w e l)) (snd (bind_all w e l)).
Proof.
  induction l as [|[x v] r IH]; intros w e; cbn; [apply rs_refl|].
  pose proof (rs_bind_sym w e x v) as H. destruct (bind_sym w e x v) as [w1 e1].
  eapply (rs_trans RS), IH; exact H.
Qed.

Lemma holds_block ex : (forall w e s, holds Rw Rs w e (ex w e s)) -> forall w e l, holds Rw Rs w e (block_with ex w e l).
Proof.
  intros Hex w e l; revert w e; induction l as [|s r IH]; intros w e; cbn; [apply holds_same|].
  specialize (Hex w e s). destruct (ex w e s) as [[w1 e1] o1].
  destruct o1; try exact Hex. eapply holds_then; [apply Hex; discriminate|apply IH].
Qed.

Lemma holds_call blk : (forall w e l, holds Rw Rs w e (blk w e l)) -> forall na w e v, holds Rw Rs w e (call_with blk na w e v).
Proof.
  intros Hb na w e v. apply call_with_leaves; [apply holds_same|].
  intros c f gl body _. eapply ends_in_weaken, Hb. intros w1 e1 o1. apply (rs_leave RS).
Qed.

Lemma rw_import cfg blk : (forall w e l, holds Rw Rs w e (blk w e l)) ->
  forall w self m level, Rw w (fst (import_with cfg blk w self m level)).
Proof.
  intros Hb w self m level. apply import_with_cases.
  - apply (rw_refl RS).
  - intros cn c P. exact (rw_found RS w self cn P).
  - intros cn rel src w3 e3 o3 NR B. pose proof (Hb (w_created w cn rel) (fresh_ev (length (w_ctxs w))) src) as M.
    rewrite B in M. destruct (rw_loaded RS w self cn rel w3 NR (proj1 M)) as (P & R). destruct o3; assumption.
Qed.

(* the three shapes in which [stmt_with] continues after an import *)
Lemma holds_import cfg blk (k : world -> nat -> res) w e m level :
  (forall w e l, holds Rw Rs w e (blk w e l)) -> (forall w1 c, holds Rw Rs w1 e (k w1 c)) ->
  holds Rw Rs w e (match import_with cfg blk w (e_gctx e) m level with
                   | (w', IOk c) => k w' c | (w', IExc) => (w', e, OExc) | (w', IFuel) => (w', e, OFuel) end).
Proof.
  intros Hb Hk. pose proof (rs_of_rw RS _ e _ (rw_import cfg blk Hb w (e_gctx e) m level)) as H.
  destruct (import_with cfg blk w (e_gctx e) m level) as [w1 r]. cbn [fst] in H.
  destruct r; [eapply holds_then; [exact H|apply Hk]|apply holds_to, H|apply holds_to, H].
Qed.

Lemma holds_import_dots cfg blk : (forall w e l, holds Rw Rs w e (blk w e l)) ->
  forall items w e level, holds Rw Rs w e (import_dots (import_with cfg blk) w e level items).
Proof.
  intros Hb. induction items as [|[x b] r IH]; intros w e level; cbn [import_dots]; [apply holds_same|].
  apply (holds_import cfg blk (fun w' c => let '(w'', e') := bind_sym w' e b (VMod c) in import_dots (import_with cfg blk) w'' e' level r)); [exact Hb|].
  intros w1 c. pose proof (rs_bind_sym w1 e b (VMod c)) as H. destruct (bind_sym w1 e b (VMod c)) as [w2 e2].
  eapply holds_then; [exact H|apply IH].
Qed.

Lemma holds_stmt cfg ex : (forall w e s, holds Rw Rs w e (ex w e s)) -> forall w e s, holds Rw Rs w e (stmt_with cfg ex w e s).
Proof.
  intros Hex. pose proof (holds_block ex Hex) as Hb. intros w e s. unfold stmt_with.
  destruct s as [x ex1|m x ex1|f gl body|dst c|c|ex1| |ex1 a b|a h|m b|m level items|m level|level items|n|c|f d gl body| ].
  - (* SAssign *) destruct (eval_expr w e ex1); [apply holds_let, rs_assign|apply holds_same].
  - (* SAttrAssign *) destruct (eval_expr w e ex1); [|apply holds_same].
    destruct (lookup_name w e m) as [[| | | |c|]|]; try apply holds_same. apply holds_to, (rs_of_rw RS), (rw_set_tab RS).
  - (* SDef *) apply holds_let, rs_assign.
  - (* SCall *)
    destruct (resolve_cref w e c) as [fv|]; [|apply holds_same].
    pose proof (holds_call _ Hb 0 w e fv) as H. destruct (call_with (block_with ex) 0 w e fv) as [[w1 e1] o1].
    destruct o1; try exact H. destruct H as (_ & H). specialize (H ltac:(discriminate)).
    destruct dst; [eapply holds_then; [exact H|apply holds_let, rs_assign]|apply holds_to, H].
  - (* STask: only the world comes back *)
    destruct (resolve_cref w e c) as [fv|]; [|apply holds_same].
    pose proof (holds_call _ Hb 0 w (fresh_ev (e_gctx e)) fv) as H.
    destruct (call_with (block_with ex) 0 w (fresh_ev (e_gctx e)) fv) as [[w1 e1] o1]. destruct H as (H & _).
    destruct o1; apply holds_to, (rs_of_rw RS), H.
  - (* SReturn *) destruct (eval_expr w e ex1); apply holds_same.
  - (* SRaise *) apply holds_same.
  - (* SIf *) destruct (eval_expr w e ex1) as [v|]; [destruct (truthy v); apply Hb|apply holds_same].
  - (* STry *) pose proof (Hb w e a) as H. destruct (block_with ex w e a) as [[w1 e1] o1].
    destruct o1; try exact H. eapply holds_then; [apply H; discriminate|apply Hb].
  - (* SImport *) apply holds_import; [exact Hb|]. intros w1 c. apply holds_let, rs_bind_sym.
  - (* SFrom *) apply holds_import; [exact Hb|]. intros w1 c.
    pose proof (rs_bind_items items w1 e c) as H. destruct (bind_items w1 e c items) as [[w2 e2] ok]. apply holds_to, H.
  - (* SFromStar *) apply holds_import; [exact Hb|]. intros w1 c.
    destruct (star_items cfg (tab w1 c)); [apply holds_let, rs_bind_all|apply holds_same].
  - (* SFromDot *) apply holds_import_dots, Hb.
  - (* SSetCtx *) destruct (pget (w_mgr w) n); [apply holds_to, (rs_setctx RS)|apply holds_same].
  - (* SCallBad *) apply holds_same.
  - (* SDefDeco *)
    destruct (resolve_cref w e d) as [fv|]; [|apply holds_same].
    pose proof (holds_call _ Hb 1 w e fv) as H. destruct (call_with (block_with ex) 1 w e fv) as [[w1 e1] o1].
    destruct o1; try exact H. eapply holds_then; [apply H; discriminate|apply holds_let, rs_assign].
  - (* SSleep *) apply holds_same.
Qed.

Lemma holds_exec cfg fuel : forall w e s, holds Rw Rs w e (exec cfg fuel w e s).
Proof. induction fuel as [|fuel IH]; [intros; apply holds_same|apply holds_stmt, IH]. Qed.
Lemma holds_exec_block cfg fuel : forall w e l, holds Rw Rs w e (exec_block cfg fuel w e l).
Proof. exact (holds_block _ (holds_exec cfg fuel)). Qed.
End Sweep.

Definition same_kind (a b : symref) : Prop :=
  match a, b with SymG c, SymG c' => c = c' | SymL _, SymL _ => True | _, _ => False end.
Lemma same_kind_refl a : same_kind a a. Proof. destruct a; cbn; auto. Qed.
Lemma same_kind_trans a b c : same_kind a b -> same_kind b c -> same_kind a c.
Proof. destruct a, b, c; cbn; intros; subst; auto; contradiction. Qed.

Definition ptrs_eq (e e' : evst) : Prop :=
  e_gst e' = e_gst e /\ e_stack e' = e_stack e /\ e_gctx e' = e_gctx e /\ e_func e' = e_func e /\ same_kind (e_sym e) (e_sym e').
Lemma ptrs_eq_refl e : ptrs_eq e e.
Proof. unfold ptrs_eq; repeat split; auto using same_kind_refl. Qed.
Lemma ptrs_eq_trans a b c : ptrs_eq a b -> ptrs_eq b c -> ptrs_eq a c.
Proof. unfold ptrs_eq; intros (?&?&?&?&?) (?&?&?&?&?); repeat split; try congruence. eapply same_kind_trans; eauto. Qed.

Lemma leave_other e c e1 : e_gctx e <> c -> leave_call e c e1 = e.
Proof. intros NE. unfold leave_call. apply Nat.eqb_neq in NE. rewrite NE. destruct e; reflexivity. Qed.
Lemma leave_enter e c fi e1 : ptrs_eq (enter_call e c fi) e1 -> leave_call e c e1 = e.
Proof.
  unfold leave_call, enter_call. destruct (Nat.eqb (e_gctx e) c); [|destruct e; reflexivity].
  intros (Pg & Ps & Pc & _ & _). cbn in *. rewrite Ps, last_last, removelast_last, Pg, Pc. destruct e; reflexivity.
Qed.

(* the switch counter only grows: equal at both ends of a run, it was equal at every step between, so the second clause's
   premise reaches the parts of a composite run ([rs_trans]) *)
Definition nsw_le (w w' : world) : Prop := w_nsw w <= w_nsw w'.
Definition kept (w : world) (e : evst) (w' : world) (e' : evst) : Prop :=
  nsw_le w w' /\ (w_nsw w' = w_nsw w -> ptrs_eq e e').

(* a call of [v] gives back the caller's evaluator state: always from another context, from the defining one unless a switch happened *)
Definition restored (v : val) (w : world) (e : evst) (w' : world) (e' : evst) : Prop :=
  (forall c f gl body, v = VFun c f gl body -> e_gctx e <> c -> e' = e) /\ (w_nsw w' = w_nsw w -> e' = e).

Lemma call_with_restored blk : (forall w e l, holds nsw_le kept w e (blk w e l)) ->
  forall na w e v, holds nsw_le (restored v) w e (call_with blk na w e v).
Proof.
  intros Hb na w e v. apply call_with_leaves.
  - split; [apply le_n|split; auto].
  - intros c f gl body ->. eapply ends_in_weaken, Hb. intros w1 e1 o1 (_ & P). split.
    + intros c0 f0 gl0 body0 EQ NE. inversion EQ; subst c0. apply leave_other, NE.
    + intros EQ. eapply leave_enter, P, EQ.
Qed.

Lemma nsw_set_tab w c x v : w_nsw (set_tab w c x v) = w_nsw w. Proof. reflexivity. Qed.

Lemma kept_respected : respected nsw_le kept.
Proof.
  constructor; unfold kept, nsw_le.
  - (* rw_refl *) intros w. apply le_n.
  - (* rs_trans *) intros w1 e1 w2 e2 w3 e3 (M1 & P1) (M2 & P2). split; [lia|].
    intros EQ. eapply ptrs_eq_trans; [apply P1|apply P2]; lia.
  - (* rs_rw *) tauto.
  - (* rs_of_rw *) auto using ptrs_eq_refl.
  - (* rw_set_tab *) intros. rewrite nsw_set_tab. lia.
  - (* rs_local *) intros w e t t' E. split; [lia|]. intros _. unfold ptrs_eq. cbn. rewrite E. cbn. auto.
  - (* rs_setctx *) intros w e c. split; cbn; lia.
  - (* rs_leave *) intros w e c fi w1 e1 (M & P). split; [exact M|]. intros EQ. rewrite (leave_enter e c fi e1 (P EQ)). apply ptrs_eq_refl.
  - (* rw_found *) intros. apply le_n.
  - (* rw_loaded: no stage touches the counter *) intros w self cn rel w3 _ M. split; exact M.
Qed.

Lemma call_restores : forall cfg fuel w e v w' e' o,
  call_fun cfg fuel w e v = (w', e', o) -> o <> OFuel -> restored v w e w' e'.
Proof.
  intros cfg fuel w e v w' e' o H NF.
  pose proof (call_with_restored _ (holds_exec_block _ _ kept_respected cfg fuel) 0 w e v) as K. unfold call_fun in H. rewrite H in K.
  exact (proj2 K NF).
Qed.

(* the statements of the frame property: no import, no set_global_ctx, no decorated definition, at any depth *)
Inductive pure : stmt -> Prop :=
  | P_assign x e : pure (SAssign x e)
  | P_attr m x e : pure (SAttrAssign m x e)
  | P_def f gl body : Forall pure body -> pure (SDef f gl body)
  | P_call d c : pure (SCall d c)
  | P_task c : pure (STask c)
  | P_return e : pure (SReturn e)
  | P_raise : pure SRaise
  | P_if e a b : Forall pure a -> Forall pure b -> pure (SIf e a b)
  | P_try a h : Forall pure a -> Forall pure h -> pure (STry a h)
  | P_callbad c : pure (SCallBad c)
  | P_sleep : pure SSleep.

Definition closedv (a : nat) (v : val) : Prop :=
  match v with
  | VFun c _ _ body => c = a /\ Forall pure body
  | VMod _ => False
  | _ => True
  end.
Definition closedt (a : nat) (t : table) : Prop := forall x v, tget t x = Some v -> closedv a v.
Definition in_ctx (a : nat) (e : evst) : Prop :=
  e_gst e = a /\ e_gctx e = a /\ match e_sym e with SymG c => c = a | SymL t => closedt a t end.
(* proved for a set [S] of contexts a run may write, holding data, functions of [S] with pure bodies and module objects of
   [M] only; [closedv a], [closedt a], [in_ctx a] are the case S = {a}, M = {} *)
Section Frame.
Variables S M : nat -> Prop.
Hypothesis MS : forall c, M c -> S c.

Definition ownv (v : val) : Prop :=
  match v with
  | VFun c _ _ body => S c /\ Forall pure body
  | VMod c => M c
  | _ => True
  end.
Definition ownt (t : table) : Prop := forall x v, tget t x = Some v -> ownv v.
Definition owne (e : evst) : Prop :=
  S (e_gst e) /\ S (e_gctx e) /\ match e_sym e with SymG c => S c | SymL t => ownt t end.
Definition ownw (w : world) : Prop := forall c, S c -> ownt (tab w c).
Definition frame_rel (w w' : world) : Prop :=
  (forall c, ~ S c -> ctx_of w' c = ctx_of w c) /\ ownw w' /\ w_mgr w' = w_mgr w.

Lemma ownt_nil : ownt []. Proof. intros x v H; discriminate. Qed.
Lemma ownt_tset t x v : ownt t -> ownv v -> ownt (tset t x v).
Proof. intros Ht Hv y u. rewrite tget_tset. destruct (N.eqb y x); [intros E; inversion E; subst; exact Hv|apply Ht]. Qed.

Lemma frame_refl w : ownw w -> frame_rel w w.
Proof. unfold frame_rel; auto. Qed.
Lemma frame_trans w1 w2 w3 : frame_rel w1 w2 -> frame_rel w2 w3 -> frame_rel w1 w3.
Proof.
  intros (A1 & B1 & D1) (A2 & B2 & D2). unfold frame_rel.
  split; [|split; [exact B2|congruence]].
  intros c Hc. rewrite A2, A1; auto.
Qed.

Lemma frame_set_tab w c x v : S c -> ownw w -> ownv v -> frame_rel w (set_tab w c x v).
Proof.
  intros Hc Ht Hv. unfold frame_rel. repeat split.
  - intros c' Hc'. unfold set_tab. rewrite ctx_of_upd. destruct (Nat.eqb_spec c c') as [->|_]; [destruct (Hc' Hc)|reflexivity].
  - intros c' Hc'. rewrite tab_set_tab. destruct (Nat.eqb c c'); [|exact (Ht c' Hc')].
    destruct (ctx_of w c); [apply ownt_tset; auto|apply ownt_nil].
Qed.

Lemma lookup_own w e x v : ownw w -> owne e -> lookup_name w e x = Some v -> ownv v.
Proof.
  intros Ht (Hg & Hc & Hs) H. unfold lookup_name in H. pose proof (Ht _ Hg) as Hgt.
  destruct (is_global_decl e x); [eapply Hgt; eauto|].
  destruct (sym_get w (e_sym e) x) as [u|] eqn:Sy.
  - inversion H; subst. unfold sym_get in Sy. destruct (e_sym e); [eapply (Ht _ Hs); eauto|eapply Hs; eauto].
  - destruct (tget (tab w (e_gst e)) x) as [u|] eqn:G; [|discriminate].
    destruct (is_local_name e x); [discriminate|]. inversion H; subst. eapply Hgt; eauto.
Qed.
Lemma eval_own w e ex v : ownw w -> owne e -> eval_expr w e ex = Some v -> ownv v.
Proof.
  intros Ht Hi H. destruct ex; cbn in H; try (inversion H; subst; exact I).
  - eapply lookup_own; eauto.
  - destruct (lookup_name w e x) as [[]|]; inversion H; subst; exact I.
  - (* an attribute of a module of M is read from a table of S *)
    destruct (lookup_name w e m) as [u|] eqn:L; [|discriminate].
    pose proof (lookup_own _ _ _ _ Ht Hi L) as C. destruct u; try discriminate. exact (Ht _ (MS _ C) _ _ H).
Qed.
Lemma cref_own w e c v : ownw w -> owne e -> resolve_cref w e c = Some v -> ownv v.
Proof. intros Ht Hi H. destruct c; cbn [resolve_cref] in H; [eapply lookup_own; eauto|eapply eval_own; eauto]. Qed.

Definition framed (w : world) (e : evst) : res -> Prop :=
  ends_in (frame_rel w) (fun _ e' o => owne e' /\ ptrs_eq e e' /\ match o with OReturn v => ownv v | _ => True end).
Definition stmt_framed (ex : world -> evst -> stmt -> res) : Prop :=
  forall w e s, ownw w -> owne e -> pure s -> framed w e (ex w e s).
Definition blk_framed (blk : world -> evst -> list stmt -> res) : Prop :=
  forall w e l, ownw w -> owne e -> Forall pure l -> framed w e (blk w e l).

Lemma framed_same w e o : ownw w -> owne e -> match o with OReturn v => ownv v | _ => True end -> framed w e (w, e, o).
Proof. intros Ht Hi Hv. split; [apply frame_refl, Ht|auto using ptrs_eq_refl]. Qed.
Lemma framed_seq w e w1 e1 o1 r : framed w e (w1, e1, o1) -> o1 <> OFuel ->
  (ownw w1 -> owne e1 -> match o1 with OReturn v => ownv v | _ => True end -> framed w1 e1 r) -> framed w e r.
Proof.
  destruct r as [[w' e'] o]. intros (F1 & K1) NF1 H. destruct (K1 NF1) as (I1 & P1 & V1).
  destruct (H (proj1 (proj2 F1)) I1 V1) as (F2 & K). split; [eapply frame_trans; eauto|].
  intros NF. destruct (K NF) as (I2 & P2 & V2). split; [exact I2|split; [eapply ptrs_eq_trans; eauto|exact V2]].
Qed.

Lemma assign_framed w e x v : ownw w -> owne e -> ownv v ->
  framed w e (let '(w', e') := assign_name w e x v in (w', e', ONormal)).
Proof.
  intros Ht (Hg & Hc & Hs) Hv. unfold assign_name, bind_sym.
  destruct (is_global_decl e x); [|destruct (e_sym e) as [c|t] eqn:E].
  - split; [apply frame_set_tab; assumption|unfold owne; auto using ptrs_eq_refl].
  - split; [apply frame_set_tab; assumption|]. unfold owne. rewrite E. auto using ptrs_eq_refl.
  - split; [apply frame_refl, Ht|]. unfold owne, ptrs_eq; cbn. rewrite E; cbn. repeat split; auto. apply ownt_tset; assumption.
Qed.

Lemma block_framed ex : stmt_framed ex -> blk_framed (block_with ex).
Proof.
  intros Hex w e l; revert w e; induction l as [|s r IH]; intros w e Ht Hi Hp; cbn.
  - apply framed_same; auto.
  - inversion Hp as [|? ? Ps Pr]; subst.
    pose proof (Hex w e s Ht Hi Ps) as H1. destruct (ex w e s) as [[w1 e1] o1].
    destruct o1; try exact H1. eapply framed_seq; [exact H1|discriminate|]. intros Ht1 Hi1 _. apply IH; assumption.
Qed.

Lemma call_framed blk : blk_framed blk -> forall na w e v, ownw w -> owne e -> ownv v ->
  framed w e (call_with blk na w e v).
Proof.
  intros Hb na w e v Ht Hi Hv.
  apply call_with_leaves; [apply framed_same; auto|].
  intros c f gl body ->. destruct Hv as (Sc & Hp).
  eapply ends_in_weaken; [|apply Hb; [exact Ht| |exact Hp]].
  - intros w1 e1 o1 (_ & P1 & V1).
    (* no pointer moved, so the [finally] block gives the caller's state back *)
    rewrite (leave_enter e c _ e1 P1). split; [exact Hi|split; [apply ptrs_eq_refl|]].
    destruct o1; auto.
  - destruct Hi as (Hg & Hc & Hs). unfold enter_call, owne. destruct (Nat.eqb (e_gctx e) c); cbn; repeat split; auto; apply ownt_nil.
Qed.

Lemma stmt_with_framed cfg ex : stmt_framed ex -> stmt_framed (stmt_with cfg ex).
Proof.
  intros HB. pose proof (block_framed _ HB) as Hb.
  intros w e s Ht Hi Hp. unfold stmt_with.
  inversion Hp as [x ex1|m x ex1|f gl body Pb|d c|c|ex1| |ex1 b1 b2 P1 P2|b1 h P1 P2|c| ]; subst.
  - (* SAssign *) destruct (eval_expr w e ex1) as [v|] eqn:Ev; [|apply framed_same; auto].
    apply assign_framed; [assumption..|]. eapply eval_own; eauto.
  - (* SAttrAssign *)
    destruct (eval_expr w e ex1) as [v|] eqn:Ev; [|apply framed_same; auto].
    destruct (lookup_name w e m) as [u|] eqn:L; [|apply framed_same; auto].
    pose proof (lookup_own _ _ _ _ Ht Hi L) as C. destruct u; try (apply framed_same; auto).
    split; [apply frame_set_tab; [apply MS, C|exact Ht|eapply eval_own; eauto]|auto using ptrs_eq_refl].
  - (* SDef *) apply assign_framed; [assumption..|]. destruct Hi as (_ & Hc & _). cbn; auto.
  - (* SCall *) destruct (resolve_cref w e c) as [fv|] eqn:R; [|apply framed_same; auto].
    pose proof (call_framed _ Hb 0 w e fv Ht Hi (cref_own _ _ _ _ Ht Hi R)) as H1.
    destruct (call_with (block_with ex) 0 w e fv) as [[w1 e1] o1]. destruct o1; try exact H1.
    eapply framed_seq; [exact H1|discriminate|]. intros Ht1 Hi1 Cv.
    destruct d as [x|]; [apply assign_framed; assumption|apply framed_same; auto].
  - (* STask *) destruct (resolve_cref w e c) as [fv|] eqn:R; [|apply framed_same; auto].
    assert (If : owne (fresh_ev (e_gctx e))) by (destruct Hi as (_ & Hc & _); unfold owne; cbn; auto).
    pose proof (call_framed _ Hb 0 w _ fv Ht If (cref_own _ _ _ _ Ht Hi R)) as H1.
    destruct (call_with (block_with ex) 0 w (fresh_ev (e_gctx e)) fv) as [[w1 e1] o1]. destruct H1 as (F1 & _).
    destruct o1; split; auto using ptrs_eq_refl.
  - (* SReturn *) destruct (eval_expr w e ex1) as [v|] eqn:Ev; [|apply framed_same; auto].
    apply framed_same; auto. eapply eval_own; eauto.
  - (* SRaise *) apply framed_same; auto.
  - (* SIf *) destruct (eval_expr w e ex1) as [v|]; [|apply framed_same; auto].
    destruct (truthy v); apply Hb; assumption.
  - (* STry *) pose proof (Hb w e b1 Ht Hi P1) as H1. destruct (block_with ex w e b1) as [[w1 e1] o1].
    destruct o1; try exact H1. eapply framed_seq; [exact H1|discriminate|]. intros Ht1 Hi1 _. apply Hb; assumption.
  - (* SCallBad *) apply framed_same; auto.
  - (* SSleep *) apply framed_same; auto.
Qed.

Lemma exec_framed cfg fuel : stmt_framed (exec cfg fuel).
Proof.
  induction fuel as [|fuel IH].
  - intros w e s Ht Hi Hp. apply framed_same; auto.
  - cbn [exec]. apply stmt_with_framed, IH.
Qed.
Lemma exec_block_framed cfg fuel : blk_framed (exec_block cfg fuel).
Proof. exact (block_framed _ (exec_framed cfg fuel)). Qed.
End Frame.

Lemma frame : forall cfg fuel a w e prog w' e' o,
  closedt a (tab w a) -> in_ctx a e -> Forall pure prog ->
  exec_block cfg fuel w e prog = (w', e', o) ->
  (forall c, c <> a -> ctx_of w' c = ctx_of w c) /\ w_mgr w' = w_mgr w /\ closedt a (tab w' a) /\
  (o <> OFuel -> in_ctx a e').
Proof.
  intros cfg fuel a w e prog w' e' o Ht Hi Hp H.
  assert (Hw : ownw (fun c => c = a) (fun _ => False) w) by (intros c ->; exact Ht).
  assert (MS : forall c : nat, False -> c = a) by (intros c []).
  pose proof (exec_block_framed _ _ MS cfg fuel w e prog Hw Hi Hp) as R. rewrite H in R. destruct R as ((F1 & F2 & F4) & K).
  split; [exact F1|split; [exact F4|split; [exact (F2 a eq_refl)|]]]. intros NF. apply K, NF.
Qed.

Lemma frame_load : forall cfg fuel w n rel src w' ok,
  Forall pure src -> run_op cfg fuel w (OpLoad n rel src) = (w', ok) ->
  (forall c, c < length (w_ctxs w) -> ctx_of w' c = ctx_of w c) /\
  (forall m, m <> n -> pget (w_mgr w') m = pget (w_mgr w) m).
Proof.
  intros cfg fuel w n rel src w' ok Hp H. cbn [run_op] in H. unfold new_ctx in H.
  set (a := length (w_ctxs w)) in *.
  set (w1 := set_ctxs w (w_ctxs w ++ [{| g_name := n; g_rel := rel; g_tab := []; g_mod := false; g_imports := [] |}])) in *.
  assert (T1 : tab w1 a = []).
  { unfold tab, ctx_of, w1; cbn. rewrite nth_error_app2 by (unfold a; lia). unfold a. rewrite Nat.sub_diag. reflexivity. }
  destruct (exec_block cfg fuel w1 (fresh_ev a) src) as [[w2 e2] o2] eqn:B.
  assert (Ht : closedt a (tab w1 a)) by (rewrite T1; intros x v E; discriminate).
  assert (Hi : in_ctx a (fresh_ev a)) by (unfold in_ctx; cbn; auto).
  destruct (frame _ _ _ _ _ _ _ _ _ Ht Hi Hp B) as (F1 & F2 & _ & _).
  assert (K : forall c, c < a -> ctx_of w2 c = ctx_of w c).
  { intros c L. rewrite F1 by lia. unfold ctx_of, w1; cbn. apply nth_error_app1. exact L. }
  assert (Same : forall m, pget (w_mgr w2) m = pget (w_mgr w) m) by (intros m; rewrite F2; reflexivity).
  assert (E : w' = match o2 with ONormal => set_mgr w2 (pset (w_mgr w2) n a) | _ => w2 end) by (destruct o2; inversion H; reflexivity).
  subst w'. split.
  - intros c L. rewrite <- (K c L). destruct o2; reflexivity.
  - intros m Hm. rewrite <- Same. destruct o2; try reflexivity.
    cbn. rewrite pget_pset, path_eqb_neq by exact Hm. reflexivity.
Qed.

(* what x denotes in a body of context c whose frame does not bind it: c's entry, unless x is assigned in the body and not
   declared global; it mentions no caller *)
Definition resolve_global (w : world) (c : nat) (fi : finfo) (x : N) : option val :=
  if memN x (fi_gl fi) then tget (tab w c) x
  else match tget (tab w c) x with
       | Some v => if memN x (fi_ln fi) then None else Some v
       | None => None
       end.

(* [global_sym_table] is the table of [global_ctx] *)
Definition coherent (e : evst) : Prop := e_gst e = e_gctx e.

(* [e] runs a body of context [c] with name sets [fi] and frame [t] *)
Definition in_body (c : nat) (fi : finfo) (t : table) (e : evst) : Prop :=
  e_gst e = c /\ e_gctx e = c /\ e_func e = Some fi /\ e_sym e = SymL t.

Lemma enter_in_body e c fi : coherent e -> in_body c fi [] (enter_call e c fi).
Proof.
  intros Co. unfold in_body, enter_call, coherent in *. destruct (Nat.eqb (e_gctx e) c) eqn:E; cbn; auto.
  apply Nat.eqb_eq in E. repeat split; congruence.
Qed.

Lemma lookup_in_body w e1 c fi t x : in_body c fi t e1 ->
  lookup_name w e1 x =
    if memN x (fi_gl fi) then tget (tab w c) x
    else match tget t x with Some v => Some v | None => resolve_global w c fi x end.
Proof.
  intros (Hg & _ & Hf & Hs). unfold lookup_name, is_global_decl, is_local_name, resolve_global, sym_get. rewrite Hg, Hf, Hs.
  destruct (memN x (fi_gl fi)); reflexivity.
Qed.

Lemma assign_in_body w e1 c fi x v :
  e_gst e1 = c -> e_func e1 = Some fi -> memN x (fi_gl fi) = true ->
  assign_name w e1 x v = (set_tab w c x v, e1).
Proof. intros Hg Hf Hm. unfold assign_name, is_global_decl. rewrite Hf, Hm, Hg. reflexivity. Qed.

(* the state in which the k-th statement of a body runs *)
Lemma body_state : forall cfg fuel w e c fi pre w1 e1,
  coherent e ->
  exec_block cfg fuel w (enter_call e c fi) pre = (w1, e1, ONormal) -> w_nsw w1 = w_nsw w ->
  exists t, in_body c fi t e1.
Proof.
  intros cfg fuel w e c fi pre w1 e1 Co H EQ.
  destruct (enter_in_body e c fi Co) as (S1 & S2 & S4 & S3).
  pose proof (holds_exec_block _ _ kept_respected cfg fuel w (enter_call e c fi) pre) as K. rewrite H in K.
  destruct K as (_ & K). destruct (K ltac:(discriminate)) as (_ & P). destruct (P EQ) as (Pg & _ & Pc & Pf & Pk).
  rewrite S3 in Pk. destruct (e_sym e1) as [c0|t] eqn:Bs; [contradiction|]. exists t. repeat split; congruence.
Qed.

(* on entry every name resolves in the defining context, whoever calls *)
Lemma lookup_on_entry w e c fi x : coherent e -> lookup_name w (enter_call e c fi) x = resolve_global w c fi x.
Proof.
  intros Co. rewrite (lookup_in_body w _ c fi [] x (enter_in_body e c fi Co)).
  unfold resolve_global. cbn. destruct (memN x (fi_gl fi)); reflexivity.
Qed.

Lemma defining_globals : forall cfg fuel w e1 e2 c fi pre w1 e1' x,
  coherent e1 -> coherent e2 ->
  lookup_name w (enter_call e1 c fi) x = resolve_global w c fi x /\
  lookup_name w (enter_call e2 c fi) x = lookup_name w (enter_call e1 c fi) x /\
  (exec_block cfg fuel w (enter_call e1 c fi) pre = (w1, e1', ONormal) -> w_nsw w1 = w_nsw w ->
   exists t, e_sym e1' = SymL t /\
     lookup_name w1 e1' x = if memN x (fi_gl fi) then tget (tab w1 c) x
                           else match tget t x with Some v => Some v | None => resolve_global w1 c fi x end).
Proof.
  intros cfg fuel w e1 e2 c fi pre w1 e1' x Co1 Co2.
  split; [apply lookup_on_entry, Co1|]. split; [rewrite !lookup_on_entry by assumption; reflexivity|].
  intros H EQ. destruct (body_state _ _ _ _ _ _ _ _ _ Co1 H EQ) as (t & B).
  exists t. split; [apply B|apply lookup_in_body, B].
Qed.

(* third instance: only [set_global_ctx] and the two ends of a call write the two pointers *)
Definition co_kept (_ : world) (e : evst) (_ : world) (e' : evst) : Prop := coherent e -> coherent e'.

Lemma co_kept_respected : respected (fun _ _ => True) co_kept.
Proof.
  constructor; unfold co_kept; auto.
  - (* rs_setctx *) intros w e c _. reflexivity.
  - (* rs_leave *) intros w e c fi w1 e1 K C. unfold leave_call, enter_call, coherent in *.
    destruct (Nat.eqb (e_gctx e) c); cbn in *; auto.
Qed.

(* [fresh_ev] is coherent, so every evaluator met is: the hypothesis of [defining_globals] *)
Lemma coherent_kept cfg fuel w e prog w' e' o :
  exec_block cfg fuel w e prog = (w', e', o) -> o <> OFuel -> coherent e -> coherent e'.
Proof.
  intros H NF. pose proof (holds_exec_block _ _ co_kept_respected cfg fuel w e prog) as K. rewrite H in K. exact (proj2 K NF).
Qed.

Definition is_load (n : path) (l : lev) : bool := match l with LLoad m _ => path_eqb m n | LImp _ _ => false end.
Definition nloads (n : path) (log : list lev) : nat := length (filter (is_load n) log).

Lemma nloads_zero n log : (forall c, ~ In (LLoad n c) log) -> nloads n log = 0.
Proof.
  intros H. unfold nloads. rewrite filter_none; [reflexivity|].
  intros [m c|m c] Hin; [|reflexivity]. apply path_eqb_neq. intros ->. exact (H c Hin).
Qed.
Lemma nloads_registered n m c log :
  nloads n (LImp m c :: LLoad m c :: log) = if path_eqb m n then S (nloads n log) else nloads n log.
Proof. unfold nloads. cbn. destruct (path_eqb m n); reflexivity. Qed.

Fixpoint load_names (ops : list op) : list path :=
  match ops with [] => [] | OpLoad n _ _ :: r => n :: load_names r | _ :: r => load_names r end.

Definition lev_name (l : lev) : path := match l with LLoad n _ | LImp n _ => n end.
Definition lev_ctx (l : lev) : nat := match l with LLoad _ c | LImp _ c => c end.

(* the singleton invariant at one name: every entry of the log, load or import, names the context the manager has; that
   context is a loaded module, so [find_loaded] finds it *)
Set Implicit Arguments.
Record single_at (w : world) (n : path) : Prop := {
  s_entry : forall l, In l (w_log w) -> lev_name l = n -> pget (w_mgr w) n = Some (lev_ctx l);
  s_registered : forall c, pget (w_mgr w) n = Some c -> modflag w c = true /\ In (LLoad n c) (w_log w);
  s_once : nloads n (w_log w) <= 1
}.
Unset Implicit Arguments.

Section Singleton.
Variable T : list path.      (* names of the autoloaded (non-module) contexts *)

Definition single (w : world) : Prop := forall n, ~ In n T -> single_at w n.

Lemma single_mono w w' : w_mgr w' = w_mgr w -> w_log w' = w_log w ->
  (forall c, modflag w c = true -> modflag w' c = true) -> single w -> single w'.
Proof.
  intros Vm Vl Vf Hj n Hn. destruct (Hj n Hn) as [Ja Jc Jd].
  constructor; rewrite ?Vm, ?Vl; auto.
  intros c P. destruct (Jc c P) as (F & L). auto.
Qed.
Lemma single_new_ctx w n rel : single w -> single (fst (new_ctx w n rel)).
Proof.
  apply single_mono; try reflexivity. intros c Hc. unfold modflag, ctx_of in *. cbn.
  rewrite nth_error_app1; [exact Hc|]. apply modflag_lt, Hc.
Qed.

Lemma single_registered w w' cn c : single w -> (~ In cn T -> pget (w_mgr w) cn = None) -> c < length (w_ctxs w) ->
  w_mgr w' = pset (w_mgr w) cn c -> w_log w' = LImp cn c :: LLoad cn c :: w_log w ->
  (forall c0, modflag w' c0 = modflag (mark_module w c) c0) -> single w'.
Proof.
  intros Hj Hnone Lc Em El Ef n Hn. destruct (Hj n Hn) as [Ja Jc Jd].
  destruct (list_eq_dec N.eq_dec n cn) as [->|Ne].
  - (* the old log has no entry at cn *)
    assert (NE : forall l, In l (w_log w) -> lev_name l <> cn).
    { intros l Hi E. pose proof (Ja l Hi E) as P. rewrite (Hnone Hn) in P. discriminate. }
    constructor; rewrite El, ?Em, ?pget_pset, ?(eqb_refl_of _ path_eqb_eq).
    + intros l [<-|[<-|Hi]] E; [reflexivity|reflexivity|destruct (NE l Hi E)].
    + intros c0 E. inversion E; subst c0. split; [rewrite Ef; apply modflag_mark_eq, Lc|right; left; reflexivity].
    + rewrite nloads_registered, (eqb_refl_of _ path_eqb_eq), (nloads_zero cn (w_log w)); [lia|].
      intros c0 Hi. exact (NE _ Hi eq_refl).
  - constructor; rewrite El, ?Em, ?pget_pset, ?(path_eqb_neq n cn Ne).
    + intros l [<-|[<-|Hi]] E; [destruct (Ne (eq_sym E))|destruct (Ne (eq_sym E))|auto].
    + intros c0 P. destruct (Jc _ P) as (F & L). split; [rewrite Ef; apply modflag_mark_mono, F|right; right; exact L].
    + rewrite nloads_registered, (path_eqb_neq cn n) by congruence. exact Jd.
Qed.

Definition guarded (w : world) : Prop :=
  NoDup (w_loading w) /\ forall n, In n (w_loading w) -> ~ In n T -> pget (w_mgr w) n = None.

(* once an import cycle has been flagged it claims nothing *)
Definition inv (w : world) : Prop := w_cyc w = false -> single w /\ guarded w.

Set Implicit Arguments.
Record ext (w w' : world) : Prop := {
  x_len : length (w_ctxs w) <= length (w_ctxs w');
  x_loading : w_loading w' = w_loading w;
  x_inv : inv w -> inv w'
}.
Unset Implicit Arguments.

Lemma ext_refl w : ext w w.
Proof. constructor; auto. Qed.
Lemma ext_trans w1 w2 w3 : ext w1 w2 -> ext w2 w3 -> ext w1 w3.
Proof.
  intros A B. constructor.
  - pose proof (x_len A); pose proof (x_len B); lia.
  - rewrite (x_loading B). apply (x_loading A).
  - intros H. apply (x_inv B), (x_inv A), H.
Qed.

Definition sameview (w w' : world) : Prop :=
  w_mgr w' = w_mgr w /\ w_log w' = w_log w /\ w_loading w' = w_loading w /\ w_cyc w' = w_cyc w /\
  length (w_ctxs w') = length (w_ctxs w) /\ (forall c, modflag w' c = modflag w c).
Lemma ext_view w w' : sameview w w' -> ext w w'.
Proof.
  intros (Vm & Vl & Vg & Vc & Vn & Vf). constructor; [lia|exact Vg|].
  unfold inv, guarded. rewrite Vc, Vg, Vm. intros H Hc. destruct (H Hc) as (Hj & G). split; [|exact G].
  revert Hj. apply single_mono; auto. intros c. rewrite Vf. auto.
Qed.
Lemma view_set_tab w c x v : sameview w (set_tab w c x v).
Proof. unfold sameview, set_tab. repeat split; cbn; auto using upd_nth_length. apply modflag_upd. reflexivity. Qed.
Lemma view_add_import w c n : sameview w (add_import w c n).
Proof. unfold sameview, add_import. repeat split; cbn; auto using upd_nth_length. apply modflag_upd. reflexivity. Qed.
Lemma view_bump w : sameview w (bump_nsw w).
Proof. unfold sameview; cbn. repeat split. Qed.

Lemma ext_imported w cn c : pget (w_mgr w) cn = Some c -> ext w (add_log w [LImp cn c]).
Proof.
  intros Pm. constructor; cbn; auto.
  intros H Hc. destruct (H Hc) as (Hj & G). split; [|exact G].
  intros n Hn. destruct (Hj n Hn) as [Ja Jc Jd]. constructor; cbn.
  - intros l [<-|Hin] E; [cbn in E; subst n; exact Pm|auto].
  - intros c0 P. destruct (Jc _ P) as (F & L). split; [exact F|right; exact L].
  - exact Jd.
Qed.

Lemma inv_new_ctx w n rel : inv w -> inv (fst (new_ctx w n rel)).
Proof. intros H Hc. destruct (H Hc) as (Hj & G). split; [apply single_new_ctx, Hj|exact G]. Qed.

Lemma inv_created w cn rel : (forall c0, pget (w_mgr w) cn = Some c0 -> modflag w c0 = false) -> inv w -> inv (w_created w cn rel).
Proof.
  intros NR H Hc. cbn in Hc. apply orb_false_iff in Hc as (Hc & Hm). destruct (H Hc) as (Hj & Nd & G).
  split; [apply single_new_ctx, (single_mono w); auto|]. split.
  - (* the flag is still down, so cn was not being loaded already *)
    constructor; [rewrite <- memP_In; congruence|exact Nd].
  - (* were cn registered it would have its module object ([s_registered]), which the hypothesis denies *)
    intros n [<-|Hn] HT; [|exact (G n Hn HT)]. change (pget (w_mgr w) cn = None).
    destruct (pget (w_mgr w) cn) as [c0|] eqn:P; [|reflexivity].
    destruct (s_registered (Hj cn HT) P) as (F & _). rewrite (NR _ eq_refl) in F. discriminate.
Qed.
Lemma inv_popped w3 cn l : w_loading w3 = cn :: l -> inv w3 -> inv (w_popped w3).
Proof.
  intros El H Hc. destruct (H Hc) as (Hj & Nd & G). rewrite El in Nd, G. inversion Nd; subst.
  split; [apply (single_mono w3); auto|]. unfold guarded; cbn. rewrite El. split; [assumption|]. intros n Hn. apply G. right; exact Hn.
Qed.
Lemma inv_registered w3 cn l c self : w_loading w3 = cn :: l -> c < length (w_ctxs w3) ->
  inv w3 -> inv (w_registered (w_popped w3) cn c self).
Proof.
  intros El Lc H Hc. destruct (H Hc) as (Hj & Nd & G). rewrite El in Nd, G. inversion Nd as [|? ? Ncn Nl]; subst.
  split.
  - apply (single_registered w3 _ cn c); [exact Hj|intros Hn; apply G; [left; reflexivity|exact Hn]|exact Lc|reflexivity|reflexivity|].
    (* neither [add_import] nor the log touches a flag *)
    intros c0. apply (modflag_upd (mark_module w3 c)). reflexivity.
  - unfold guarded; cbn. rewrite El. split; [exact Nl|]. intros n Hn HT.
    rewrite pget_pset, path_eqb_neq; [apply G; [right; exact Hn|exact HT]|]. intros ->. exact (Ncn Hn).
Qed.

Definition exts (w : world) (_ : evst) (w' : world) (_ : evst) : Prop := ext w w'.

Lemma ext_respected : respected ext exts.
Proof.
  constructor; unfold exts.
  - (* rw_refl *) apply ext_refl.
  - (* rs_trans *) intros w1 _ w2 _ w3 _. apply ext_trans.
  - (* rs_rw *) auto.
  - (* rs_of_rw *) auto.
  - (* rw_set_tab *) intros. apply ext_view, view_set_tab.
  - (* rs_local *) intros. apply ext_refl.
  - (* rs_setctx *) intros. apply ext_view, view_bump.
  - (* rs_leave *) auto.
  - (* rw_found *) intros w self cn c P.
    eapply ext_trans; [apply ext_view, view_add_import|apply ext_imported, P].
  - (* rw_loaded *) intros w self cn rel w3 NR X.
    pose proof (x_loading X : w_loading w3 = cn :: w_loading w) as El.
    pose proof (x_len X) as L. rewrite created_length in L.
    assert (I3 : inv w -> inv w3) by (intros H; apply (x_inv X), (inv_created _ _ _ NR), H).
    split; constructor.
    + (* popped *) cbn. lia.
    + cbn. rewrite El. reflexivity.
    + intros H. exact (inv_popped _ _ _ El (I3 H)).
    + (* registered *) cbn. rewrite !upd_nth_length. lia.
    + cbn. rewrite El. reflexivity.
    + intros H. apply (inv_registered _ _ _ _ _ El), I3, H. lia.
Qed.

Lemma exec_block_ext cfg fuel w e l : holds ext exts w e (exec_block cfg fuel w e l).
Proof. apply holds_exec_block, ext_respected. Qed.

Lemma inv_set_autoloaded w n c : In n T -> inv w -> inv (set_mgr w (pset (w_mgr w) n c)).
Proof.
  intros Hn H Hc. destruct (H Hc) as (Hj & Nd & G). split; [|split; [exact Nd|]].
  - intros m Hm. destruct (Hj m Hm) as [Ja Jc Jd].
    constructor; cbn [w_log w_mgr set_mgr]; rewrite ?pget_pset, ?path_eqb_neq by congruence; auto.
  - intros m Hm HT. cbn. rewrite pget_pset, path_eqb_neq by congruence. auto.
Qed.

Lemma run_trig_inv cfg fuel w n f : inv w -> inv (fst (run_trig cfg fuel w n f)).
Proof.
  intros Hk. unfold run_trig. destruct (pget (w_mgr w) n) as [c|]; [|exact Hk].
  destruct (tget (tab w c) f) as [[| | |c' f' gl body| |]|]; try exact Hk.
  pose proof (holds_call _ _ ext_respected _ (exec_block_ext cfg fuel) 0 w (fresh_ev c') (VFun c' f' gl body)) as X.
  unfold call_fun. destruct (call_with (exec_block cfg fuel) 0 w (fresh_ev c') (VFun c' f' gl body)) as [[w1 e1] o1].
  exact (x_inv (proj1 X) Hk).
Qed.

Lemma run_op_inv cfg fuel w o : (forall n rel src, o = OpLoad n rel src -> In n T) -> inv w -> inv (fst (run_op cfg fuel w o)).
Proof.
  intros HT Hk. destruct o as [n rel src|n f|n f g v]; cbn [run_op].
  - cbv beta iota zeta delta [new_ctx].
    match goal with |- context [exec_block cfg fuel ?W ?E src] =>
      pose proof (exec_block_ext cfg fuel W E src) as X; destruct (exec_block cfg fuel W E src) as [[w2 e2] o2] end.
    pose proof (x_inv (proj1 X) (inv_new_ctx w n rel Hk)) as K2.
    destruct o2; try exact K2. apply inv_set_autoloaded, K2. exact (HT n rel src eq_refl).
  - apply run_trig_inv, Hk.
  - destruct (pget (w_mgr w) n) as [c|]; [|exact Hk].
    destruct (tget (tab w c) g) as [[t| | | | |]|]; try exact Hk.
    destruct (Z.ltb t v); [apply run_trig_inv, Hk|exact Hk].
Qed.

Lemma run_ops_inv cfg fuel : forall ops w, (forall n, In n (load_names ops) -> In n T) -> inv w -> inv (fst (run_ops cfg fuel w ops)).
Proof.
  induction ops as [|o r IH]; intros w HT Hk; cbn; [exact Hk|].
  assert (K1 : inv (fst (run_op cfg fuel w o))).
  { apply run_op_inv; [|exact Hk]. intros n rel src ->. apply HT. left; reflexivity. }
  destruct (run_op cfg fuel w o) as [w1 [|]]; [|exact K1].
  apply IH; [|exact K1]. intros n Hn. apply HT. destruct o; [right; exact Hn|exact Hn|exact Hn].
Qed.

End Singleton.

Lemma inv_init T fs : inv T (init_world fs).
Proof.
  intros _. split; [|split; [constructor|intros ? []]].
  intros n _. constructor; cbn; try contradiction; try discriminate. unfold nloads; cbn; lia.
Qed.

Lemma module_singleton : forall cfg fuel fs ops w ok,
  run_ops cfg fuel (init_world fs) ops = (w, ok) -> w_cyc w = false ->
  forall n, ~ In n (load_names ops) ->
    nloads n (w_log w) <= 1 /\
    (forall c1 c2, In (LLoad n c1) (w_log w) -> In (LLoad n c2) (w_log w) -> c1 = c2) /\
    (forall c, In (LImp n c) (w_log w) ->
       In (LLoad n c) (w_log w) /\ pget (w_mgr w) n = Some c /\ modflag w c = true).
Proof.
  intros cfg fuel fs ops w ok H Hc n Hn.
  pose proof (run_ops_inv (load_names ops) cfg fuel ops _ (fun _ h => h) (inv_init _ fs)) as Hj. rewrite H in Hj.
  destruct (proj1 (Hj Hc) n Hn) as [Ja Jc Jd].
  split; [exact Jd|]. split.
  - intros c1 c2 H1 H2. pose proof (Ja _ H1 eq_refl) as P1. pose proof (Ja _ H2 eq_refl) as P2. cbn in P1, P2. congruence.
  - intros c Hi. pose proof (Ja _ Hi eq_refl : pget (w_mgr w) n = Some c) as P. destruct (Jc _ P) as (F & L). auto.
Qed.

(* without a usable __all__, or with D111 on, a star import copies exactly the names without underscore *)
Lemma star_items_default cfg t : d_star_all cfg = true \/ (forall names, tget t n_all <> Some (VNames names)) ->
  star_items cfg t = Some (filter (fun '(x, _) => negb (is_under x)) t).
Proof.
  intros H. unfold star_items. rewrite (proj1 (proj2 consts_ctx)). destruct (d_star_all cfg); [reflexivity|].
  destruct H as [H|H]; [discriminate|]. destruct (tget t n_all) as [[| |names| | |]|]; try reflexivity. destruct (H names eq_refl).
Qed.

Lemma star_no_underscore cfg t l : tget t n_all = None -> star_items cfg t = Some l ->
  forall x v, In (x, v) l -> is_under x = false.
Proof.
  intros Hn H x v Hin. rewrite star_items_default in H by (right; congruence). inversion H; subst l.
  apply filter_In in Hin. destruct Hin as (_ & Hx). destruct (is_under x); [discriminate|reflexivity].
Qed.

(* with D111 off a module's __all__ is the exact list of copied names *)
Lemma star_items_all cfg t names l : d_star_all cfg = false -> tget t n_all = Some (VNames names) -> star_items cfg t = Some l ->
  map fst l = names /\ forall x v, In (x, v) l -> tget t x = Some v.
Proof.
  intros Hd Ha H. unfold star_items in H. rewrite Hd, Ha in H. clear Ha.
  revert l H. induction names as [|x r IH]; intros l H; cbn in H.
  - inversion H; subst. split; [reflexivity|intros ? ? []].
  - destruct (fold_right _ (Some []) r) as [a|] eqn:F; [|discriminate].
    destruct (tget t x) as [v|] eqn:G; [|discriminate]. inversion H; subst.
    destruct (IH a eq_refl) as (M & K). split; [cbn; congruence|].
    intros y u [E|Hin]; [inversion E; subst; exact G|apply K; exact Hin].
Qed.

Lemma star_all_respected t names l : tget t n_all = Some (VNames names) -> star_items all_off t = Some l ->
  map fst l = names /\ forall x v, In (x, v) l -> tget t x = Some v.
Proof. exact (star_items_all all_off t names l eq_refl). Qed.

Definition only_D110 : deviations := {| d_rel_sibling := true; d_star_all := false |}.
Definition only_D111 : deviations := {| d_rel_sibling := false; d_star_all := true |}.
Definition total_loads (w : world) : nat := length (filter (fun l => match l with LLoad _ _ => true | _ => false end) (w_log w)).

(* names: pkg=16 sib=17 other=18 m1=14 a=10 b=11; g=100 h=101 cnt=103; bump=200 boom=203 *)
Definition ex_bump : stmt := SDef 200 [103%N] [SAssign 103 (EAddLit 103 1)].
Definition ex_fs_pkg : list (path * list stmt) :=
  [ ([3; 16; 18]%N, [SAssign 103 (ELit 0); ex_bump]);
    ([3; 16; 17]%N, [SFromDot 1 [(18%N, 18%N)]; SCall None (CAttr 18 200)]);
    ([3; 16; 5]%N, [SFromDot 1 [(17%N, 17%N)]; SFromDot 1 [(18%N, 18%N)]; SCall None (CAttr 18 200); SAssign 100 (EAttr 18 103)]) ].
Definition ex_ops_pkg : list op :=
  [ OpLoad [1; 10]%N None [SImport [16%N] 16; SAssign 100 (EAttr 16 100)];
    OpLoad [1; 11]%N None [SFrom [16%N] 0 [(100%N, 101%N)]; SImport [16%N] 16] ].

Example singleton_inhabited :
  let '(w, ok) := run_ops all_off 50 (init_world ex_fs_pkg) ex_ops_pkg in
  ok = true /\ w_cyc w = false /\ total_loads w = 3 /\
  length (filter (fun l => match l with LImp [3; 16]%N _ => true | _ => false end) (w_log w)) = 3 /\
  tget (tab w 0) 100 = Some (VInt 2).
Proof. vm_compute. repeat split. Qed.

(* D110: modules/pkg/other.py is loaded twice (4 loads for 3 files) and pkg/__init__.py does not see the call that
   pkg/sib.py made *)
Lemma singleton_refuted_D110 :
  let '(w, ok) := run_ops only_D110 50 (init_world ex_fs_pkg) ex_ops_pkg in
  ok = true /\ w_cyc w = false /\ total_loads w = 4 /\ length ex_fs_pkg = 3 /\
  tget (tab w 0) 100 = Some (VInt 1).
Proof. vm_compute. repeat split. Qed.

Definition ex_fs_star : list (path * list stmt) :=
  [ ([3; 14]%N, [SAssign 100 (ELit 1); SAssign 101 (ELit 2); SAssign 900 (ENames [100%N])]) ].
Definition ex_ops_star : list op := [ OpLoad [1; 10]%N None [SAssign 101 (ELit 7); SFromStar [14%N] 0] ].
Lemma star_refuted_D111 :
  tget (tab (fst (run_ops only_D111 50 (init_world ex_fs_star) ex_ops_star)) 0) 101 = Some (VInt 2) /\
  tget (tab (fst (run_ops all_off 50 (init_world ex_fs_star) ex_ops_star)) 0) 101 = Some (VInt 7).
Proof. vm_compute. split; reflexivity. Qed.

(* a cyclic import: the side condition of the singleton theorem can fail *)
Example cyclic_flagged :
  w_cyc (fst (run_ops all_off 30 (init_world [([3; 14]%N, [SImport [15%N] 15]); ([3; 15]%N, [SImport [14%N] 14])])
                [OpLoad [1; 10]%N None [SImport [14%N] 14]])) = true.
Proof. vm_compute. reflexivity. Qed.

(* frame: file a and module m1 share the global names g, cnt and a function name; a pure program run in a *)
Definition ex_pure_prog : list stmt :=
  [ SAssign 100 (ELit 5); ex_bump; SAssign 103 (ELit 1); SCall None (CName 200);
    SDef 203 [100%N] [SAssign 100 (EAddLit 100 10); SRaise];
    STry [SCall None (CName 203)] [SAssign 101 (EName 100)]; STask (CName 200) ].
Example frame_inhabited : Forall pure ex_pure_prog /\
  let w0 := fst (run_ops all_off 50 (init_world [([3; 14]%N, [SAssign 100 (ELit 9); SAssign 103 (ELit 9); ex_bump])])
                   [OpLoad [1; 11]%N None [SImport [14%N] 14]]) in
  let '(w, ok) := run_op all_off 50 w0 (OpLoad [1; 10]%N None ex_pure_prog) in
  ok = true /\ tab w 1 = tab w0 1 /\ tget (tab w 2) 100 = Some (VInt 15) /\ tget (tab w 2) 103 = Some (VInt 3) /\
  tget (tab w 1) 103 = Some (VInt 9).
Proof. split; [unfold ex_pure_prog, ex_bump; repeat constructor|vm_compute; repeat split]. Qed.

(* call_restores: a cross-context call that raises, made from inside a function of another file *)
Example call_restores_inhabited :
  let w0 := fst (run_ops all_off 50 (init_world [([3; 14]%N, [SAssign 100 (ELit 9); SDef 203 [100%N] [SAssign 100 (EAddLit 100 10); SRaise]])])
                   [OpLoad [1; 10]%N None [SImport [14%N] 14]]) in
  let e := {| e_gst := 0; e_sym := SymL [(300%N, VInt 4)]; e_stack := [SymG 0]; e_gctx := 0; e_func := Some {| fi_gl := []; fi_ln := [300%N] |} |} in
  match tget (tab w0 1) 203 with
  | Some f => let '(w', e', o) := call_fun all_off 50 w0 e f in
              o = OExc /\ e' = e /\ tget (tab w' 1) 100 = Some (VInt 19) /\ e_gctx e <> 1
  | None => False
  end.
Proof. vm_compute. repeat split. discriminate. Qed.
