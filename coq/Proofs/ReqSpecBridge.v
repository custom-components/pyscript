(* The Model with switch D25 off (the conformant one; with D24 on, when every pin parses) satisfies the executable Spec
   predicate [spec_table_ok] (C20, first sentence): for every list of lines, the table it computes passes the very check
   that the correspondence files apply to what the real code returned. *)
From PV Require Import Common.Util Gen.ReqConsts Req.Merge Req.Install Req.Spec Req.ReqCheck Proofs.ReqMerge.

(* the local [reqs] of [spec_table_ok] (Req/Spec.v), under a name *)
Definition spec_reqs (lines : list str) : list (str * option str) :=
  flat_map (fun l => match spec_line l with Some r => [r] | None => [] end) lines.

Lemma in_spec_reqs ls n ov : In (n, ov) (spec_reqs (map snd ls)) <-> requires true n ov ls.
Proof.
  unfold spec_reqs, requires. rewrite in_flat_map. split.
  - intros (l & Hl & H). apply in_map_iff in Hl as ([f l'] & <- & Hl). cbn [snd] in H. rewrite spec_line_parse in H.
    destruct (parse_line true l') as [| |n' ov'] eqn:Ep; [destruct H|destruct H|]. destruct H as [[= <- <-]|[]]. eauto.
  - intros (f & l & Hl & Hp). exists l. split; [exact (in_map snd _ _ Hl)|]. rewrite spec_line_parse, Hp. left. reflexivity.
Qed.

Lemma otable_under_name (t : table) n : NoDup (map fst t) -> (forall k, In k (map fst t) -> strip k = k) ->
  filter (fun kv : str * option str => str_eqb (strip (fst kv)) n) (table_otable t) =
  match tlookup n t with Some e => [(n, e_ver e)] | None => [] end.
Proof.
  induction t as [|[k0 e0] r IH]; intros ND Hs; [reflexivity|].
  cbn [map fst] in ND. inversion ND as [|? ? Hk ND']; subst.
  cbn [table_otable map filter fst snd tlookup]. fold (table_otable r).
  rewrite (Hs k0 (or_introl eq_refl)), (str_eqb_sym n k0), (IH ND') by (intros k Hk'; apply Hs; right; exact Hk').
  destruct (str_eqb_spec k0 n) as [->|_]; [|reflexivity].
  rewrite (tlookup_notin n r Hk). reflexivity.
Qed.

Lemma in_pins_of n reqs v : In v (pins_of n reqs) <-> In (n, Some v) reqs.
Proof.
  unfold pins_of. rewrite in_flat_map. split.
  - intros ([n' ov] & Hin & H). cbn [fst snd] in H. destruct (str_eqb_spec n' n) as [->|_]; [|destruct H].
    destruct ov as [w|]; [|destruct H]. destruct H as [<-|[]]. exact Hin.
  - intros Hin. exists (n, Some v). split; [exact Hin|]. cbn [fst snd]. rewrite str_eqb_refl. left. reflexivity.
Qed.

Section Bridge.
  Variable vvalid : str -> bool.
  Variable vle : str -> str -> bool.
  Variable installed : str -> option str.
  Hypothesis vle_total : forall a b, vvalid a = true -> vvalid b = true -> vle a b = true \/ vle b a = true.
  Hypothesis vle_trans : forall a b c, vvalid a = true -> vvalid b = true -> vvalid c = true ->
    vle a b = true -> vle b c = true -> vle a c = true.
  Hypothesis vvalid_nil : vvalid [] = false.
  Hypothesis vvalid_marker : vvalid unpinned_version = false.

  (* D25 off is what the proof needs of the switches: the keys are package names and a line is read as [spec_line] reads it *)
  Theorem stripped_table_ok cfg (ls : list (N * str)) : d25_no_strip cfg = false -> cfg_ok vvalid cfg ls ->
    spec_table_ok vvalid vle (map snd ls) (table_otable (merge_lines vvalid vle installed cfg ls)) = true.
  Proof.
    intros D25 OK. set (t := merge_lines vvalid vle installed cfg ls).
    assert (ND : NoDup (map fst t)) by apply merge_lines_wf.
    assert (KS : forall k, In k (map fst t) -> strip k = k).
    { intros k. apply merge_lines_keys_stripped. exact D25. }
    pose proof (fun p => merge_max vvalid vle installed vle_total vle_trans vvalid_nil vvalid_marker cfg ls p OK) as MM.
    rewrite D25 in MM. cbn [negb] in MM. cbv zeta in MM. fold t in MM.
    assert (HP : forall n v, In v (pins_of n (spec_reqs (map snd ls))) <-> requires true n (Some v) ls).
    { intros n v. rewrite in_pins_of. apply in_spec_reqs. }
    unfold spec_table_ok. fold (spec_reqs (map snd ls)). apply andb_true_iff. split; apply forallb_forall.
    - (* every required package: exactly one entry, the highest pin *)
      intros [n ov] Hin. cbn [fst]. unfold spec_name_ok.
      destruct (existsb (fun v => negb (vvalid v)) (pins_of n (spec_reqs (map snd ls)))) eqn:Ex; [reflexivity|].
      assert (PV : forall v, requires true n (Some v) ls -> vvalid v = true).
      { intros v Hr. destruct (vvalid v) eqn:Ev; [reflexivity|]. apply not_true_iff_false in Ex. destruct Ex.
        apply existsb_exists. exists v. rewrite Ev. split; [apply HP; exact Hr|reflexivity]. }
      apply in_spec_reqs in Hin. specialize (MM n). rewrite (otable_under_name t n ND KS).
      destruct (tlookup n t) as [e|].
      2:{ destruct (MM ov Hin) as (v & -> & Iv). rewrite (PV v Hin) in Iv. discriminate. }
      destruct MM as (_ & MM). destruct (e_ver e) as [w|].
      + destruct MM as (Vw & Rw & Mx). apply HP in Rw.
        destruct (pins_of n (spec_reqs (map snd ls))) as [|p0 ps] eqn:Ep; [destruct Rw|]. rewrite <- Ep in *.
        rewrite Vw. cbn [andb]. unfold is_max. apply andb_true_iff. split.
        * apply existsb_exists. exists w. split; [exact Rw|]. unfold Merge.veq.
          rewrite (vle_refl vvalid vle vle_total w Vw). reflexivity.
        * apply forallb_forall. intros v Hv. apply HP in Hv. exact (Mx v Hv (PV v Hv)).
      + destruct MM as (_ & Mn).
        destruct (pins_of n (spec_reqs (map snd ls))) as [|p0 ps] eqn:Ep; [reflexivity|].
        assert (Hp : requires true n (Some p0) ls) by (apply HP; rewrite Ep; left; reflexivity).
        specialize (Mn p0 Hp). rewrite (PV p0 Hp) in Mn. discriminate.
    - (* no other key *)
      intros [k v] Hin. apply (in_map fst) in Hin. unfold table_otable in Hin. rewrite map_map in Hin. cbn [fst] in *.
      rewrite (KS k Hin). apply merge_lines_keys in Hin as (ov & Hr). rewrite D25 in Hr.
      apply existsb_exists. exists (k, ov). split; [apply in_spec_reqs; exact Hr|apply str_eqb_refl].
  Qed.

  Theorem conformant_table_ok (ls : list (N * str)) :
    spec_table_ok vvalid vle (map snd ls) (table_otable (merge_lines vvalid vle installed all_off ls)) = true.
  Proof. apply stripped_table_ok; [reflexivity|discriminate]. Qed.
End Bridge.
