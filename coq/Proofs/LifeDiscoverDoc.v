(* discover against the documented rules of docs/reference.rst: which files are auto-loaded (top level, scripts/**,
   configured apps with the package form preferred), under which context name, '#'-commented files and directories
   skipped.  The proofs go through the rows of the regenerated table ([load_paths_is]): a table that changes the rules
   breaks them. *)
From PV Require Import Common.Util Life.ReloadBase Gen.ReloadConsts Life.Modules Life.Reload Life.ReloadPlanSpec Life.ReloadSpec
  Proofs.LifeReloadBase Proofs.LifeDiscover.
From Coq Require Import Lia.

Lemma top_root_is : top_root = s_file.
Proof. reflexivity. Qed.

(* excludes __init__.py directly in a root directory (apps/__init__.py): [strip_init] would leave a one-segment name,
   which [sp_name_of] reads as a top-level file and prefixes with "file" *)
Definition nondeg (p : path) : Prop := ends_slash_init p = true -> (2 < length p)%nat.
Record tree_ok (t : tree) : Prop := {
  to_nodup : NoDup (map fst t);
  to_nondeg : forall p f, In (p, f) t -> nondeg p }.

(* scripts/a.py and scripts/a/__init__.py would both be "scripts.a" *)
Definition unambiguous (t : tree) (p : path) : Prop := forall p' f', In (p', f') t -> strip_init p' = strip_init p -> p' = p.

Lemma sp_name_of_long p : (2 <= length (strip_init p))%nat -> sp_name_of p = strip_init p.
Proof. unfold sp_name_of. destruct (strip_init p) as [|x [|y q]]; cbn; intros; try lia; reflexivity. Qed.

Lemma strip_init_len p : nondeg p -> (2 <= length p)%nat -> (2 <= length (strip_init p))%nat.
Proof.
  intros Hn Hl. unfold strip_init. destruct (ends_slash_init p) eqn:E; [|exact Hl].
  specialize (Hn E). destruct p as [|a p]; [cbn in Hl; lia|].
  assert (H : length (removelast (a :: p)) = length p).
  { clear. revert a. induction p as [|b p IH]; intros a; [reflexivity|]. cbn [removelast length] in *. rewrite IH. reflexivity. }
  rewrite H. cbn in Hn. lia.
Qed.

Lemma based_match lp b p : In lp load_paths -> lp_base lp = Some b -> lp_match lp p = true ->
  b <> top_root /\ exists x r, p = b :: x :: r.
Proof.
  intros Hlp Hb Hm. destruct (lp_match_based lp b p Hb Hm) as (r & -> & Hg).
  rewrite load_paths_is in Hlp. destruct Hlp as [<-|[<-|[<-|[<-|[<-|[<-|[<-|[<-|[]]]]]]]]]; inversion Hb; subst b.
  (* the base is apps, modules or scripts, and every pattern asks for a further segment *)
  all: split; [discriminate|]. all: destruct r as [|x r]; [discriminate Hg|eauto].
Qed.

Lemma name_of_inj lp lp' p p' : In lp load_paths -> In lp' load_paths -> lp_match lp p = true -> lp_match lp' p' = true ->
  name_of lp' p' = name_of lp p -> strip_init p' = strip_init p.
Proof.
  assert (Hmixed : forall lp b p q, In lp load_paths -> lp_base lp = Some b -> lp_match lp p = true -> top_root :: q <> strip_init p).
  { intros lp0 b p0 q Hlp Eb Hm E. destruct (based_match lp0 b p0 Hlp Eb Hm) as (Hne & x & r & ->).
    destruct (strip_init_head b (x :: r)) as (q' & Eq); [discriminate|]. rewrite Eq in E. inversion E. congruence. }
  intros Hlp Hlp' Hm Hm' E. unfold name_of in E.
  destruct (lp_base lp) as [b|] eqn:Eb, (lp_base lp') as [b'|] eqn:Eb'.
  - exact E.
  - destruct (Hmixed lp b p _ Hlp Eb Hm E).
  - destruct (Hmixed lp' b' p' _ Hlp' Eb' Hm' (eq_sym E)).
  - inversion E; reflexivity.
Qed.

Theorem discover_names t k s : tree_ok t -> In s (discover t k) ->
  sf_name s = sp_name_of (sf_path s) /\ hashed (sf_path s) = false /\ exists f, In (sf_path s, f) t /\ sf_gen s = f_gen f /\ sf_mtime s = f_mtime f.
Proof.
  intros [Hnd Hdeg] Hs. destruct (discover_cand t k s Hs) as (lp & p & f & Hlp & Hf & Had & ->).
  apply admits_spec in Had. destruct Had as (Hm & Hv & _). cbn [mk_entry sf_name sf_path sf_gen sf_mtime].
  split; [|split; [exact Hv|exists f; auto]]. unfold name_of.
  destruct (lp_base lp) as [b|] eqn:Eb.
  - destruct (based_match lp b _ Hlp Eb Hm) as (_ & x & r & Ep). symmetry.
    apply sp_name_of_long, strip_init_len; [apply (Hdeg _ f Hf)|]. rewrite Ep. cbn; lia.
  - rewrite load_paths_is in Hlp. destruct Hlp as [<-|[<-|[<-|[<-|[<-|[<-|[<-|[<-|[]]]]]]]]].
    2-8: discriminate Eb.      (* only the top-level row has no base directory *)
    apply gmatch_starpy in Hm. destruct Hm as (y & ->). reflexivity.
Qed.

Lemma first_row_wins t k p f : In (p, f) t -> unambiguous t p -> hashed p = false ->
  forall pre lp post, load_paths = pre ++ lp :: post -> (forall lp', In lp' pre -> lp_match lp' p = false) ->
  lp_match lp p = true -> (lp_check lp = true -> exists v, configured lp k p = Some v) ->
  exists s, In s (discover t k) /\ sf_path s = p /\ sf_auto s = lp_auto lp.
Proof.
  intros Hpf Hamb Hh pre lp post E Hpre Hm Hg.
  assert (Hlp : In lp load_paths) by (rewrite E; apply in_or_app; right; left; reflexivity).
  assert (Hx : In (mk_entry lp k p f) (row_cands k t lp)).
  { apply row_cands_In. exists p, f. split; [exact Hpf|]. split; [apply admits_spec; auto|reflexivity]. }
  (* every candidate of that name, in any row, is made from this file *)
  assert (Hrows : forall lp' y, In lp' load_paths -> In y (row_cands k t lp') -> sf_name y = name_of lp p ->
            sf_path y = p /\ lp_match lp' p = true /\ sf_auto y = lp_auto lp').
  { intros lp' y Hlp' Hy En. apply row_cands_In in Hy. destruct Hy as (p' & f' & Hpf' & Had' & ->).
    apply admits_spec in Had'. destruct Had' as (Hm' & _). cbn [mk_entry sf_name sf_path sf_auto] in *.
    assert (Ep : p' = p) by (apply (Hamb p' f' Hpf'), (name_of_inj lp lp'); auto). rewrite Ep in *. auto. }
  pose proof (discover_find t k (name_of lp p)) as F. unfold cands in F. rewrite E, flat_map_app in F. cbn [flat_map] in F.
  rewrite !sf_find_app in F.
  assert (F1 : sf_find (flat_map (row_cands k t) pre) (name_of lp p) = None).
  { apply sf_find_None. intros HI. apply in_map_iff in HI. destruct HI as (y & En & Hy).
    apply in_flat_map in Hy. destruct Hy as (lp' & Hlp' & Hy).
    destruct (Hrows lp' y) as (_ & Hm' & _); [rewrite E; apply in_or_app; auto|exact Hy|exact En|].
    rewrite (Hpre lp' Hlp') in Hm'. discriminate. }
  rewrite F1 in F. destruct (sf_find (row_cands k t lp) (name_of lp p)) as [s|] eqn:F2.
  - apply sf_find_Some in F, F2. destruct F2 as [Hs En]. destruct (Hrows lp s Hlp Hs En) as (Hp & _ & Ha).
    exists s. split; [apply F|auto].
  - apply sf_find_None in F2. destruct F2. apply (in_map sf_name) in Hx. exact Hx.
Qed.

Theorem discover_autoload_exact t k p f : tree_ok t -> In (p, f) t -> unambiguous t p ->
  (sp_autoload t k p = true <-> exists s, In s (discover t k) /\ sf_path s = p /\ sf_auto s = true).
Proof.
  intros Hok Hpf Hamb. pose proof Hok as [Hnd Hdeg].
  (* apps/<a>.py: <a> is not __init__, and the package form does not exist (it would compete for the name) *)
  assert (Happ : forall a, p = [s_apps; a] ->
            strip_init [s_apps; a] = [s_apps; a] /\ tree_get t [s_apps; a; s_init] = None).
  { intros a ->. assert (Hai : (a =? s_init)%N = false).
    { destruct (a =? s_init)%N eqn:Ea; [|reflexivity]. apply N.eqb_eq in Ea. subst a.
      specialize (Hdeg _ _ Hpf eq_refl). cbn in Hdeg. lia. }
    assert (Es : strip_init [s_apps; a] = [s_apps; a]) by (unfold strip_init, ends_slash_init; cbn; rewrite Hai; reflexivity).
    split; [exact Es|]. destruct (tree_get t [s_apps; a; s_init]) as [f'|] eqn:Ei; [|reflexivity].
    apply (tree_get_In t _ _ Hnd) in Ei. discriminate (Hamb _ _ Ei (eq_sym Es)). }
  split.
  - intros Ha. unfold sp_autoload in Ha. apply andb_true_iff in Ha. destruct Ha as [Hh Ha]. apply negb_true_iff in Hh.
    pose proof (first_row_wins t k p f Hpf Hamb Hh) as Hrow.
    destruct p as [|r [|a rest]]; [discriminate| |].
    + (* <r>.py: row 1 *)
      apply (Hrow [] lp1 [lp2; lp3; lp4; lp5; lp6; lp7; lp8] load_paths_is); [intros ? []|reflexivity|discriminate].
    + destruct (N.eqb_spec r s_scripts) as [->|_].
      * (* scripts/**: row 8 *)
        apply (Hrow [lp1; lp2; lp3; lp4; lp5; lp6; lp7] lp8 [] load_paths_is); [| |discriminate].
        -- intros lp' Hlp'. cbn in Hlp'. destruct Hlp' as [<-|[<-|[<-|[<-|[<-|[<-|[<-|[]]]]]]]]; reflexivity.
        -- apply (gmatch_starstar_py (a :: rest)). discriminate.
      * destruct (N.eqb_spec r s_apps) as [->|_]; [|discriminate]. destruct rest as [|i [|j rest]]; [| |discriminate].
        -- (* apps/<a>.py: row 3 *)
           apply andb_true_iff in Ha. destruct Ha as [Hc _]. destruct (cfg_get k a) as [v|] eqn:Ec; [|discriminate].
           destruct (Happ a eq_refl) as [Es _].
           apply (Hrow [lp1; lp2] lp3 [lp4; lp5; lp6; lp7; lp8] load_paths_is); [|reflexivity|].
           ++ intros lp' [<-|[<-|[]]]; reflexivity.
           ++ intros _. unfold configured, name_of. cbn [lp_base lp3]. rewrite Es. cbn. eauto.
        -- (* apps/<a>/__init__.py: row 2 *)
           apply andb_true_iff in Ha. destruct Ha as [Hi Hc]. apply N.eqb_eq in Hi. subst i.
           destruct (cfg_get k a) as [v|] eqn:Ec; [|discriminate].
           apply (Hrow [lp1] lp2 [lp3; lp4; lp5; lp6; lp7; lp8] load_paths_is); [|reflexivity|].
           ++ intros lp' [<-|[]]; reflexivity.
           ++ intros _. exists v. exact Ec.
  - intros (s & Hs & <- & Hau). unfold sp_autoload. rewrite (proj1 (proj2 (discover_names t k s Hok Hs))). cbn [negb andb].
    destruct (auto_entry t k s Hs Hau) as [(y & -> & _)|[(a & v & -> & _ & Ec)|[(y & v & Ep & En & Ec)|(a & r & -> & _)]]].
    + (* top level *) reflexivity.
    + (* apps/<a>/__init__.py *) cbn. rewrite Ec. reflexivity.
    + (* apps/<y>.py *)
      rewrite Ep in *. destruct (Happ y eq_refl) as [Es Ei]. rewrite En, Es in Ec. cbn in Ec. cbn. rewrite Ec, Ei. reflexivity.
    + (* scripts/** *) reflexivity.
Qed.
