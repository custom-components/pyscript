(* C17 (import and builtin restrictions), for all module names, alias lists, worlds and scope states.  Imports: what [resolve]
   returns ([resolve_cases]) gives [bound_origin], hence safety, and one theorem per statement form.  Names: [lookup_cases]
   says when a lookup outside natively compiled bodies ends in a builtin.  Then the witnesses of D170/D171, computed examples
   ([ex_*]) and Model |= Spec for the cases of Policy/ImportsCheck.v. *)
From Coq Require Import String Ascii.
From PV Require Import Common.Util Gen.ImportConsts Policy.Imports Policy.ImportsCheck.
Local Open Scope string_scope.
Local Open Scope list_scope.

Lemma str_mem_In s l : str_mem s l = true <-> In s l.
Proof. exact (existsb_eqb_In _ String.eqb_eq s l). Qed.

Lemma str_mem_false s l : str_mem s l = false <-> ~ In s l.
Proof. exact (existsb_eqb_notin _ String.eqb_eq s l). Qed.

(* an inclusion between literal lists, decided by evaluation *)
Lemma str_incl l l' : forallb (fun n => str_mem n l') l = true -> forall n, In n l -> In n l'.
Proof. intros H n Hn. apply str_mem_In. exact (proj1 (forallb_forall _ l) H n Hn). Qed.

Lemma assoc_In {A} k (l : list (string * A)) v : assoc k l = Some v -> In (k, v) l.
Proof.
  induction l as [|[k' v'] r IH]; cbn [assoc]; [discriminate|].
  destruct (String.eqb_spec k k') as [->|_]; [intros [= ->]; left; reflexivity|intros H; right; exact (IH H)].
Qed.

(* the check, for a name that denotes no pyscript module *)
Lemma decide_check aa m : decide aa false m = if aa || str_mem m allowed_imports then VSystem else VDenied.
Proof. unfold decide. destruct aa, (str_mem m allowed_imports); reflexivity. Qed.

Lemma decide_allow_all m : decide true false m = VSystem.
Proof. reflexivity. Qed.

Lemma decide_pyscript aa m : decide aa true m = VPyscript.
Proof. reflexivity. Qed.

Lemma decide_system_iff m : decide false false m = VSystem <-> In m allowed_imports.
Proof. rewrite decide_check, <- str_mem_In. cbn [orb]. destruct (str_mem m allowed_imports); split; congruence. Qed.

(* level 0; candidate files: apps/<p>/__init__.py, apps/<p>.py for app packages; modules/<p>/__init__.py, modules/<p>.py *)
Lemma ps_lookup_none_iff w m :
  ps_lookup w m 0 = PsNone <->
  forall c, In c (cands0 (w_rel w) m) -> assoc (fst c) (w_loaded w) = None /\ str_mem (snd c) (w_present w) = false.
Proof.
  unfold ps_lookup, candidates. cbn [N.eqb]. set (l := cands0 (w_rel w) m).
  destruct (find _ l) as [[cn f]|] eqn:E1; [|destruct (find (fun c => str_mem _ _) l) as [[cn f]|] eqn:E2].
  - (* a candidate context is loaded *)
    split; [discriminate|]. intros H. apply find_some in E1 as [Hi Hx]. rewrite (proj1 (H _ Hi)) in Hx. discriminate Hx.
  - (* a candidate file is present *)
    split; [discriminate|]. intros H. apply find_some in E2 as [Hi Hx]. rewrite (proj2 (H _ Hi)) in Hx. discriminate Hx.
  - split; [intros _ c Hc|reflexivity]. pose proof (find_none _ _ E1 c Hc) as H1. split; [|exact (find_none _ _ E2 c Hc)].
    cbn beta in H1. destruct (assoc (fst c) (w_loaded w)); [discriminate H1|reflexivity].
Qed.

Lemma ps_lookup_no_files w m : w_present w = [] -> w_loaded w = [] -> ps_lookup w m 0 = PsNone.
Proof. intros Hp Hl. apply ps_lookup_none_iff. intros c _. rewrite Hp, Hl. split; reflexivity. Qed.

Definition permitted (w : world) (m : string) : Prop := w_allow_all w = true \/ In m allowed_imports.

Lemma permitted_iff w m : w_allow_all w || str_mem m allowed_imports = true <-> permitted w m.
Proof. unfold permitted. rewrite orb_true_iff, str_mem_In. reflexivity. Qed.

Lemma resolve_none_denied w m lvl :
  w_allow_all w = false -> ~ In m allowed_imports -> ps_lookup w m lvl = PsNone ->
  resolve w m lvl = (RFail SDenied, w).
Proof.
  intros Ha Hn Hp. unfold resolve. apply str_mem_false in Hn. rewrite Hp, decide_check, Ha, Hn. reflexivity.
Qed.

Lemma resolve_none_system w m lvl si :
  permitted w m -> ps_lookup w m lvl = PsNone ->
  assoc m (w_sys w) = Some si -> si_importable si = true ->
  resolve w m lvl = (RMod (OSys m) (si_has si) (si_public si), w).
Proof.
  intros Ha Hp Hs Hi. unfold resolve. apply permitted_iff in Ha. rewrite Hp, Hs, Hi, decide_check, Ha. reflexivity.
Qed.

Lemma resolve_hit w m lvl cn f fresh :
  ps_lookup w m lvl = PsHit cn f fresh ->
  resolve w m lvl = (RMod (OPs f) (file_names w f) (filter (fun n => negb (starts_underscore n)) (file_names w f)),
                     if fresh then mark_loaded w cn f else w).
Proof. intros Hp. unfold resolve. rewrite Hp. reflexivity. Qed.

(* where a bound value may come from: the test of [spec_safety] *)
Definition origin_ok (aa : bool) (o : origin) : bool :=
  match o with OPs _ => true | OSys m => aa || str_mem m allowed_imports | OOther => false end.

Lemma resolve_cases w m lvl :
  w_allow_all (snd (resolve w m lvl)) = w_allow_all w /\
  match fst (resolve w m lvl) with RMod o _ _ => origin_ok (w_allow_all w) o = true | RFail _ => True end.
Proof.
  unfold resolve. destruct (ps_lookup w m lvl) as [cn f fresh| | |]; cbn [fst snd].
  - (* PsHit: its context may be marked loaded *)
    split; [destruct fresh; reflexivity|reflexivity].
  - (* PsNone *)
    rewrite decide_check. destruct (w_allow_all w || str_mem m allowed_imports) eqn:D; [|split; [reflexivity|exact I]].
    destruct (assoc m (w_sys w)) as [si|]; [destruct (si_importable si)|].
    + split; [reflexivity|exact D].
    + split; [reflexivity|exact I].
    + split; [reflexivity|exact I].
  - (* PsRelNoParent *) split; [reflexivity|exact I].
  - (* PsRelAbove *) split; [reflexivity|exact I].
Qed.

Lemma r_bound_cons b r : r_bound (res_cons b r) = b ++ r_bound r.
Proof. reflexivity. Qed.
Lemma r_status_cons b r : r_status (res_cons b r) = r_status r.
Proof. reflexivity. Qed.

Lemma bind_names_origin o has pub l n o' : In (n, o') (r_bound (bind_names o has pub l)) -> o' = o.
Proof.
  induction l as [|a r IH]; cbn [bind_names]; [intros []|].
  destruct (al_name a =? "*").
  - rewrite r_bound_cons, in_app_iff, in_map_iff. intros [(x & E & _)|H]; [inversion E; reflexivity|exact (IH H)].
  - destruct (str_mem (al_name a) has); [|intros []].
    rewrite r_bound_cons. cbn [app In]. intros [E|H]; [inversion E; reflexivity|exact (IH H)].
Qed.

Lemma from_dot_origin w lvl l n o : In (n, o) (r_bound (from_dot_aliases w lvl l)) -> exists f, o = OPs f.
Proof.
  revert w. induction l as [|a r IH]; intros w; cbn [from_dot_aliases]; [intros []|].
  destruct (ps_lookup w (al_name a) lvl) as [cn f fresh| | |]; [|intros []|intros []|intros []].
  rewrite r_bound_cons. cbn [app In]. intros [E|H]; [inversion E; eauto|exact (IH _ H)].
Qed.

Theorem bound_origin : forall w s n o, In (n, o) (r_bound (run_stmt w s)) -> origin_ok (w_allow_all w) o = true.
Proof.
  intros w s n o. destruct s as [l|[mo|] lvl l]; cbn [run_stmt].
  - revert w. induction l as [|a r IH]; intros w; cbn [import_aliases]; [intros []|].
    destruct (resolve_cases w (al_name a) 0) as [Ha C]. destruct (resolve w (al_name a) 0) as [[o1 h p|st] w']; [|intros []].
    rewrite r_bound_cons. cbn [app In fst snd] in *. intros [[= _ <-]|H]; [exact C|].
    (* the remaining aliases run in a world with the same option *)
    rewrite <- Ha. exact (IH w' H).
  - destruct (is_stubs mo); [destruct (existsb has_as l); intros []|].
    destruct (resolve_cases w mo lvl) as [_ C]. destruct (resolve w mo lvl) as [[o1 h p|st] w']; [|intros []].
    intros H. apply bind_names_origin in H. subst o. exact C.
  - intros H. apply from_dot_origin in H as (f & ->). reflexivity.
Qed.

Theorem safety : forall w s n m,
  w_allow_all w = false -> In (n, OSys m) (r_bound (run_stmt w s)) -> In m allowed_imports.
Proof. intros w s n m Ha H. apply bound_origin in H. rewrite Ha in H. apply str_mem_In. exact H. Qed.

Definition sys_importable (w : world) (m : string) : Prop :=
  exists si, assoc m (w_sys w) = Some si /\ si_importable si = true.

(* import ok1, ok2 as y, a, ...: the aliases before the denied one are bound *)
Theorem import_denied_at : forall w pre a post,
  w_allow_all w = false ->
  (forall x, In x pre -> In (al_name x) allowed_imports /\ ps_lookup w (al_name x) 0 = PsNone /\ sys_importable w (al_name x)) ->
  ~ In (al_name a) allowed_imports -> ps_lookup w (al_name a) 0 = PsNone ->
  run_stmt w (SImport (pre ++ a :: post)) = res SDenied (map (fun x => (bind_name x, OSys (al_name x))) pre).
Proof.
  intros w pre a post Ha Hpre Hn Hp. cbn [run_stmt].
  induction pre as [|x r IH]; cbn [app import_aliases map].
  - rewrite (resolve_none_denied _ _ _ Ha Hn Hp). reflexivity.
  - destruct (Hpre x (or_introl eq_refl)) as (Hin & Hps & si & Hs & Hi).
    rewrite (resolve_none_system w (al_name x) 0 si (or_intror Hin) Hps Hs Hi).
    rewrite IH; [reflexivity|]. intros y Hy. apply Hpre. right. exact Hy.
Qed.

(* import a [as x] *)
Theorem import_denied : forall w a,
  w_allow_all w = false -> ~ In (al_name a) allowed_imports -> ps_lookup w (al_name a) 0 = PsNone ->
  run_stmt w (SImport [a]) = res SDenied [].
Proof. intros w a Ha Hn Hp. exact (import_denied_at w [] a [] Ha (fun x H => False_ind _ H) Hn Hp). Qed.

(* no pyscript modules: no side condition left *)
Theorem import_denied_no_files : forall w a,
  w_allow_all w = false -> w_present w = [] -> w_loaded w = [] -> ~ In (al_name a) allowed_imports ->
  run_stmt w (SImport [a]) = res SDenied [].
Proof. intros w a Ha Hp Hl Hn. apply import_denied; [exact Ha|exact Hn|apply ps_lookup_no_files; assumption]. Qed.

(* from [..]a[.b] import <anything> — any names (also `*`), any level *)
Theorem from_denied : forall w m lvl names,
  w_allow_all w = false -> ~ In m allowed_imports -> is_stubs m = false -> ps_lookup w m lvl = PsNone ->
  run_stmt w (SFrom (Some m) lvl names) = res SDenied [].
Proof.
  intros w m lvl names Ha Hn Hst Hp. cbn [run_stmt]. rewrite Hst, (resolve_none_denied _ _ _ Ha Hn Hp). reflexivity.
Qed.

(* from . import x: only pyscript modules, otherwise ModuleNotFoundError; nothing bound *)
Theorem from_dot_notfound : forall w lvl a rest,
  ps_lookup w (al_name a) lvl = PsNone -> run_stmt w (SFrom None lvl (a :: rest)) = res SRelNotFound [].
Proof. intros w lvl a rest Hp. cbn [run_stmt from_dot_aliases]. rewrite Hp. reflexivity. Qed.

Theorem import_permitted : forall w a,
  permitted w (al_name a) -> ps_lookup w (al_name a) 0 = PsNone -> sys_importable w (al_name a) ->
  run_stmt w (SImport [a]) = res SOk [(bind_name a, OSys (al_name a))].
Proof.
  intros w a Hperm Hp (si & Hs & Hi). cbn [run_stmt import_aliases].
  rewrite (resolve_none_system w (al_name a) 0 si Hperm Hp Hs Hi). reflexivity.
Qed.

Lemma bind_names_plain o has pub l :
  (forall a, In a l -> al_name a <> "*" /\ In (al_name a) has) ->
  bind_names o has pub l = res SOk (map (fun a => (bind_name a, o)) l).
Proof.
  induction l as [|a r IH]; intros H; cbn [bind_names map]; [reflexivity|].
  destruct (H a (or_introl eq_refl)) as (Hs & Hh).
  apply String.eqb_neq in Hs. rewrite Hs. apply str_mem_In in Hh. rewrite Hh.
  rewrite IH; [reflexivity|]. intros b Hb. apply H. right. exact Hb.
Qed.

Lemma bind_names_star o has pub : bind_names o has pub [{| al_name := "*"; al_as := None |}] = res SOk (map (fun n => (n, o)) pub).
Proof.
  change (bind_names o has pub [{| al_name := "*"; al_as := None |}])
    with (res_cons (map (fun n => (n, o)) pub) (res SOk [])).
  unfold res_cons, res. cbn [r_status r_bound]. rewrite app_nil_r. reflexivity.
Qed.

Theorem from_permitted : forall w m lvl si names,
  permitted w m -> is_stubs m = false -> ps_lookup w m lvl = PsNone ->
  assoc m (w_sys w) = Some si -> si_importable si = true ->
  (forall a, In a names -> al_name a <> "*" /\ In (al_name a) (si_has si)) ->
  run_stmt w (SFrom (Some m) lvl names) = res SOk (map (fun a => (bind_name a, OSys m)) names).
Proof.
  intros w m lvl si names Hperm Hst Hp Hs Hi Hn. cbn [run_stmt]. rewrite Hst.
  rewrite (resolve_none_system w m lvl si Hperm Hp Hs Hi). apply bind_names_plain. exact Hn.
Qed.

Theorem from_permitted_star : forall w m lvl si,
  permitted w m -> is_stubs m = false -> ps_lookup w m lvl = PsNone ->
  assoc m (w_sys w) = Some si -> si_importable si = true ->
  run_stmt w (SFrom (Some m) lvl [{| al_name := "*"; al_as := None |}]) = res SOk (map (fun n => (n, OSys m)) (si_public si)).
Proof.
  intros w m lvl si Hperm Hst Hp Hs Hi. cbn [run_stmt]. rewrite Hst.
  rewrite (resolve_none_system w m lvl si Hperm Hp Hs Hi). apply bind_names_star.
Qed.

(* C17: the pyscript module lookup precedes the check *)
Theorem import_pyscript_first : forall w a cn f fresh,
  ps_lookup w (al_name a) 0 = PsHit cn f fresh ->
  run_stmt w (SImport [a]) = res SOk [(bind_name a, OPs f)].
Proof.
  intros w a cn f fresh Hp. cbn [run_stmt import_aliases].
  rewrite (resolve_hit _ _ _ _ _ _ Hp). reflexivity.
Qed.

Theorem from_pyscript_first : forall w m lvl names cn f fresh n o,
  is_stubs m = false -> ps_lookup w m lvl = PsHit cn f fresh ->
  In (n, o) (r_bound (run_stmt w (SFrom (Some m) lvl names))) -> o = OPs f.
Proof.
  intros w m lvl names cn f fresh n o Hst Hp. cbn [run_stmt]. rewrite Hst.
  rewrite (resolve_hit _ _ _ _ _ _ Hp). apply bind_names_origin.
Qed.

Theorem stubs_ignored : forall w m lvl names,
  is_stubs m = true -> (forall a, In a names -> al_as a = None) ->
  run_stmt w (SFrom (Some m) lvl names) = res SIgnored [].
Proof.
  intros w m lvl names Hst Hn. cbn [run_stmt]. rewrite Hst.
  destruct (existsb has_as names) eqn:E; [|reflexivity].
  apply existsb_exists in E as (a & Hin & Ha). unfold has_as in Ha. rewrite (Hn a Hin) in Ha. discriminate Ha.
Qed.

Theorem stubs_bind_nothing : forall w m lvl names, is_stubs m = true -> r_bound (run_stmt w (SFrom (Some m) lvl names)) = [].
Proof. intros w m lvl names Hst. cbn [run_stmt]. rewrite Hst. destruct (existsb has_as names); reflexivity. Qed.

(* stubs or not *)
Theorem from_not_allowed_binds_nothing : forall w m lvl names,
  w_allow_all w = false -> ~ In m allowed_imports -> ps_lookup w m lvl = PsNone ->
  r_bound (run_stmt w (SFrom (Some m) lvl names)) = [].
Proof.
  intros w m lvl names Ha Hn Hp. destruct (is_stubs m) eqn:Hst; [exact (stubs_bind_nothing w m lvl names Hst)|].
  rewrite (from_denied w m lvl names Ha Hn Hst Hp). reflexivity.
Qed.

Lemma prefix_append p : forall s, String.prefix p s = true <-> exists r, s = String.append p r.
Proof.
  induction p as [|c p IH]; intros s; destruct s as [|d s]; cbn [String.prefix String.append].
  - split; [intros _; exists ""; reflexivity|reflexivity].
  - split; [intros _; eexists; reflexivity|reflexivity].
  - split; [discriminate|intros (r & Hr); discriminate Hr].
  - destruct (ascii_dec c d) as [->|Hne].
    + rewrite IH. split; intros (r & Hr); exists r; [rewrite Hr; reflexivity|inversion Hr; reflexivity].
    + split; [discriminate|intros (r & Hr); inversion Hr; congruence].
Qed.

Lemma is_stubs_spec m : is_stubs m = true <-> m = "stubs" \/ exists r, m = String.append "stubs." r.
Proof. unfold is_stubs. rewrite orb_true_iff, String.eqb_eq, prefix_append. reflexivity. Qed.

Theorem via_same : forall v w s, v <> VEvalRaw -> run_via v w s = run_stmt w s.
Proof. intros v w s H. destruct v; try reflexivity. congruence. Qed.

Theorem via_eval_statement : forall w s, run_via VEvalRaw w s = res SSyntax [].
Proof. reflexivity. Qed.

Lemma native_off e : ne_native e && d_native_builtins dev_off = false.
Proof. apply andb_false_r. Qed.

(* for every setting of the switches, where the native one does not apply: the namespace is reached through the leak only *)
Lemma lookup_cases cfg e n : ne_native e && d_native_builtins cfg = false ->
  match name_lookup cfg e n with
  | KBuiltin => ne_pybuiltin e = true /\ str_mem n builtin_exclude = false /\ starts_underscore n = false
                /\ str_mem n ast_factory_funcs = false
  | KBuiltinsNs => d_builtins_leak cfg && ne_leaked e && (n =? "__builtins__") = true
  | _ => True
  end.
Proof.
  intros Hn. unfold name_lookup. rewrite Hn. unfold interp_lookup.
  destruct (ne_gdecl e); [destruct (ne_global e); exact I|].
  destruct (ne_unbound e); [exact I|]. destruct (ne_sym e); [exact I|].
  destruct (if ne_local e then assoc n logger_funcs else None); [exact I|].
  destruct (ne_local e && str_mem n other_ast_funcs); [exact I|].
  destruct (ne_global e); [destruct (ne_localname e); exact I|].
  destruct (d_builtins_leak cfg && ne_leaked e && (n =? "__builtins__")); [reflexivity|].
  destruct (str_mem n ast_factory_funcs); [exact I|].
  destruct (ne_pybuiltin e); [|exact I]. destruct (str_mem n builtin_exclude); [exact I|].
  destruct (starts_underscore n); [exact I|]. repeat split.
Qed.

Theorem builtins_excluded : forall e n,
  In n builtin_exclude \/ starts_underscore n = true ->
  name_lookup dev_off e n <> KBuiltin /\ name_lookup dev_off e n <> KBuiltinsNs.
Proof.
  intros e n H. pose proof (lookup_cases dev_off e n (native_off e)) as C. split; intros E; rewrite E in C; [|discriminate C].
  destruct C as (_ & Hx & Hu & _). destruct H as [H|H]; [apply str_mem_In in H|]; congruence.
Qed.

Theorem builtin_only_if : forall e n,
  name_lookup dev_off e n = KBuiltin ->
  ne_pybuiltin e = true /\ ~ In n builtin_exclude /\ starts_underscore n = false /\ ~ In n ast_factory_funcs.
Proof.
  intros e n E. pose proof (lookup_cases dev_off e n (native_off e)) as C. rewrite E in C. destruct C as (Hp & Hx & Hu & Hf).
  repeat split; try assumption; apply str_mem_false; assumption.
Qed.

Lemma six_excluded : forall n, In n six_names -> In n builtin_exclude.
Proof. apply str_incl. reflexivity. Qed.

Theorem six_never_builtin : forall e n, In n six_names -> name_lookup dev_off e n <> KBuiltin.
Proof. intros e n H. apply builtins_excluded. left. apply six_excluded. exact H. Qed.

Lemma factory_wrapped : forall n, In n ["eval"; "exec"; "globals"; "locals"] -> In n ast_factory_funcs.
Proof. apply str_incl. reflexivity. Qed.

Theorem eval_exec_never_builtin : forall e n, In n ["eval"; "exec"; "globals"; "locals"] -> name_lookup dev_off e n <> KBuiltin.
Proof.
  intros e n H Hk. apply builtin_only_if in Hk. destruct Hk as (_ & _ & _ & Hf). apply Hf. apply factory_wrapped. exact H.
Qed.

(* the scope states in which print and the log functions resolve to the script's logger: the current table neither
   declares the name global, nor holds a deleted cell for it, nor binds it, and the evaluator's local table holds the
   functions of install_ast_funcs (not so inside trigger string expressions) *)
Definition plain_env (e : nenv) : Prop :=
  ne_gdecl e = false /\ ne_unbound e = false /\ ne_sym e = false /\ ne_local e = true.

Lemma plain_logger cfg e n lvl : ne_native e && d_native_builtins cfg = false -> plain_env e ->
  assoc n logger_funcs = Some lvl -> name_lookup cfg e n = KLogger lvl.
Proof. intros Hn (H1 & H2 & H3 & H4) Ha. unfold name_lookup, interp_lookup. rewrite Hn, H1, H2, H3, H4, Ha. reflexivity. Qed.

Lemma log_names_logger n lvl : In (n, lvl) log_names -> assoc n logger_funcs = Some lvl.
Proof. intros Hin. cbn in Hin. repeat (destruct Hin as [[= <- <-]|Hin]; [reflexivity|]). destruct Hin. Qed.

Theorem print_is_logger : forall cfg e, ne_native e = false -> plain_env e -> exists lvl, name_lookup cfg e "print" = KLogger lvl.
Proof.
  intros cfg e Hn Hp. exists "debug". apply plain_logger; [rewrite Hn; reflexivity|exact Hp|reflexivity].
Qed.

Theorem log_funcs_are_loggers : forall cfg e n lvl,
  ne_native e = false -> plain_env e -> In (n, lvl) log_names -> name_lookup cfg e n = KLogger lvl.
Proof.
  intros cfg e n lvl Hn Hp Hin. apply plain_logger; [rewrite Hn; reflexivity|exact Hp|apply log_names_logger; exact Hin].
Qed.

(* scope states in which switch D170 resp. D171 defeats the claim; the check replays them on the real code *)
Definition env_lambda : nenv :=
  {| ne_sym := false; ne_global := false; ne_local := true; ne_pybuiltin := true; ne_gdecl := false; ne_unbound := false;
     ne_localname := false; ne_native := true; ne_leaked := false |}.
Definition env_after_lambda : nenv :=
  {| ne_sym := false; ne_global := false; ne_local := true; ne_pybuiltin := false; ne_gdecl := false; ne_unbound := false;
     ne_localname := false; ne_native := false; ne_leaked := true |}.

Theorem builtins_refuted_D170 :
  exists e n, In n six_names /\ name_lookup {| d_native_builtins := true; d_builtins_leak := false |} e n = KBuiltin.
Proof. exists env_lambda, "open". split; [left; reflexivity|vm_compute; reflexivity]. Qed.

Theorem builtins_refuted_D170_import :
  exists e, name_lookup {| d_native_builtins := true; d_builtins_leak := false |} e "__import__" = KBuiltin.
Proof. exists env_lambda. vm_compute. reflexivity. Qed.

Theorem builtins_refuted_D171 :
  exists e n, starts_underscore n = true /\ ne_native e = false
              /\ name_lookup {| d_native_builtins := false; d_builtins_leak := true |} e n = KBuiltinsNs.
Proof. exists env_after_lambda, "__builtins__". repeat split; vm_compute; reflexivity. Qed.

(* names a weakened test would let through are denied by the regenerated list *)
Example near_misses_denied :
  forallb (fun m => match decide false false m with VDenied => true | _ => false end)
    ["jso"; "jsonx"; "xjson"; "JSON"; "json.decoder"; "json.json"; "homeassistant"; "homeassistant.core";
     "homeassistant.const.x"; "homeassistant_const"; "mat"; "maths"; "r"; "ree"; "datetime.datetime"; "os"; "os.path";
     "sys"; "subprocess"; "importlib"; "builtins"; ""] = true.
Proof. vm_compute. reflexivity. Qed.

Example allow_list_accepted :
  forallb (fun m => match decide false false m with VSystem => true | _ => false end)
    ["json"; "math"; "re"; "datetime"; "homeassistant.const"] = true.
Proof. vm_compute. reflexivity. Qed.

Definition ex_world (aa : bool) : world :=
  {| w_allow_all := aa; w_ctx := "apps.pvapp"; w_rel := Some "apps/pvapp/__init__";
     w_defs := [{| pf_path := "modules/os.py"; pf_names := ["pv_marker"; "_pv_hidden"] |};
                {| pf_path := "apps/pvapp/helper.py"; pf_names := ["pv_marker"] |}];
     w_present := ["modules/os.py"; "apps/pvapp/helper.py"]; w_loaded := [];
     w_sys := [("json", {| si_importable := true; si_has := ["dumps"]; si_public := ["dumps"; "loads"] |});
               ("subprocess", {| si_importable := true; si_has := ["run"]; si_public := [] |})] |}.

Example ex_denied :
  let w := ex_world false in let a := {| al_name := "subprocess"; al_as := Some "sp" |} in
  w_allow_all w = false /\ ~ In (al_name a) allowed_imports /\ ps_lookup w (al_name a) 0 = PsNone
  /\ run_stmt w (SImport [a]) = res SDenied []
  /\ run_stmt w (SFrom (Some "subprocess") 0 [{| al_name := "*"; al_as := None |}]) = res SDenied []
  /\ run_stmt w (SFrom (Some "subprocess") 1 [{| al_name := "run"; al_as := None |}]) = res SDenied [].
Proof.
  cbv zeta. repeat split; try (vm_compute; reflexivity).
  apply str_mem_false. vm_compute. reflexivity.
Qed.

Example ex_denied_at :
  let w := ex_world false in
  run_stmt w (SImport [{| al_name := "json"; al_as := Some "j" |}; {| al_name := "subprocess"; al_as := None |};
                       {| al_name := "json"; al_as := None |}]) = res SDenied [("j", OSys "json")].
Proof. vm_compute. reflexivity. Qed.

Example ex_permitted :
  let w := ex_world false in
  permitted w "json" /\ ps_lookup w "json" 0 = PsNone /\ sys_importable w "json"
  /\ run_stmt w (SFrom (Some "json") 0 [{| al_name := "dumps"; al_as := Some "d" |}]) = res SOk [("d", OSys "json")]
  /\ run_stmt (ex_world true) (SImport [{| al_name := "subprocess"; al_as := None |}]) = res SOk [("subprocess", OSys "subprocess")].
Proof.
  cbv zeta. repeat split; try (vm_compute; reflexivity).
  - right. apply str_mem_In. vm_compute. reflexivity.
  - eexists. split; vm_compute; reflexivity.
Qed.

Example ex_pyscript_first :
  let w := ex_world false in
  ps_lookup w "os" 0 = PsHit "modules.os" "modules/os.py" true
  /\ run_stmt w (SImport [{| al_name := "os"; al_as := None |}]) = res SOk [("os", OPs "modules/os.py")]
  /\ run_stmt w (SFrom None 1 [{| al_name := "helper"; al_as := None |}]) = res SOk [("helper", OPs "apps/pvapp/helper.py")]
  /\ run_stmt w (SFrom None 2 [{| al_name := "helper"; al_as := None |}]) = res SImportErr []
  /\ run_stmt w (SFrom (Some "os") 0 [{| al_name := "*"; al_as := None |}]) = res SOk [("pv_marker", OPs "modules/os.py")].
Proof. cbv zeta. repeat split; vm_compute; reflexivity. Qed.

Example ex_stubs :
  is_stubs "stubs.pyscript_builtins" = true /\ is_stubs "stubsx" = false
  /\ run_stmt (ex_world false) (SFrom (Some "stubs.pyscript_builtins") 0 [{| al_name := "x"; al_as := None |}]) = res SIgnored [].
Proof. repeat split; vm_compute; reflexivity. Qed.

Definition env_plain : nenv :=
  {| ne_sym := false; ne_global := false; ne_local := true; ne_pybuiltin := true; ne_gdecl := false; ne_unbound := false;
     ne_localname := false; ne_native := false; ne_leaked := false |}.
Example ex_names :
  name_lookup dev_off env_plain "open" = KUndefined
  /\ name_lookup dev_off env_plain "__import__" = KUndefined
  /\ name_lookup dev_off env_plain "len" = KBuiltin
  /\ name_lookup dev_off env_plain "print" = KLogger "debug"
  /\ name_lookup dev_off env_plain "eval" = KFactory
  /\ plain_env env_plain /\ ne_native env_plain = false
  (* a lambda body under conformant code is an ordinary function body *)
  /\ name_lookup dev_off env_lambda "open" = KUndefined.
Proof. repeat split; vm_compute; reflexivity. Qed.

Lemma origin_eqb_eq a b : origin_eqb a b = true -> a = b.
Proof.
  destruct a, b; cbn; try discriminate; try reflexivity; intros H; apply String.eqb_eq in H; subst; reflexivity.
Qed.

Lemma binding_eqb_eq a b : binding_eqb a b = true -> a = b.
Proof.
  destruct a as [n o], b as [n' o']. unfold binding_eqb. cbn [fst snd]. rewrite andb_true_iff.
  intros [H1 H2]. apply String.eqb_eq in H1. apply origin_eqb_eq in H2. subst. reflexivity.
Qed.

Lemma bmem_In x l : bmem x l = true -> In x l.
Proof. exact (existsb_eqb_sound _ binding_eqb_eq x l). Qed.

Lemma final_bindings_incl l x : In x (final_bindings l) -> In x l.
Proof.
  induction l as [|[n o] r IH]; cbn [final_bindings]; [intros []|].
  destruct (existsb (fun p => fst p =? n) r).
  - intros H. right. exact (IH H).
  - cbn [In]. intros [H|H]; [left; exact H|right; exact (IH H)].
Qed.

Lemma nkind_eqb_eq a b : nkind_eqb a b = true -> a = b.
Proof.
  destruct a, b; cbn; try discriminate; try reflexivity. intros H. apply String.eqb_eq in H. subst. reflexivity.
Qed.

(* Spec clause S1: no installed module outside the allow-list, no value of unknown provenance, no other table touched *)
Theorem icase_model_safety : forall c, icase_model_ok c = true -> spec_safety c = true.
Proof.
  intros c Hm. unfold icase_model_ok in Hm. rewrite !andb_true_iff in Hm. destruct Hm as (((_ & _) & Hb) & Hs).
  unfold spec_safety. rewrite Hs, andb_true_r. apply forallb_forall. intros [n o] Hin.
  unfold same_bindings in Hb. rewrite andb_true_iff in Hb. destruct Hb as [_ Hb].
  rewrite forallb_forall in Hb. specialize (Hb _ Hin). apply bmem_In, final_bindings_incl in Hb.
  unfold icase_model, run_via in Hb. cbn [snd].
  (* the clause of [spec_safety] is [origin_ok] at the option of the case *)
  destruct (ic_via c); try exact (bound_origin _ _ _ _ Hb). destruct Hb.
Qed.

Lemma nenv_plain c :
  nc_shadow c || scope_is_trig (nc_scope c) || scope_script_binds (nc_scope c) = false ->
  plain_env (nenv_of c) /\ ncase_model dev_off c = name_lookup dev_off (nenv_of c) (nc_name c).
Proof.
  destruct c as [n s [] pb k lo]; [discriminate|]. cbn [nc_shadow nc_scope orb].
  (* every scope that is left evaluates to such a state *)
  destruct s; try discriminate; repeat split; reflexivity.
Qed.

Theorem ncase_model_implies_spec : forall c, ncase_model_ok dev_off c = true -> ncase_spec_ok c = true.
Proof.
  intros c Hm. unfold ncase_model_ok in Hm. apply andb_true_iff in Hm as [Hk Hl]. apply nkind_eqb_eq in Hk.
  unfold ncase_spec_ok. apply andb_true_iff. split.
  - destruct (str_mem (nc_name c) six_names || starts_underscore (nc_name c)) eqn:E; [|reflexivity].
    assert (Hex : In (nc_name c) builtin_exclude \/ starts_underscore (nc_name c) = true).
    { apply orb_true_iff in E as [E|E]; [left; apply six_excluded, str_mem_In; exact E|right; exact E]. }
    destruct (builtins_excluded (nenv_of c) (nc_name c) Hex) as [Hb Hns].
    (* an unresolvable nonlocal turns KUndefined into KOther: neither is a builtin *)
    assert (Hkb : nc_kind c <> KBuiltin /\ nc_kind c <> KBuiltinsNs).
    { rewrite <- Hk. unfold ncase_model. destruct (nc_scope c); try (split; assumption).
      destruct (nkind_eqb _ KUndefined); split; (discriminate || assumption). }
    destruct Hkb as [NB NN]. destruct (nc_kind c); try reflexivity; [destruct (NB eq_refl)|destruct (NN eq_refl)].
  - destruct (nc_shadow c || scope_is_trig (nc_scope c) || scope_script_binds (nc_scope c)) eqn:Eg; [reflexivity|].
    destruct (nenv_plain c Eg) as [Hplain Hmod]. rewrite Hmod in Hk.
    assert (Hlog : forall lvl, assoc (nc_name c) logger_funcs = Some lvl -> nc_kind c = KLogger lvl).
    { intros lvl Ha. rewrite <- Hk. exact (plain_logger dev_off _ _ lvl (native_off _) Hplain Ha). }
    destruct (String.eqb_spec (nc_name c) "print") as [Ep|Ep].
    + rewrite (Hlog "debug") in Hl |- * by (rewrite Ep; reflexivity). exact Hl.
    + destruct (assoc (nc_name c) log_names) as [lvl|] eqn:Ea; [|reflexivity].
      apply assoc_In, log_names_logger in Ea. rewrite (Hlog lvl Ea) in Hl |- *.
      cbn [nkind_eqb]. rewrite String.eqb_refl. exact Hl.
Qed.
