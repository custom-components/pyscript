(* The hypotheses of the C06 theorems are satisfiable; one evaluated witness for each of the findings D60-D67 (the model
   with that switch on); the wake-up loops of the two subsystems and removal. *)
From Coq Require Import ZArith List Bool Lia.
From PV Require Import Common.Util Common.Civil Proofs.Civil Time.DtExpr Time.Next Time.NextCheck Gen.TimeConsts
                       Proofs.TimeNext Proofs.TimeNextMain.
Import ListNotations.
Local Open Scope Z_scope.

Definition sc : N -> Z := table_scale unit_scale_table.
Definition nosun : Z -> bool -> option Z := fun _ _ => None.

(* America/New_York around 2024: EST, summer time from 2024-03-10 07:00 UTC to 2024-11-03 06:00 UTC *)
Definition ny2024 : tzdata :=
  {| tz_default := -18000000000;
     tz_trans := [(1710054000000000, -18000000000, -14400000000); (1730613600000000, -14400000000, -18000000000)] |}.

Definition est_lu (x : Z) : Z := x - -18000000000.
Definition est_ul (x : Z) : Z := x + -18000000000.

Lemma est_const : tz_const est_lu est_ul.
Proof. exists (-18000000000). intros x. split; reflexivity. Qed.

Lemma est_real_now now : real_now est_lu now.
Proof. intros t' L. unfold est_lu. lia. Qed.

Definition every_minute : cronx := {| c_min := None; c_hour := None; c_dom := None; c_mon := None; c_dow := None |}.
Definition next_minute (_ : cronx) (t : Z) : Z := (t / MINUTE + 1) * MINUTE.

Lemma cron_match_every_minute t : cron_match every_minute t = (tod_of t mod MINUTE =? 0).
Proof.
  unfold cron_match, cron_day_match, every_minute. cbn [c_min c_hour c_dom c_mon c_dow fmatch].
  destruct (civil_from_days (day_of t)) as [[y m] d]. rewrite !andb_true_r. reflexivity.
Qed.

Example every_minute_ok : cron_ok next_minute every_minute.
Proof.
  intros t. destruct (minute_grid t) as (L & M & N). cbv zeta in *. unfold next_minute. split; [exact L|]. split.
  - rewrite cron_match_every_minute. apply Z.eqb_eq, M.
  - intros t' L1 L2. rewrite cron_match_every_minute. apply Z.eqb_neq, N; assumption.
Qed.

(* once(13:00), period(0:00:30, 1 min), period(now, 5 min, now + 30 min), once(3/5 10:00), period(22:00, 1h, 6:00), every-minute cron *)
Definition hm (h m : Z) : tpart := THMS h m 0 0.
Definition ex_specs : list tspec :=
  [ Once {| de_date := DNone; de_time := hm 13 0; de_off := None |};
    Period {| de_date := DNone; de_time := THMS 0 0 30 0; de_off := None |} {| am_num := 1; am_exp := 0; am_unit := 6 |} None;
    Period {| de_date := DNone; de_time := TNow; de_off := None |} {| am_num := 5; am_exp := 0; am_unit := 6 |}
           (Some {| de_date := DNone; de_time := TNow; de_off := Some {| am_num := 30; am_exp := 0; am_unit := 6 |} |});
    Once {| de_date := DMonthDay 3 5; de_time := hm 10 0; de_off := None |};
    Period {| de_date := DNone; de_time := hm 22 0; de_off := None |} {| am_num := 1; am_exp := 0; am_unit := 10 |}
           (Some {| de_date := DNone; de_time := hm 6 0; de_off := None |});
    Cron every_minute ].

Example ex_specs_ok now : specs_ok sc next_minute est_lu ex_specs now.
Proof.
  split.
  - intros s Hin. cbn [ex_specs In] in Hin.
    repeat (destruct Hin as [<-|Hin]; [vm_compute; reflexivity|]). contradiction.
  - intros c Hin. cbn [ex_specs In] in Hin.
    destruct Hin as [E|[E|[E|[E|[E|[E|[]]]]]]]; try discriminate E.
    (* only the last entry is a cron *)
    injection E as <-. split; [exact every_minute_ok|apply est_real_now].
Qed.

(* evaluated at 12:00:00.000005 = startup: the now-based period names the startup instant *)
Example ex_next : next_list sc nosun next_minute est_lu est_ul all_off false ex_specs 1709553600000005 1709553600000005
                  = ROk (Some (1709553600000005, 1709553600000005)).
Proof. vm_compute. reflexivity. Qed.

(* one switch of timer_trigger_next or removal on (D62 and D66 belong to the wake-up loops: their witnesses, and that of D65,
   use [as_code]) *)
Definition only (k : nat) : deviations :=
  {| d_period_wallclock := Nat.eqb k 60; d_once_md_this_year := Nat.eqb k 61; d_float_floor := Nat.eqb k 63;
     d_su_coincidence := Nat.eqb k 64; d_newsub_adj_recheck := false; d_legacy_gap_recheck := false;
     d_md_invalid_raises := Nat.eqb k 65; d_legacy_stop_fault := Nat.eqb k 67 |}.

Definition full (y m d : Z) (t : tpart) : dtexpr := {| de_date := DFull y m d; de_time := t; de_off := None |}.

(* D61: once(3/5 10:00) on 2024-03-06: with the switch on the answer is "never", the documentation says 2025-03-05 10:00 *)
Lemma refuted_D61 : exists specs now su r,
  next_list sc nosun next_minute est_lu est_ul (only 61) false specs now su = ROk r /\
  ~ successor_of (denotes_any sc nosun est_lu est_ul true specs su now) now su r.
Proof.
  exists [Once {| de_date := DMonthDay 3 5; de_time := hm 10 0; de_off := None |}], 1709719200000000, 1709280000000000, None.
  split; [vm_compute; reflexivity|]. intros H. apply (H 1741168800000000); [lia|].
  eexists. split; [left; reflexivity|]. cbn [denotes]. exists 20152. split.
  - cbn [de_date day_denoted]. exists 2025. split; [reflexivity|]. split; [reflexivity|discriminate].
  - vm_compute. reflexivity.
Qed.

(* D64: once(13:00) started at exactly 13:00:00: one second later the answer with the switch on is "never", tomorrow 13:00 is
   denoted *)
Lemma refuted_D64 : exists specs now su r,
  next_list sc nosun next_minute est_lu est_ul (only 64) false specs now su = ROk r /\
  ~ successor_of (denotes_any sc nosun est_lu est_ul true specs su now) now su r.
Proof.
  exists [Once {| de_date := DNone; de_time := hm 13 0; de_off := None |}], 1709557201000000, 1709557200000000, None.
  split; [vm_compute; reflexivity|]. intros H. apply (H 1709643600000000); [lia|].
  eexists. split; [left; reflexivity|]. cbn [denotes]. exists 19787. split; [exact I|vm_compute; reflexivity].
Qed.

(* D63: period(2024/3/4 12:00, 0.1s) at 12:00:00.3: with the switch on, the float quotient
   0.3/0.1 = 2.9999999999999996 gives no answer; 12:00:00.4 is denoted *)
Lemma refuted_D63 : exists specs now su r,
  next_list sc nosun next_minute est_lu est_ul (only 63) true specs now su = ROk r /\
  ~ successor_of (denotes_any sc nosun est_lu est_ul true specs su now) now su r.
Proof.
  exists [Period (full 2024 3 4 (hm 12 0)) {| am_num := 1; am_exp := 1; am_unit := 1 |} None], 1709553600300000, 1709550000000000, None.
  split; [vm_compute; reflexivity|]. intros H. apply (H 1709553600400000); [lia|].
  eexists. split; [left; reflexivity|]. cbn [denotes]. exists 100000, 1709553600000000.
  split; [vm_compute; reflexivity|]. split; [lia|]. split.
  - exists 19786. split; [cbn; split; reflexivity|vm_compute; reflexivity].
  - exists 4. split; [lia|]. vm_compute. reflexivity.
Qed.

(* D60: period(2024/3/9 18:00, 1 day) in America/New_York on 2024-03-10 18:00 EDT: with the switch on the answer is
   2024-03-11 18:00, but 2024-03-10 19:00 EDT - exactly 24 h after the start - is denoted and lies in between *)
Lemma refuted_D60 : exists specs now su r,
  next_list sc nosun next_minute (tz_lu ny2024) (tz_ul ny2024) (only 60) false specs now su = ROk r /\
  ~ successor_of (denotes_any sc nosun (tz_lu ny2024) (tz_ul ny2024) true specs su now) now su r.
Proof.
  exists [Period (full 2024 3 9 (hm 18 0)) {| am_num := 1; am_exp := 0; am_unit := 15 |} None], 1710093600000000, 1709985600000000,
         (Some (1710180000000000, 1710180000000000)).
  split; [vm_compute; reflexivity|]. intros (_ & _ & H). apply (H 1710097200000000); [lia|lia|].
  eexists. split; [left; reflexivity|]. cbn [denotes]. exists 86400000000, 1710007200000000.
  split; [vm_compute; reflexivity|]. split; [lia|]. split.
  - exists 19791. split; [cbn; split; reflexivity|vm_compute; reflexivity].
  - exists 1. split; [lia|]. vm_compute. reflexivity.
Qed.

(* D65: once(2/29 10:00) evaluated on 2025-01-06: datetime(2025, 2, 29) raises ValueError (the trigger task dies); the
   denoted successor is 2028-02-29 10:00 *)
Lemma refuted_D65 : exists specs now su t,
  next_list sc nosun next_minute est_lu est_ul as_code false specs now su = RExc /\
  next_list sc nosun next_minute est_lu est_ul all_off false specs now su = ROk (Some (t, t)) /\
  now < t /\ denotes_any sc nosun est_lu est_ul true specs su now t.
Proof.
  exists [Once {| de_date := DMonthDay 2 29; de_time := hm 10 0; de_off := None |}], 1736157600000000, 1735718400000000, 1835431200000000.
  split; [vm_compute; reflexivity|]. split; [vm_compute; reflexivity|]. split; [lia|].
  eexists. split; [left; reflexivity|]. cbn [denotes]. exists 21243. split.
  - cbn [de_date day_denoted]. exists 2028. split; [reflexivity|]. split; [reflexivity|discriminate].
  - vm_compute. reflexivity.
Qed.

(* with the switch off the same inputs give the denoted successor *)
Example conformant_D60 :
  next_list sc nosun next_minute (tz_lu ny2024) (tz_ul ny2024) all_off false
            [Period (full 2024 3 9 (hm 18 0)) {| am_num := 1; am_exp := 0; am_unit := 15 |} None] 1710093600000000 1709985600000000
  = ROk (Some (1710097200000000, 1710097200000000)).
Proof. vm_compute. reflexivity. Qed.

Example conformant_D61 :
  next_list sc nosun next_minute est_lu est_ul all_off false
            [Once {| de_date := DMonthDay 3 5; de_time := hm 10 0; de_off := None |}] 1709719200000000 1709280000000000
  = ROk (Some (1741168800000000, 1741168800000000)).
Proof. vm_compute. reflexivity. Qed.

Definition perfect (u : Z) : Z := u.

Lemma legacy_wake_conformant lu ul cfg f t u : d_legacy_gap_recheck cfg = false -> ul (lu t) = t ->
  legacy_wake lu ul perfect cfg (S (S f)) t u = Some (if ul u <? t then lu t else u).
Proof.
  intros H R. cbn [legacy_wake]. unfold perfect. rewrite H. destruct (ul u <? t) eqn:E; [|reflexivity].
  replace (u + (lu t - u)) with (lu t) by lia. rewrite R, Z.ltb_irrefl. reflexivity.
Qed.

Lemma default_wake_conformant lu ul cfg f t adj u : d_newsub_adj_recheck cfg = false -> ul (lu t) = t ->
  default_wake lu ul perfect cfg (S (S f)) t adj u = Some (if (t <=? ul u) || (lu t - u <=? 1) then u else lu t).
Proof.
  intros H R. cbn [default_wake]. unfold perfect. rewrite H. destruct ((t <=? ul u) || (lu t - u <=? 1)) eqn:E; [reflexivity|].
  replace (u + (lu t - u)) with (lu t) by lia. rewrite R, Z.leb_refl. reflexivity.
Qed.

(* [wall]: whatever the wall clock does during the wait; the default loop has a tolerance of 1 us *)
Lemma legacy_wake_not_early lu ul wall cfg fuel : forall t u r,
  legacy_wake lu ul wall cfg fuel t u = Some r -> t <= ul (wall r).
Proof.
  induction fuel as [|f IH]; intros t u r H; [discriminate|]. cbn [legacy_wake] in H.
  destruct (ul (wall u) <? t) eqn:E; [apply IH in H; exact H|]. apply Z.ltb_ge in E. inversion H; subst r. exact E.
Qed.

Lemma default_wake_not_early lu ul wall cfg fuel : d_newsub_adj_recheck cfg = false -> forall t adj u r,
  default_wake lu ul wall cfg fuel t adj u = Some r -> t <= ul (wall r) \/ lu t - wall r <= 1.
Proof.
  intros D. induction fuel as [|f IH]; intros t adj u r H; [discriminate|]. cbn [default_wake] in H. rewrite D in H.
  destruct ((t <=? ul (wall u)) || (lu t - wall u <=? 1)) eqn:E; [|apply IH in H; exact H].
  inversion H; subst r. rewrite orb_true_iff, !Z.leb_le in E. exact E.
Qed.

(* D66: a daily cron at 03:00 on 2024-03-10 in America/New_York, wake-up 1 us early: with the switch on the legacy loop runs the
   function at 08:00 UTC = 04:00 EDT, one hour after the trigger time 03:00 EDT = 07:00 UTC *)
Lemma refuted_D66 : exists t u,
  legacy_wake (tz_lu ny2024) (tz_ul ny2024) perfect as_code 5 t u = Some (tz_lu ny2024 t + HOUR) /\
  legacy_wake (tz_lu ny2024) (tz_ul ny2024) perfect all_off 5 t u = Some (tz_lu ny2024 t).
Proof. exists 1710039600000000, (1710054000000000 - 1). split; vm_compute; reflexivity. Qed.

(* D62: a daily cron at 06:00 computed on 2024-11-02 12:00:01 EDT: next_time 2024-11-03 06:00, next_time_adj 07:00; waking at the
   right moment (06:00 EST = 11:00 UTC) the default loop with the switch on sleeps another hour *)
Lemma refuted_D62 : exists t adj u,
  default_wake (tz_lu ny2024) (tz_ul ny2024) perfect as_code 5 t adj u = Some (tz_lu ny2024 t + HOUR) /\
  default_wake (tz_lu ny2024) (tz_ul ny2024) perfect all_off 5 t adj u = Some (tz_lu ny2024 t).
Proof. exists 1730613600000000, 1730617200000000, 1730631600000000. split; vm_compute; reflexivity. Qed.

(* D67: removal with a failing unsubscribe: the conformant stop always cancels the timer and runs "shutdown"; the legacy
   stop with the switch on does not *)
Lemma stop_completes_conformant cfg legacy raises : d_legacy_stop_fault cfg = false -> stop_completes cfg legacy raises = true.
Proof. intros H. unfold stop_completes. rewrite H, andb_false_r. reflexivity. Qed.

Lemma refuted_D67 : stop_completes as_code true true = false /\ stop_completes as_code false true = true.
Proof. split; reflexivity. Qed.
