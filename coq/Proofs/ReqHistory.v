(* Whole runs: every run keeps pyscript's record equal to what its own installer calls
   installed (a ghost table, [rec_ok]), hence every history does.  The ranked version order of the correspondence is an
   instance of the hypotheses; with switch D24 or D25 on the property fails ([refuted_D24], [refuted_D25]).  The examples
   [.._instance] meet the hypotheses of the theorems on concrete lines. *)
From PV Require Import Common.Util Gen.ReqConsts Req.Merge Req.Install Req.Spec Req.ReqCheck Proofs.ReqMerge Proofs.ReqInstall.
From Coq Require Import Lia Permutation.

Section Runs.
  Variable vvalid : str -> bool.
  Variable vle : str -> str -> bool.

  Local Notation process_all := (process_all vvalid vle).
  Local Notation install := (install vvalid vle).
  Local Notation run_step := (run_step vvalid vle).

  (* ghost state: per package key, the version that pyscript's latest installer call for it installed *)
  Definition ghost_one (env1 : alist) (g : alist) (a : str * option str) : alist :=
    match snd a with
    | Some w => aset (fst a) w g
    | None => match truthy (alookup (fst a) env1) with Some v => aset (fst a) v g | None => aremove (fst a) g end
    end.
  Definition ghost_step (env1 : alist) (g : alist) (todo : plan_t) : alist := fold_left (ghost_one env1) todo g.

  Lemma ghost_one_other env1 g a p : p <> fst a -> alookup p (ghost_one env1 g a) = alookup p g.
  Proof.
    intros H. unfold ghost_one. destruct (snd a); [|destruct (truthy _)];
      rewrite ?alookup_aset, ?alookup_aremove, (str_eqb_neq p (fst a) H); reflexivity.
  Qed.

  Lemma ghost_one_same env1 g a : alookup (fst a) (ghost_one env1 g a) = arg_ver (fun k => alookup k env1) a.
  Proof.
    unfold ghost_one, arg_ver. destruct (snd a); [|destruct (truthy _)];
      rewrite ?alookup_aset, ?alookup_aremove, str_eqb_refl; reflexivity.
  Qed.

  Lemma ghost_other env1 todo g p : ~ In p (map fst todo) -> alookup p (ghost_step env1 g todo) = alookup p g.
  Proof. apply fold_upd_other, ghost_one_other. Qed.

  Lemma ghost_in env1 todo g p w : (forall w', In (p, w') todo -> w' = w) -> In (p, w) todo ->
    alookup p (ghost_step env1 g todo) = arg_ver (fun k => alookup k env1) (p, w).
  Proof. apply fold_upd_in; [apply ghost_one_other|apply ghost_one_same]. Qed.

  Definition rec_matches (rec g : alist) : Prop := forall k v, alookup k rec = Some v -> alookup k g = Some v.
  Definition rec_ok (rec g : alist) : Prop := NoDup (map fst rec) /\ no_marker rec /\ rec_matches rec g.
  (* [no_marker], said of what the environment reports instead of the record *)
  Definition clean_env (e : alist) : Prop := forall k v, alookup k e = Some v -> str_eqb v unpinned_version = false.

  Definition ghost_after (g : alist) (o : step_out) : alist :=
    match so_out o with ODone todo _ _ => ghost_step (so_env_after o) g todo | _ => g end.

  (* one run keeps "every record entry is the version pyscript's latest installer call installed for that package" *)
  Theorem step_record_matches cfg w g s w' o :
    rec_ok (w_rec w) g -> run_step cfg w s = (w', o) -> clean_env (so_env_after o) ->
    rec_ok (w_rec w') (ghost_after g o).
  Proof.
    intros OK H CE. unfold Install.run_step in H.
    set (env0 := fold_left apply_ext (si_ext s) (w_env w)) in *.
    set (t := process_all (fun k => alookup k env0) cfg (si_files s)) in *.
    (* gated, an exception, or a failing installer: record and ghost state stay as they are *)
    destruct (install_plan vvalid vle (si_allow s) (w_rec w) t) as [| |rec1 todo] eqn:Ep.
    1, 2: injection H as <- <-; exact OK.
    destruct (existsb (fails s) todo); [injection H as <- <-; exact OK|].
    set (env1 := env_install (si_index s) env0 todo) in *.
    destruct (install_finish (fun k => alookup k env1) (w_rec w) rec1 todo) as [r u] eqn:Ef.
    injection H as <- <-. unfold ghost_after. cbn [so_out so_env_after w_rec] in *. destruct OK as (ND & NM & RM).
    assert (Hi : install (si_allow s) (fun k => alookup k env1) (w_rec w) t = ODone todo r u).
    { unfold Install.install. rewrite Ep, Ef. reflexivity. }
    pose proof (merge_lines_wf vvalid vle (fun k => alookup k env0) cfg _ : table_wf _ t) as WF.
    split; [exact (install_NoDup vvalid vle _ _ _ _ _ _ _ Hi ND)|]. split; intros k v Hl.
    - rewrite (proj1 (install_key vvalid vle _ t WF _ _ _ _ _ _ Hi ND k)) in Hl. exact (unmark_clean _ k _ v (CE k) Hl).
    - destruct (in_dec str_dec k (map fst todo)) as [Hin|Hin].
      + apply in_map_iff in Hin as ([k' x] & <- & Hin). cbn [fst] in *.
        rewrite (ghost_in env1 todo g k' x), <- Hl by (try apply (install_args_unique vvalid vle _ t WF _ _ _ _ _ _ Hi); exact Hin).
        symmetry. exact (install_arg_key vvalid vle _ t WF _ _ _ _ _ _ Hi ND k' x Hin).
      + rewrite ghost_other by exact Hin. exact (RM k v (install_kept vvalid vle _ t WF _ _ _ _ _ _ Hi ND NM k v Hl Hin)).
  Qed.

  (* any number of runs, with arbitrary external installs / upgrades / removals in between *)
  Fixpoint run_hist (cfg : deviations) (w : world) (g : alist) (ss : list step_in) : world * alist :=
    match ss with
    | [] => (w, g)
    | s :: r => let '(w', o) := run_step cfg w s in run_hist cfg w' (ghost_after g o) r
    end.
  Fixpoint envs_clean (cfg : deviations) (w : world) (ss : list step_in) : Prop :=
    match ss with
    | [] => True
    | s :: r => let '(w', o) := run_step cfg w s in clean_env (so_env_after o) /\ envs_clean cfg w' r
    end.

  Theorem history_record_matches cfg : forall ss w g,
    rec_ok (w_rec w) g -> envs_clean cfg w ss ->
    let '(w', g') := run_hist cfg w g ss in rec_ok (w_rec w') g'.
  Proof.
    induction ss as [|s r IH]; intros w g OK CE; [exact OK|].
    cbn [run_hist envs_clean] in *. destruct (run_step cfg w s) as [w' o] eqn:E. destruct CE as [C1 C2].
    apply IH; [|exact C2]. exact (step_record_matches cfg w g s w' o OK E C1).
  Qed.

  Lemma envs_clean_cons cfg w s r w' o :
    run_step cfg w s = (w', o) -> clean_env (so_env_after o) -> envs_clean cfg w' r -> envs_clean cfg w (s :: r).
  Proof. intros E C1 C2. cbn [envs_clean]. rewrite E. exact (conj C1 C2). Qed.

  Lemma clean_env_check e : forallb (fun kv => negb (str_eqb (snd kv) unpinned_version)) e = true -> clean_env e.
  Proof.
    intros H k v Hl. rewrite forallb_forall in H. specialize (H (k, v) (al_get_In _ str_eqb_eq _ _ _ Hl)). cbn [snd] in H.
    destruct (str_eqb v unpinned_version); [discriminate|reflexivity].
  Qed.
End Runs.

Definition ex_ranks : ranks :=
  [([49; 46; 48]%N, 0%N);                 (* "1.0"   *)
   ([49; 46; 48; 46; 48]%N, 0%N);         (* "1.0.0" *)
   ([50; 46; 48]%N, 1%N)].                (* "2.0"   *)
Definition s_foo : str := [102; 111; 111]%N.
Definition l_foo_10 : str := s_foo ++ [61; 61; 49; 46; 48]%N.               (* foo==1.0 *)
Definition l_foo_100 : str := s_foo ++ [61; 61; 49; 46; 48; 46; 48]%N.      (* foo==1.0.0 *)
Definition l_foo_20 : str := s_foo ++ [61; 61; 50; 46; 48]%N.               (* foo==2.0 *)
Definition l_foo_abc : str := s_foo ++ [61; 61; 97; 98; 99]%N.              (* foo==abc *)
Definition l_foo_sp_10 : str := s_foo ++ [32; 61; 61; 32; 49; 46; 48]%N.    (* foo == 1.0 *)
Definition l_comment : str := [35; 32; 120]%N.                              (* # x *)
Definition l_ge : str := s_foo ++ [62; 61; 51]%N.                           (* foo>=3 *)

Lemma rk_total rs a b : rk_valid rs a = true -> rk_valid rs b = true -> rk_le rs a b = true \/ rk_le rs b a = true.
Proof.
  unfold rk_valid, rk_le. destruct (rank_of rs a) as [x|], (rank_of rs b) as [y|]; try discriminate. intros _ _.
  destruct (N.leb_spec x y); [left; reflexivity|right; apply N.leb_le; lia].
Qed.
Lemma rk_trans rs a b c : rk_valid rs a = true -> rk_valid rs b = true -> rk_valid rs c = true ->
  rk_le rs a b = true -> rk_le rs b c = true -> rk_le rs a c = true.
Proof.
  unfold rk_valid, rk_le. destruct (rank_of rs a) as [x|], (rank_of rs b) as [y|], (rank_of rs c) as [z|]; try discriminate.
  intros _ _ _ H1 H2. apply N.leb_le in H1, H2. apply N.leb_le. lia.
Qed.
Lemma rk_nil rs : rank_of rs [] = None -> rk_valid rs [] = false.
Proof. unfold rk_valid. intros ->. reflexivity. Qed.

Example order_instance :
  (forall a b, rk_valid ex_ranks a = true -> rk_valid ex_ranks b = true -> rk_le ex_ranks a b = true \/ rk_le ex_ranks b a = true)
  /\ (forall a b c, rk_valid ex_ranks a = true -> rk_valid ex_ranks b = true -> rk_valid ex_ranks c = true ->
        rk_le ex_ranks a b = true -> rk_le ex_ranks b c = true -> rk_le ex_ranks a c = true)
  /\ rk_valid ex_ranks [] = false /\ rk_valid ex_ranks unpinned_version = false.
Proof. split; [apply rk_total|split; [apply rk_trans|split; reflexivity]]. Qed.

(* with every switch on, [cfg_ok] holds of lines whose pins all parse; the highest pin wins in every order *)
Example merge_instance :
  let ls := [(0%N, l_foo_10); (0%N, l_comment); (1%N, l_foo_20); (1%N, l_ge); (2%N, s_foo); (2%N, l_foo_100)] in
  cfg_ok (rk_valid ex_ranks) as_is ls
  /\ option_map e_ver (tlookup s_foo (merge_lines (rk_valid ex_ranks) (rk_le ex_ranks) (fun _ => None) as_is ls)) = Some (Some [50; 46; 48]%N)
  /\ option_map e_ver (tlookup s_foo (merge_lines (rk_valid ex_ranks) (rk_le ex_ranks) (fun _ => None) as_is (rev ls))) = Some (Some [50; 46; 48]%N).
Proof.
  cbv zeta. split; [|split; vm_compute; reflexivity].
  (* the four requirements these lines make, one by one: the pin of each, if it has one, is ranked *)
  intros _ r v Hin Hv. vm_compute in Hin.
  repeat (destruct Hin as [Hin|Hin]; [subst r; cbn in Hv; inversion Hv; subst; vm_compute; reflexivity|]). destruct Hin.
Qed.

(* an own package (recorded 1.0, installed 1.0.0: the same version) is updated to the differing pin 2.0 *)
Example own_instance :
  let env := [(s_foo, [49; 46; 48; 46; 48]%N)] in
  let rec0 := [(s_foo, [49; 46; 48]%N)] in
  exists r, install (rk_valid ex_ranks) (rk_le ex_ranks) true (fun k => alookup k [(s_foo, [50; 46; 48]%N)]) rec0
      (process_all (rk_valid ex_ranks) (rk_le ex_ranks) (fun k => alookup k env) as_is
         [{| f_id := 0; f_dir := []; f_lines := [l_foo_20] |}])
    = ODone [(s_foo, Some [50; 46; 48]%N)] r true /\ alookup s_foo r = Some [50; 46; 48]%N.
Proof. cbv zeta. eexists. vm_compute. split; reflexivity. Qed.

(* switch D24 on: with an unparsable version the selected version depends on the order of the lines *)
Theorem refuted_D24 :
  exists ls ls', Permutation ls ls' /\
    ~ table_equiv (rk_valid ex_ranks) (rk_le ex_ranks)
        (merge_lines (rk_valid ex_ranks) (rk_le ex_ranks) (fun _ => None) as_is ls)
        (merge_lines (rk_valid ex_ranks) (rk_le ex_ranks) (fun _ => None) as_is ls').
Proof.
  exists [(0%N, l_foo_abc); (0%N, l_foo_10)], [(0%N, l_foo_10); (0%N, l_foo_abc)].
  split; [apply perm_swap|]. intros H. specialize (H s_foo). vm_compute in H. destruct H as (_ & H & _). discriminate.
Qed.

(* with the switch off (validate first) the same lines give equivalent tables in both orders *)
Example D24_repaired :
  table_equiv (rk_valid ex_ranks) (rk_le ex_ranks)
    (merge_lines (rk_valid ex_ranks) (rk_le ex_ranks) (fun _ => None) all_off [(0%N, l_foo_abc); (0%N, l_foo_10)])
    (merge_lines (rk_valid ex_ranks) (rk_le ex_ranks) (fun _ => None) all_off [(0%N, l_foo_10); (0%N, l_foo_abc)]).
Proof. apply merge_perm; [apply rk_total|apply rk_trans|reflexivity|reflexivity|discriminate|apply perm_swap]. Qed.

(* switch D25 on: `foo == 1.0` is keyed "foo ": two entries for one package, and a foo installed by something else (0.5, not in
   pyscript's record) is handed to the installer *)
Theorem refuted_D25 :
  let env := [(s_foo, [48; 46; 53]%N)] in
  let t := process_all (rk_valid ex_ranks) (rk_le ex_ranks) (fun k => alookup k env) as_is
             [{| f_id := 0; f_dir := []; f_lines := [l_foo_sp_10; l_foo_20] |}] in
  (exists k1 k2, k1 <> k2 /\ strip k1 = strip k2 /\ In k1 (map fst t) /\ In k2 (map fst t))
  /\ exists todo r u, install (rk_valid ex_ranks) (rk_le ex_ranks) true (fun _ => None) [] t = ODone todo r u
       /\ truthy (alookup s_foo env) = Some [48; 46; 53]%N
       /\ In s_foo (map (fun a => strip (fst a)) todo).
Proof.
  cbv zeta. split.
  - exists (s_foo ++ [32]%N), s_foo. split; [discriminate|]. vm_compute. auto.
  - eexists. eexists. eexists. vm_compute. split; [reflexivity|]. split; [reflexivity|]. left. reflexivity.
Qed.

Definition s_bar : str := [98; 97; 114]%N.
(* run 1 installs bar==2.0 (foo is installed by the host and only required unpinned: untouched) and records it;
   then something else downgrades bar; run 2 notices, leaves bar alone and stops tracking it *)
Example history_instance :
  let w0 := {| w_env := [(s_foo, [49; 46; 48]%N)]; w_rec := [] |} in
  let files := [{| f_id := 0; f_dir := []; f_lines := [s_bar ++ [61; 61; 50; 46; 48]%N; s_foo] |}] in
  let steps := [{| si_ext := []; si_allow := true; si_files := files; si_index := []; si_fail := [] |};
                {| si_ext := [(s_bar, Some [49; 46; 48]%N)]; si_allow := true; si_files := files; si_index := []; si_fail := [] |}] in
  rec_ok (w_rec w0) [] /\ envs_clean (rk_valid ex_ranks) (rk_le ex_ranks) as_is w0 steps
  /\ map (fun o => (so_out o, so_rec o)) (run_steps (rk_valid ex_ranks) (rk_le ex_ranks) as_is w0 steps)
     = [(ODone [(s_bar, Some [50; 46; 48]%N)] [(s_bar, [50; 46; 48]%N)] true, [(s_bar, [50; 46; 48]%N)]);
        (ODone [] [] true, [])].
Proof.
  cbv zeta. split; [|split].
  - split; [constructor|]. split; intros k v H; discriminate.
  - eapply envs_clean_cons; [vm_compute; reflexivity|apply clean_env_check; reflexivity|].
    eapply envs_clean_cons; [vm_compute; reflexivity|apply clean_env_check; reflexivity|exact I].
  - vm_compute. reflexivity.
Qed.
