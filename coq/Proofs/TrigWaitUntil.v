(* C15 (Trig/WaitUntil.v).  The model's loop and the Spec's [first_occ] treat an occurrence alike: [react] names what they share,
   and the loop theorems (ledger, deaf after the exit, first occurrence) are inductions over [loop_cons].  [run_cases] carries
   ledger and deafness to [run], for any switches.  [hp], [fp] model again what Trig/Hold.v keeps in [s_pend], [s_fs]; no theorem
   relates the two.  At the end: the trace check's Model side implies its Spec side, the converses of [run_first] and
   [run_ledger_restored] (per deviation switch a witness that refutes whatever the other switches are), instances of the
   hypotheses. *)
From Coq Require Import ZArith List Bool Lia ZifyBool.
From PV Require Import Common.Util Gen.WaitConsts Trig.WaitUntil Trig.WaitUntilCheck.
Import ListNotations.
Local Open Scope Z_scope.

Lemma lg_sub_add L s : lg_sub (lg_add L s) s = L.
Proof. destruct L, s. unfold lg_sub, lg_add; cbn. rewrite !N.add_sub. reflexivity. Qed.

Lemma lg_sub_zero L : lg_sub L lg_zero = L.
Proof. destruct L. unfold lg_sub; cbn. rewrite !N.sub_0_r. reflexivity. Qed.

Lemma lg_add_assoc L s1 s2 : lg_add (lg_add L s1) s2 = lg_add L (lg_add s1 s2).
Proof. destruct L, s1, s2. unfold lg_add; cbn. rewrite !N.add_assoc. reflexivity. Qed.

Lemma lg_sub_sub L s1 s2 : lg_sub (lg_sub L s1) s2 = lg_sub L (lg_add s1 s2).
Proof. destruct L, s1, s2. unfold lg_sub, lg_add; cbn. rewrite !N.sub_add_distr. reflexivity. Qed.

(* what every loop top tests *)
Definition due (X : option (Z * ret)) (t : Z) : option (Z * ret) :=
  match X with Some (tm, _) => if tm <=? t then X else None | None => None end.

Lemma due_some X t tm r : due X t = Some (tm, r) -> X = Some (tm, r) /\ tm <= t.
Proof.
  destruct X as [[tx rx]|]; cbn; [|discriminate].
  destruct (tx <=? t) eqn:E; [|discriminate]. intros H; inversion H; subst. split; [reflexivity|lia].
Qed.

(* the form in which [loop] and [first_occ] test a timer *)
Lemma due_case {R} X t (A : Z -> ret -> R) K :
  match X with Some (tm, r) => if tm <=? t then A tm r else K | None => K end
  = match due X t with Some (tm, r) => A tm r | None => K end.
Proof. destruct X as [[tm r]|]; cbn; [destruct (tm <=? t)|]; reflexivity. Qed.

(* the exit that [o] at [t] causes, or the state to go on with *)
Definition react (p : lparams) (base : Z) (hp : option (Z * N)) (fp : option Z) (t : Z) (o : occ)
  : exit + Z * option (Z * N) * option Z :=
  match o with
  | OCancel => inl XCancelled
  | OUnw => inr (base, hp, fp)
  | OAttr _ =>
      if lp_state p then
        if lp_attr_false p then inr (wake p base t, None, fp_on_false (lp_hf p) fp t) else inr (wake p base t, hp, fp)
      else inr (base, hp, fp)
  | OState r n =>
      if lp_state p then
        match r with
        | SRaise => inl (XExc EState)
        | STrue =>
            if hf_passed (lp_hf p) fp t then
              match lp_hold p with
              | None => inl (XRet (RState n))
              | Some _ => inr (wake p base t,
                               match hp with None => Some (t, n) | Some (ts, m) => Some (ts, if lp_latest p then n else m) end,
                               fp_on_true (lp_hf p) fp)
              end
            else inr (wake p base t,
                      match hp with None => None | Some (ts, m) => Some (ts, if lp_latest p then n else m) end,
                      fp_on_true (lp_hf p) fp)
        | SFalse => inr (wake p base t, None, fp_on_false (lp_hf p) fp t)
        end
      else inr (base, hp, fp)
  | OEvent r n =>
      if lp_event p then
        match r with
        | SRaise => inl (XExc EEvent)
        | STrue => inl (XRet (REvent n))
        | SFalse => inr (wake p base t, hp, fp)
        end
      else inr (base, hp, fp)
  end.

Lemma loop_cons p L base hp fp t o rest :
  loop p L base hp fp ((t, o) :: rest)
  = match due (earliest (timers p base hp)) t with
    | Some (tm, r) => done (XRet r) tm (lg_sub L (lp_subs p))
    | None =>
        match react p base hp fp t o with
        | inl x => done x t (match x with XCancelled => if lp_leak p then L else lg_sub L (lp_subs p) | _ => lg_sub L (lp_subs p) end)
        | inr (base', hp', fp') => loop p L base' hp' fp' rest
        end
    end.
Proof.
  cbn [loop]. rewrite due_case. destruct (due _ t) as [[tm r]|]; [reflexivity|].
  destruct o as [res n|n| |res n|]; cbn [react].
  - destruct (lp_state p); [|reflexivity]. destruct res; [|reflexivity..].
    destruct (hf_passed (lp_hf p) fp t); [|reflexivity]. destruct (lp_hold p); reflexivity.
  - destruct (lp_state p), (lp_attr_false p); reflexivity.
  - reflexivity.
  - destruct (lp_event p), res; reflexivity.
  - reflexivity.
Qed.

(* every exit of the loop other than a leaking cancellation runs the epilogue *)
Lemma loop_ledger p L h : lp_leak p = false -> forall base hp fp,
  r_exit (loop p L base hp fp h) <> XPending -> r_ledger (loop p L base hp fp h) = lg_sub L (lp_subs p).
Proof.
  intros Hleak. induction h as [|[t o] rest IH]; intros base hp fp.
  - cbn [loop]. destruct (earliest (timers p base hp)) as [[tm r]|]; cbn; congruence.
  - rewrite loop_cons. destruct (due _ t) as [[tm r]|]; [reflexivity|].
    destruct (react p base hp fp t o) as [x|[[base' hp'] fp']]; [|apply IH].
    rewrite Hleak. destruct x; reflexivity.
Qed.

Lemma loop_deaf_after p L h1 h2 : forall base hp fp,
  r_exit (loop p L base hp fp h1) <> XPending ->
  (forall t o, In (t, o) h2 -> r_time (loop p L base hp fp h1) <= t) ->
  loop p L base hp fp (h1 ++ h2) = loop p L base hp fp h1.
Proof.
  induction h1 as [|[t o] rest IH]; intros base hp fp.
  - cbn [app]. destruct h2 as [|[t o] h2]; [reflexivity|]. rewrite loop_cons. cbn [loop].
    destruct (earliest (timers p base hp)) as [[tm r]|]; cbn; [|congruence].
    intros _ Hall. rewrite (proj2 (Z.leb_le tm t)) by (apply (Hall t o); left; reflexivity). reflexivity.
  - rewrite <- app_comm_cons, !loop_cons. destruct (due _ t) as [[tm r]|]; [reflexivity|].
    destruct (react p base hp fp t o) as [x|[[base' hp'] fp']]; [reflexivity|apply IH].
Qed.

Definition emin (s e : option (Z * ret)) : option (Z * ret) :=
  match s, e with
  | Some (ts, rs), Some (te, re) => if ts <=? te then Some (ts, rs) else Some (te, re)
  | Some x, None => Some x
  | None, e' => e'
  end.

Lemma earliest_app_opt : forall l E, earliest (l ++ opt_list E) = emin (earliest l) E.
Proof.
  induction l as [|[t r] l IH]; intros E; cbn [app earliest]; [destruct E as [[te re]|]; reflexivity|].
  rewrite IH. destruct (earliest l) as [[t' r']|], E as [[te re]|]; cbn [emin]; try reflexivity.
  - (* the three comparisons decide both sides; the combinations against transitivity are contradictory *)
    destruct (t' <=? te) eqn:E1; destruct (t <=? t') eqn:E2; cbn; rewrite ?E1, ?E2;
        try reflexivity; destruct (t <=? te) eqn:E3; try reflexivity; lia.
  - destruct (t <=? t'); reflexivity.
Qed.

Lemma due_emin S E t : due (emin S E) t = emin (due S t) (due E t).
Proof.
  destruct S as [[ts rs]|], E as [[te re]|]; cbn; try reflexivity.
  - (* as in [earliest_app_opt] *) destruct (ts <=? te) eqn:E1, (ts <=? t) eqn:E2, (te <=? t) eqn:E3; cbn; rewrite ?E1, ?E2, ?E3; try reflexivity; lia.
  - destruct (ts <=? t); reflexivity.
Qed.

Lemma pick_static ts rs O : (forall t x, O = Some (t, x) -> ts <= t) -> pick (Some (ts, rs)) O = (XRet rs, ts).
Proof.
  destruct O as [[t x]|]; cbn; [|reflexivity]. intros H.
  rewrite (proj2 (Z.leb_le ts t)) by (apply (H t x); reflexivity). reflexivity.
Qed.

Lemma pick_occ S t x : due S t = None -> pick S (Some (t, x)) = (x, t).
Proof. destruct S as [[ts rs]|]; cbn; [destruct (ts <=? t); [discriminate|]|]; reflexivity. Qed.

Definition hp_ok (a : wargs) (lo : Z) (hp : option (Z * N)) : Prop :=
  forall te r, expiry (a_hold a) hp = Some (te, r) -> lo <= te.

Lemma hp_ok_none : forall a lo, hp_ok a lo None.
Proof. intros a lo te r H. cbn in H. discriminate. Qed.

Lemma hp_ok_start a t n : match a_hold a with Some H => 0 <= H | None => True end -> hp_ok a t (Some (t, n)).
Proof. intros Hh te r H. cbn in H. destruct (a_hold a) as [H0|]; [|discriminate]. inversion H; subst. lia. Qed.

Lemma hp_ok_weaken : forall a lo lo' hp, lo' <= lo -> hp_ok a lo hp -> hp_ok a lo' hp.
Proof. intros a lo lo' hp Hle Hok te r H. specialize (Hok te r H). lia. Qed.

Lemma hp_ok_not_due a t hp : due (expiry (a_hold a) hp) t = None -> hp_ok a t hp.
Proof. intros D te r E. rewrite E in D. cbn in D. destruct (te <=? t) eqn:C; [discriminate|lia]. Qed.

Section Conformant.
  Variables (a : wargs) (lk : bool) (subs : ledger).
  (* of [args_ok] only this much is needed *)
  Hypothesis Hh : match a_hold a with Some H => 0 <= H | None => True end.
  (* the loop of either conformant subsystem: `now` is not re-based, a hold period keeps its first dictionary *)
  Notation p := (mkp a (a_timeout a) false lk false false subs).

  Lemma earliest_timers hp : earliest (timers p 0 hp) = emin (earliest (statics a)) (expiry (a_hold a) hp).
  Proof. unfold timers, hold_timer. rewrite app_assoc. exact (earliest_app_opt (statics a) _). Qed.

  (* one step of the Spec's search, in the form of [loop_cons] *)
  Lemma first_occ_cons hp fp t o rest :
    match due (expiry (a_hold a) hp) t with
    | Some (te, r) => first_occ a hp fp ((t, o) :: rest) = Some (te, XRet r)
    | None =>
        match react p 0 hp fp t o with
        | inl x => first_occ a hp fp ((t, o) :: rest) = Some (t, x)
        | inr (base', hp', fp') =>
            base' = 0 /\ hp_ok a t hp' /\ first_occ a hp fp ((t, o) :: rest) = first_occ a hp' fp' rest
        end
    end.
  Proof.
    cbn [first_occ]. rewrite due_case. destruct (due _ t) as [[te r]|] eqn:D; [reflexivity|].
    pose proof (hp_ok_not_due _ _ _ D) as Hok. pose proof (hp_ok_none a t) as Hnone.
    pose proof (fun n => hp_ok_start a t n Hh) as Hstart.
    (* where the wait goes on the next hold state is the old one, not due at [t] ([Hok]), or none ([Hnone]), or one started at
       [t] ([Hstart]): that is what [auto] finds *)
    destruct o as [res n|n| |res n|]; cbn.
    - (* OState *) destruct (a_state a); [|auto]. destruct res; [|auto..].
      destruct (hf_passed (a_hf a) fp t); [destruct (a_hold a)|]; destruct hp as [[ts m]|]; auto.
    - (* OAttr *) destruct (a_state a); auto.
    - (* OUnw *) auto.
    - (* OEvent *) destruct (a_event a), res; auto.
    - (* OCancel *) reflexivity.
  Qed.

  Lemma first_occ_not_before h : forall lo hp fp t x,
    timed_from lo h -> hp_ok a lo hp -> first_occ a hp fp h = Some (t, x) -> lo <= t.
  Proof.
    induction h as [|[t0 o] rest IH]; intros lo hp fp t x Ht Hok.
    - cbn [first_occ]. destruct (expiry (a_hold a) hp) as [[te r]|] eqn:E; [|discriminate].
      intros H; inversion H; subst. apply (Hok _ _ E).
    - destruct Ht as [Hlo Ht]. pose proof (first_occ_cons hp fp t0 o rest) as Step.
      destruct (due (expiry (a_hold a) hp) t0) as [[te r]|] eqn:D.
      + rewrite Step. intros H; inversion H; subst. apply due_some in D. apply (Hok _ _ (proj1 D)).
      + destruct (react p 0 hp fp t0 o) as [x'|[[b' hp'] fp']].
        * rewrite Step. intros H; inversion H; subst. exact Hlo.
        * destruct Step as [_ [Hok' ->]]. intros H. specialize (IH t0 hp' fp' t x Ht Hok' H). lia.
  Qed.

  Lemma loop_spec h : forall L lo hp fp, timed_from lo h ->
    outcome (loop p L 0 hp fp h) = pick (earliest (statics a)) (first_occ a hp fp h).
  Proof.
    induction h as [|[t o] rest IH]; intros L lo hp fp Ht.
    - cbn [loop first_occ]. rewrite earliest_timers.
      destruct (earliest (statics a)) as [[ts rs]|], (expiry (a_hold a) hp) as [[te re]|]; cbn [emin pick]; try reflexivity.
      destruct (ts <=? te); reflexivity.
    - destruct Ht as [_ Ht]. rewrite loop_cons, earliest_timers, due_emin.
      pose proof (first_occ_cons hp fp t o rest) as Step.
      destruct (due (expiry (a_hold a) hp) t) as [[te re]|] eqn:DE.
      + (* the hold period is over; [ts] may be due as well *)
        rewrite Step. apply due_some in DE. destruct DE as [_ Hte].
        destruct (earliest (statics a)) as [[ts rs]|]; cbn [due emin pick]; [|reflexivity].
        destruct (ts <=? t) eqn:E1, (ts <=? te) eqn:E2; cbn [emin]; rewrite ?E2; try reflexivity; lia.
      + destruct (due (earliest (statics a)) t) as [[ts rs]|] eqn:DS; cbn [emin].
        * (* a fixed instant has passed; the Spec looks on in the history, and finds nothing earlier *)
          apply due_some in DS. destruct DS as [-> Hts]. symmetry. apply pick_static. intros t' x Hf.
          apply (first_occ_not_before _ t) in Hf; [lia|split; [lia|exact Ht]|exact (hp_ok_not_due _ _ _ DE)].
        * destruct (react p 0 hp fp t o) as [x|[[b' hp'] fp']].
          -- rewrite Step. symmetry. apply pick_occ. exact DS.
          -- destruct Step as [-> [_ ->]]. apply (IH L t). exact Ht.
  Qed.
End Conformant.

(* the findings that only concern what stays registered: D19, D150, D152 *)
Definition only_leaks (lg dm be : bool) : deviations :=
  {| d_timeout0_falsy := false; d_leak_legacy := lg; d_leak_dm := dm; d_now_restarts := false;
     d_badexpr_leak := be; d_none_eager := false; d_hold_latest := false; d_hold_attr_cancels := false |}.

Lemma spec_run_no_args a truth h : no_args a = true ->
  spec_run a truth h
  = match a_timeout a with
    | None => (XRet RNone, 0)
    | Some _ => pick (earliest (statics a)) (first_occ a None None h)
    end.
Proof.
  unfold no_args. destruct (a_state a) eqn:Hs, (a_event a) eqn:He, (a_badexpr a) eqn:Hb, (a_times a) eqn:Htm; try discriminate.
  intros _. unfold spec_run, immediate, statics, future_offs. rewrite Hs, He, Hb, Htm. destruct (a_timeout a); reflexivity.
Qed.

Lemma statics_nil : forall a,
  match statics a with [] => true | _ => false end
  = match future_offs a, a_timeout a with [], None => true | _, _ => false end.
Proof. intros a. unfold statics. destruct (future_offs a); destruct (a_timeout a); reflexivity. Qed.

(* the default subsystem's test for "only exhausted time triggers" is the Spec's, once the two earlier exits are past *)
Lemma only_exhausted_times a :
  a_badexpr a = false -> no_args a && match a_timeout a with None => true | Some _ => false end = false ->
  match a_times a with Some _ => true | None => false end
  && match future_offs a with [] => true | _ => false end
  && (negb (a_state a) && negb (a_event a) && match a_timeout a with None => true | Some _ => false end)
  = negb (a_state a) && negb (a_event a) && match statics a with [] => true | _ => false end.
Proof.
  unfold no_args, statics, future_offs. intros ->. destruct (a_times a) as [l|]; cbn.
  - (* the same conjuncts in another order *)
    intros _. destruct (filter (fun o : Z => 0 <? o) l), (a_timeout a), (a_state a), (a_event a); reflexivity.
  - (* none given: the test fails, and so does the Spec's, or the first exit would have been taken *)
    destruct (a_state a), (a_event a), (a_timeout a); cbn; congruence.
Qed.

Lemma dm_timeout_exact cfg a : d_timeout0_falsy cfg = false -> dm_timeout cfg a = a_timeout a.
Proof. intros H. unfold dm_timeout. rewrite H. destruct (a_timeout a); reflexivity. Qed.

(* the defaults of state_check_now read from the code (Gen/WaitConsts.v) are the documented one *)
Lemma cn_eff_spec legacy a : cn_eff legacy a = match a_cn a with Some b => b | None => spec_cn_default end.
Proof. unfold cn_eff. destruct (a_cn a), legacy; reflexivity. Qed.

(* C15, first sentence, both subsystems: the three leaks do not touch when and how the call exits.  Any [lo]: only the order of
   the history is asked (the callers have 0).  [spec_run] has the form of both prologues, ending in the race of
   [loop_spec] *)
Lemma run_first : forall lg dm be lo legacy a L0 init pre h,
  match a_hold a with Some H => 0 <= H | None => True end -> a_badexpr a = false -> timed_from lo h ->
  outcome (run (only_leaks lg dm be) legacy a L0 init pre h) = spec_run a (truth_after init pre) h.
Proof.
  intros lg dm be lo legacy a L0 init pre h Hh Hb Ht.
  pose proof (fun lk subs L hp fp => loop_spec a lk subs Hh h L lo hp fp Ht) as Loop.
  unfold run. destruct legacy.
  - unfold run_legacy. destruct (no_args a) eqn:Hna.
    + rewrite (spec_run_no_args _ _ _ Hna). destruct (a_timeout a); [apply Loop|reflexivity].
    + unfold spec_run. rewrite cn_eff_spec, Hb. destruct (immediate _ a _) as [[[x|] hp0] fp0]; [reflexivity|].
      cbv zeta. rewrite statics_nil. destruct (negb (a_state a) && negb (a_event a) && _); [reflexivity|apply Loop].
  - unfold run_dm. rewrite Hb, dm_timeout_exact by reflexivity. destruct (no_args a && _) eqn:Hna.
    + apply andb_true_iff in Hna. destruct Hna as [Hna Hto]. rewrite (spec_run_no_args _ _ _ Hna).
      destruct (a_timeout a); [discriminate|reflexivity].
    + unfold spec_run. rewrite cn_eff_spec, Hb. destruct (immediate _ a _) as [[[x|] hp0] fp0]; [reflexivity|].
      cbn [only_leaks d_none_eager d_leak_dm d_hold_latest d_hold_attr_cancels orb].
      rewrite (only_exhausted_times a Hb Hna). destruct (negb (a_state a) && negb (a_event a) && _); [reflexivity|apply Loop].
Qed.

(* a call, as a function of the history after it, is over at once (nothing left registered, but for D152) or waits in [loop],
   whose epilogue releases what the prologue registered *)
Lemma run_cases (P : (hist -> result) -> Prop) cfg (legacy : bool) a L0 init pre :
  (forall x L, (d_badexpr_leak cfg = false -> L = L0) -> P (fun _ => done x 0 L)) ->
  (forall p L hp fp, lg_sub L (lp_subs p) = L0 ->
     lp_leak p = (if legacy then d_leak_legacy cfg else d_leak_dm cfg) \/ lp_leak p = false -> P (loop p L 0 hp fp)) ->
  P (run cfg legacy a L0 init pre).
Proof.
  intros Over Wait. pose proof (fun x => Over x L0 (fun _ => eq_refl)) as Over0.
  unfold run. destruct legacy.
  - unfold run_legacy. destruct (no_args a).
    + (* no trigger: 'none', or a sleep for the timeout with nothing registered *)
      destruct (a_timeout a); [|apply Over0]. apply Wait; [apply lg_sub_zero|right; reflexivity].
    + destruct (immediate _ a _) as [[[x|] hp0] fp0]; [apply Over0|]. cbv zeta. rewrite lg_add_assoc. destruct (a_badexpr a).
      * (* a condition that does not parse: the exception leaves before the loop; D152 keeps the event subscription *)
        apply Over. intros ->. rewrite lg_sub_sub. apply lg_sub_add.
      * destruct (negb (a_state a) && _ && _).
        -- (* only exhausted time triggers: 'none', both subscriptions released *) apply Over. intros _. apply lg_sub_add.
        -- apply Wait; [apply lg_sub_add|left; reflexivity].
  - (* the default subsystem registers on entering the loop: every earlier exit leaves [L0] *)
    unfold run_dm. cbv zeta. destruct (no_args a && _); [apply Over0|]. destruct (a_badexpr a); [apply Over0|].
    destruct (no_args a && _); [apply Over0|]. destruct (immediate _ a _) as [[[x|] hp0] fp0]; [apply Over0|].
    destruct (_ && _ && _); [apply Over0|]. apply Wait; [apply lg_sub_add|left; reflexivity].
Qed.

(* C15, last sentence, with the three leaks off and any other switch *)
Lemma run_ledger_restored : forall cfg legacy a L0 init pre h,
  d_leak_legacy cfg = false -> d_leak_dm cfg = false -> d_badexpr_leak cfg = false ->
  r_exit (run cfg legacy a L0 init pre h) <> XPending ->
  r_ledger (run cfg legacy a L0 init pre h) = L0.
Proof.
  intros cfg legacy a L0 init pre h Hlg Hdm Hbe. pattern (run cfg legacy a L0 init pre). apply run_cases.
  - intros x L HL _. exact (HL Hbe).
  - intros p L hp fp <- Hlk. apply loop_ledger. destruct Hlk as [->| ->]; [destruct legacy; assumption|reflexivity].
Qed.

Lemma run_deaf_after : forall cfg legacy a L0 init pre h1 h2,
  r_exit (run cfg legacy a L0 init pre h1) <> XPending ->
  (forall t o, In (t, o) h2 -> r_time (run cfg legacy a L0 init pre h1) <= t) ->
  run cfg legacy a L0 init pre (h1 ++ h2) = run cfg legacy a L0 init pre h1.
Proof.
  intros cfg legacy a L0 init pre h1 h2. pattern (run cfg legacy a L0 init pre). apply run_cases.
  - reflexivity.
  - intros p L hp fp _ _. apply loop_deaf_after.
Qed.

Lemma immediate_deaf cn a truth truth' :
  a_state a = false \/ (cn = false /\ a_hf a = None) -> immediate cn a truth = immediate cn a truth'.
Proof. unfold immediate. intros [->|[-> ->]]; [|rewrite andb_false_r]; reflexivity. Qed.

Lemma immediate_no_check : forall a truth truth', a_state a = false -> immediate true a truth = immediate true a truth'.
Proof. intros a truth truth' H. apply immediate_deaf. left. exact H. Qed.

(* occurrences before the call matter only through the current value of the state expression, and not at all without a state
   trigger or with neither state_check_now nor state_hold_false (any switches) *)
Lemma run_deaf_before : forall cfg legacy a L0 init pre init' pre' h,
  truth_after init pre = truth_after init' pre' \/ a_state a = false \/ (cn_eff legacy a = false /\ a_hf a = None) ->
  run cfg legacy a L0 init pre h = run cfg legacy a L0 init' pre' h.
Proof.
  intros cfg legacy a L0 init pre init' pre' h H. unfold run. destruct H as [->|H]; [reflexivity|].
  destruct legacy; [unfold run_legacy|unfold run_dm];
    rewrite (immediate_deaf _ a _ (truth_after init' pre') H); reflexivity.
Qed.

(* once every exit is known to release everything, the Model's ledger stands for "nothing left registered" *)
Lemma outcome_matches_released o r :
  (r_exit r <> XPending -> r_ledger r = lg_zero) ->
  outcome_matches o (r_exit r) (r_time r) (Some (leak_of (r_ledger r))) = true ->
  outcome_matches o (r_exit r) (r_time r) (Some (0, 0, 0, 0)) = true.
Proof. intros HL. destruct (r_exit r); try rewrite HL by discriminate; exact id. Qed.

Lemma wcase_model_implies_spec : forall c,
  wcase_wf c -> wcase_model_ok all_off c = true ->
  o_dict_ok (wc_obs c) = true -> o_late (wc_obs c) = 0%N -> o_other_ok (wc_obs c) = true ->
  o_leak_end (wc_obs c) = (0, 0, 0, 0) ->
  wcase_spec_ok c = true.
Proof.
  intros c [Ha [Hb Ht]] Hm Hd Hl Ho Hle. unfold wcase_spec_ok.
  pose proof (run_first false false false 0 _ _ _ _ _ _ (proj1 Ha) Hb Ht : outcome (model_of all_off c) = _) as <-.
  unfold outcome. cbv iota zeta.
  rewrite Hd, Hl, Ho, Hle,
    (outcome_matches_released _ (model_of all_off c) (run_ledger_restored all_off _ _ _ _ _ _ eq_refl eq_refl eq_refl) Hm).
  destruct (o_exit (wc_obs c)); reflexivity.
Qed.

Definition w_args (st : bool) (cn : option bool) (times : option (list Z)) (ev : bool) (to : option Z) (bad : bool) : wargs :=
  {| a_state := st; a_cn := cn; a_hold := None; a_hf := None; a_times := times; a_event := ev; a_timeout := to;
     a_badexpr := bad; a_shared := false |}.

(* [cfg] refutes the first sentence of C15 in the subsystem [legacy] *)
Definition refutes_first (cfg : deviations) (legacy : bool) : Prop := exists a init pre h,
  args_ok a /\ a_badexpr a = false /\ timed h /\
  outcome (run cfg legacy a lg_zero init pre h) <> spec_run a (truth_after init pre) h.

Definition w_hold_args : wargs :=
  {| a_state := true; a_cn := Some false; a_hold := Some 2750; a_hf := None; a_times := None; a_event := false;
     a_timeout := None; a_badexpr := false; a_shared := false |}.

(* the converse of [run_first], default subsystem: each of its four switches that are no leaks refutes, whatever the rest is set
   to (the witness of the first one that is on does not meet the later ones) *)
Theorem refutes_first_unless cfg :
  d_timeout0_falsy cfg || d_none_eager cfg || d_hold_latest cfg || d_hold_attr_cancels cfg = true -> refutes_first cfg false.
Proof.
  destruct cfg as [t0 lg dm nw be ne hl ha]. cbn. intros Hon.
  (* D18: timeout=0 with an event trigger *)
  destruct t0.
  { exists (w_args false None None true (Some 0) false), SFalse, [], [(3000, OEvent STrue 1%N)].
    repeat split; [cbn; lia..|vm_compute; discriminate]. }
  (* D153: state trigger plus an exhausted time trigger *)
  destruct ne.
  { exists (w_args true None (Some [-1000]) false None false), SFalse, [], [(2000, OState STrue 1%N)].
    repeat split; [cbn; lia..|vm_compute; discriminate]. }
  (* D154: a second still-true change during the hold period *)
  destruct hl.
  { exists w_hold_args, SFalse, [], [(1000, OState STrue 1%N); (1400, OState STrue 2%N)].
    repeat split; [cbn; lia..|vm_compute; discriminate]. }
  (* D155: an attribute-only update during the hold period *)
  destruct ha; [|discriminate Hon].
  exists w_hold_args, SFalse, [], [(1000, OState STrue 1%N); (2000, OAttr 2%N)].
  repeat split; [cbn; lia..|vm_compute; discriminate].
Qed.

(* the same for the legacy subsystem.  D151: once(now + 1.25s) and a non-matching event at 1 s *)
Theorem now_restarts_refutes cfg : d_now_restarts cfg = true -> refutes_first cfg true.
Proof.
  destruct cfg as [t0 lg dm nw be ne hl ha]. cbn. intros ->.
  exists (w_args false None (Some [1250]) true None false), SFalse, [], [(1000, OEvent SFalse 1%N)].
  repeat split; [cbn; lia..|vm_compute; discriminate].
Qed.

(* D19 and D150: a cancelled wait keeps what it registered *)
Theorem cancel_leaks cfg (legacy : bool) :
  (if legacy then d_leak_legacy cfg else d_leak_dm cfg) = true -> exists a init pre h,
  timed h /\ r_exit (run cfg legacy a lg_zero init pre h) = XCancelled /\
  r_ledger (run cfg legacy a lg_zero init pre h) <> lg_zero.
Proof.
  intros Hon. exists (w_args true (Some false) None true None false), SFalse, [], [(1125, OCancel)].
  destruct cfg as [t0 lg dm nw be ne hl ha], legacy; cbn in Hon; subst; (repeat split; [cbn; lia..|vm_compute; discriminate]).
Qed.

(* D152: an unparsable condition next to an event trigger *)
Theorem badexpr_leaks cfg : d_badexpr_leak cfg = true -> exists a init pre h,
  r_exit (run cfg true a lg_zero init pre h) = XExc ESyntax /\
  r_ledger (run cfg true a lg_zero init pre h) <> lg_zero.
Proof.
  destruct cfg as [t0 lg dm nw be ne hl ha]. cbn. intros ->.
  exists (w_args false None None true None true), SFalse, [], [].
  split; vm_compute; [reflexivity|discriminate].
Qed.

(* further true evaluations neither restart nor cancel the hold period; the first dictionary is kept *)
Example ex_hold_not_restarted :
  let h := [(1000, OState STrue 1%N); (1400, OState STrue 2%N); (2000, OAttr 3%N); (2600, OState STrue 4%N)] in
  outcome (run all_off true w_hold_args lg_zero SFalse [] h) = (XRet (RState 1), 3750)
  /\ outcome (run all_off false w_hold_args lg_zero SFalse [] h) = (XRet (RState 1), 3750)
  /\ spec_run w_hold_args SFalse h = (XRet (RState 1), 3750).
Proof. vm_compute. repeat split. Qed.

Definition ex_args : wargs :=
  {| a_state := true; a_cn := Some false; a_hold := Some 1750; a_hf := None; a_times := Some [3250; -1000]; a_event := true;
     a_timeout := Some 4500; a_badexpr := false; a_shared := false |}.
Definition ex_hist : hist :=
  [(1000, OEvent SFalse 1%N); (2000, OState STrue 2%N); (2125, OCancel); (3000, OState SFalse 3%N); (4000, OEvent STrue 4%N)].

Example ex_first_hyps : args_ok ex_args /\ a_badexpr ex_args = false /\ timed ex_hist.
Proof. repeat split; cbn; lia. Qed.

Example ex_first_instance :
  outcome (run all_off true ex_args lg_zero STrue [] ex_hist) = (XCancelled, 2125)
  /\ outcome (run all_off false ex_args lg_zero STrue [] ex_hist) = (XCancelled, 2125)
  /\ spec_run ex_args STrue ex_hist = (XCancelled, 2125).
Proof. vm_compute. repeat split. Qed.

(* without the cancellation: the expression turns false at 3 s, before the hold of 1.75 s is over, so the time trigger at
   3.25 s is first *)
Example ex_deaf_after_instance :
  let h1 := [(1000, OEvent SFalse 1%N); (2000, OState STrue 2%N); (3000, OState SFalse 3%N)] in
  let h2 := [(4000, OEvent STrue 4%N)] in
  r_exit (run all_off true ex_args lg_zero STrue [] h1) = XRet (RTime 3250)
  /\ (forall t o, In (t, o) h2 -> r_time (run all_off true ex_args lg_zero STrue [] h1) <= t).
Proof.
  cbn zeta. split; [vm_compute; reflexivity|].
  intros t o [H|[]]. inversion H; subst. vm_compute. discriminate.
Qed.

Example ex_deaf_before_instance :
  truth_after SFalse [(-2000, OState STrue 1%N); (-1000, OState SFalse 2%N); (-1000, OEvent STrue 3%N)]
  = truth_after SFalse [].
Proof. reflexivity. Qed.

Example ex_model_implies_spec_hyps :
  let c := {| wc_legacy := false; wc_args := ex_args; wc_init := STrue; wc_pre := []; wc_hist := ex_hist;
              wc_obs := {| o_exit := XCancelled; o_time := 2125; o_dict_ok := true; o_leak := Some (0, 0, 0, 0);
                           o_leak_end := (0, 0, 0, 0); o_late := 0; o_other_ok := true |} |} in
  wcase_wf c /\ wcase_model_ok all_off c = true.
Proof. cbn zeta. split; [exact ex_first_hyps|vm_compute; reflexivity]. Qed.
