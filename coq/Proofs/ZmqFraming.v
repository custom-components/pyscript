(* C19, first sentence: what send_multipart/send write is read back by recv, for every frame list, every frame length
   below 2^64 and every way the byte stream is cut into chunks.  The notion is [holds s d]: the pending chunks of [s] are the
   bytes [d].  Ends with a computed example and Model |= Spec for the cases of Zmq/FramingCheck.v. *)
From PV Require Import Common.Util Gen.ZmqConsts Zmq.Framing Zmq.FramingCheck.

Local Open Scope N_scope.

Lemma be_enc_length w n : length (be_enc w n) = w.
Proof. revert n; induction w as [|w IH]; intros n; cbn [be_enc]; [reflexivity|]. rewrite app_length, IH; cbn; lia. Qed.

Lemma be_dec_snoc l b : be_dec (l ++ [b]) = be_dec l * 256 + b.
Proof. unfold be_dec. rewrite fold_left_app. reflexivity. Qed.

Lemma be_dec_enc w n : n < 256 ^ N.of_nat w -> be_dec (be_enc w n) = n.
Proof.
  revert n; induction w as [|w IH]; intros n Hn.
  - cbn in *. unfold be_dec; cbn. lia.
  - cbn [be_enc]. rewrite be_dec_snoc, IH.
    + pose proof (N.div_mod n 256). lia.
    + rewrite Nat2N.inj_succ, N.pow_succ_r' in Hn. apply N.div_lt_upper_bound; lia.
Qed.

(* a read that returns nothing is the end of the stream *)
Definition wf (s : stream) : Prop := Forall (fun c => c <> []) s.
Definition holds (s : stream) (d : bytes) : Prop := wf s /\ concat s = d.

Lemma firstn_skipn_app {A} (a l : list A) : firstn (length a) (a ++ l) = a /\ skipn (length a) (a ++ l) = l.
Proof. rewrite firstn_app, skipn_app, Nat.sub_diag, firstn_all, skipn_all. cbn. rewrite app_nil_r. auto. Qed.

(* the first chunk either holds all of [a] or is a proper part of it *)
Lemma read_bytes_fuel_app : forall fuel n a acc b s,
  holds s (a ++ b) -> length a = n -> (n <= fuel)%nat ->
  exists s', read_bytes_fuel fuel n acc s = Some (acc ++ a, s') /\ holds s' b.
Proof.
  unfold holds. induction fuel as [|fuel IH]; intros n a acc b s [W C] L F; destruct n as [|m]; try lia.
  1, 2: apply length_zero_iff_nil in L as ->; exists s; cbn; rewrite app_nil_r; auto.
  destruct s as [|c r]; [destruct a; discriminate|]. inversion W as [|? ? Hc Wr]; subst.
  cbn [read_bytes_fuel read_some concat] in *.
  destruct (app_eq_app _ _ _ _ C) as [l [[-> ->]|[-> E]]].
  - (* first chunk = a ++ l *)
    rewrite <- L. destruct (firstn_skipn_app a l) as [-> ->].
    destruct a as [|x a]; [discriminate L|]. rewrite Nat.sub_diag.
    eexists. split; [destruct fuel; reflexivity|]. destruct l; split; auto. constructor; [discriminate|exact Wr].
  - (* a = first chunk ++ l *)
    rewrite app_length in L. rewrite firstn_all2, skipn_all2 by lia.
    destruct c as [|y c]; [congruence|].
    destruct (IH (S m - length (y :: c))%nat l (acc ++ y :: c) b r (conj Wr E)) as (s' & E' & W' & C'); cbn [length] in *; try lia.
    exists s'. rewrite E', <- app_assoc. auto.
Qed.

Lemma read_bytes_app : forall a b s, holds s (a ++ b) -> exists s', read_bytes (length a) s = Some (a, s') /\ holds s' b.
Proof. intros a b s H. exact (read_bytes_fuel_app _ _ a [] b s H eq_refl (le_n _)). Qed.

Lemma read_bytesN_app : forall a b s, holds s (a ++ b) ->
  exists s', read_bytesN (N.of_nat (length a)) s = Some (a, s') /\ holds s' b.
Proof.
  intros a b s H. unfold read_bytesN, stream_len.
  rewrite (proj2 H), app_length, Nat2N.id.
  destruct (N.ltb_spec (N.of_nat (length a + length b)) (N.of_nat (length a))) as [L|L]; [lia|].
  apply read_bytes_app, H.
Qed.

Lemma read_frame s cmd lb p tail : holds s ([cmd] ++ lb ++ p ++ tail) ->
  exists s1 s2 s3, read_bytes 1 s = Some ([cmd], s1) /\ read_bytes (length lb) s1 = Some (lb, s2) /\
    read_bytesN (N.of_nat (length p)) s2 = Some (p, s3) /\ holds s3 tail.
Proof.
  intros H.
  destruct (read_bytes_app [cmd] _ s H) as (s1 & E1 & H1).
  destruct (read_bytes_app lb _ s1 H1) as (s2 & E2 & H2).
  destruct (read_bytesN_app p tail s2 H2) as (s3 & E3 & H3).
  exists s1, s2, s3. auto.
Qed.

(* A model byte is an unbounded [N]: the model follows bytearray([cmd, len]) only while the short form is chosen for
   lengths below 256.  Unused below; a regenerated bound that breaks it stops the file. *)
Lemma short_len_byte (p : bytes) : cmp_eval mp_short_cmp (N.of_nat (length p)) mp_short_max = true ->
  N.of_nat (length p) < 256.
Proof. unfold mp_short_cmp, mp_short_max. cbn [cmp_eval]. intros H%N.leb_le. lia. Qed.

Definition len_ok (p : bytes) : Prop := N.of_nat (length p) < 2 ^ 64.

(* recv's tests on the command byte are computed from the generated constants *)
Lemma recv_one : forall fuel s p tail parts more,
  len_ok p -> holds s (enc_part more p ++ tail) ->
  exists s', recv_loop (S fuel) s parts = (if more then recv_loop fuel s' (parts ++ [p]) else RecvOk (parts ++ [p]) s') /\
    holds s' tail.
Proof.
  intros fuel s p tail parts more L H. unfold enc_part in H.
  destruct (cmp_eval mp_short_cmp (N.of_nat (length p)) mp_short_max).
  - destruct (read_frame s _ [_] p tail H) as (s1 & s2 & s3 & E1 & E2 & E3 & H3).
    exists s3. split; [|exact H3].
    cbn [recv_loop]. rewrite E1. destruct more; simpl (N.land _ _ =? 0); cbn [length] in E2; rewrite E2, E3; reflexivity.
  - cbn [app] in H. rewrite <- app_assoc in H.
    destruct (read_frame s _ _ p tail H) as (s1 & s2 & s3 & E1 & E2 & E3 & H3).
    exists s3. split; [|exact H3].
    rewrite be_enc_length in E2.
    (* writer's and reader's widths are generated separately: holds only while the two are convertible *)
    change mp_long_width with rv_long_width in E2 at 1.
    cbn [recv_loop]. rewrite E1. destruct more; simpl (N.land _ _ =? 0); rewrite E2, be_dec_enc, E3 by exact L; reflexivity.
Qed.

Lemma enc_multipart_cons p q r : enc_multipart (p :: q :: r) = enc_part true p ++ enc_multipart (q :: r).
Proof. reflexivity. Qed.

Lemma enc_part_length more p : (2 <= length (enc_part more p))%nat.
Proof.
  unfold enc_part. destruct (cmp_eval _ _ _); cbn [app length]; [lia|].
  rewrite app_length, be_enc_length. change mp_long_width with 8%nat. lia.
Qed.

(* one unit of fuel per frame: more than enough when there is one per byte *)
Lemma recv_enc_multipart : forall r p s tail acc fuel,
  Forall len_ok (p :: r) -> holds s (enc_multipart (p :: r) ++ tail) ->
  (length (enc_multipart (p :: r)) < fuel)%nat ->
  exists s', recv_loop fuel s acc = RecvOk (acc ++ p :: r) s' /\ holds s' tail.
Proof.
  induction r as [|q r IH]; intros p s tail acc [|fuel] HL H F; try lia; inversion HL as [|? ? Lp Lr]; subst.
  - destruct (recv_one fuel s p tail acc false Lp H) as (s' & E & H').
    exists s'. rewrite E. auto.
  - rewrite enc_multipart_cons in *. rewrite <- app_assoc in H.
    destruct (recv_one fuel s p _ acc true Lp H) as (s1 & E & H1).
    rewrite E. rewrite app_length in F. pose proof (enc_part_length true p).
    destruct (IH q s1 tail (acc ++ [p]) fuel Lr H1) as (s' & E' & H'); [lia|].
    exists s'. rewrite E', <- app_assoc. auto.
Qed.

Lemma multipart_roundtrip : forall parts tail s,
  parts <> [] -> Forall len_ok parts -> wf s -> concat s = enc_multipart parts ++ tail ->
  exists s', recv_multipart s = RecvOk parts s' /\ wf s' /\ concat s' = tail.
Proof.
  intros [|p r] tail s Hne HL W C; [congruence|].
  apply (recv_enc_multipart r p s tail [] _ HL (conj W C)).
  unfold stream_len. rewrite C, app_length. lia.
Qed.

(* send() / recv(multipart=False): the REP envelope *)
Lemma enc_single_is_multipart msg : enc_single msg = enc_multipart [[]; msg].
Proof.
  unfold enc_single, enc_multipart, enc_part. cbn [length N.of_nat].
  (* send and send_multipart each have a generated short-form test: holds only while the two are convertible *)
  change sd_short_cmp with mp_short_cmp. change sd_short_max with mp_short_max.
  destruct (cmp_eval mp_short_cmp (N.of_nat (length msg)) mp_short_max); reflexivity.
Qed.

Lemma envelope_len_ok msg : len_ok msg -> Forall len_ok [[]; msg].
Proof. intros L. repeat constructor. exact L. Qed.

Lemma single_roundtrip : forall msg tail s,
  len_ok msg -> wf s -> concat s = enc_single msg ++ tail ->
  exists s', recv_single s = Some (msg, s') /\ wf s' /\ concat s' = tail.
Proof.
  intros msg tail s L W C. rewrite enc_single_is_multipart in C.
  destruct (multipart_roundtrip [[]; msg] tail s) as (s' & E & W' & C'); try assumption; [discriminate| |].
  - apply envelope_len_ok, L.
  - exists s'. unfold recv_single. rewrite E. cbn. rewrite app_nil_r. auto.
Qed.

Lemma firstn_nonnil {A} (k : nat) (c : list A) : c <> [] -> (0 < k)%nat -> firstn k c <> [].
Proof. destruct c, k; cbn; intros; try congruence; lia. Qed.

Lemma cut_stream_ok cuts : forall data, holds (cut_stream cuts data) data.
Proof.
  unfold holds. induction cuts as [|c r IH]; intros data.
  - destruct data; cbn; [split; [constructor|reflexivity]|].
    split; [repeat constructor; discriminate| rewrite app_nil_r; reflexivity].
  - destruct data as [|d data']; [cbn; split; [constructor|reflexivity]|].
    cbn [cut_stream]. destruct (N.eqb_spec c 0) as [->|Hc]; [apply IH|].
    destruct (IH (skipn (N.to_nat c) (d :: data'))) as (W & C).
    split.
    + constructor; [|exact W]. apply firstn_nonnil; [discriminate|lia].
    + cbn [concat]. rewrite C. apply firstn_skipn.
Qed.

(* the 300-byte frame takes the long form *)
Example roundtrip_instance :
  let parts := [[1; 2; 3]; []; repeat 7 300] in
  let s := cut_stream (repeat 7 60) (enc_multipart parts ++ [9; 9]) in
  Forall len_ok parts /\ wf s /\ recv_result_eqb (recv_multipart s) (RecvOk parts [[9; 9]]) = true.
Proof.
  cbv zeta. split; [|split].
  - repeat constructor; unfold len_ok; rewrite ?repeat_length; cbn; lia.
  - apply cut_stream_ok.
  - vm_compute. reflexivity.
Qed.

(* Model |= Spec on the functions Zmq/FramingCheck.v evaluates *)
Definition fcase_wf (c : fcase) : Prop :=
  Forall len_ok (map rle_expand (fc_parts c)) /\ (fc_single c = true -> exists p, fc_parts c = [p]).

Lemma recv_matches_roundtrip single o parts tail cuts : parts <> [] -> Forall len_ok parts ->
  robs_matches single o (recv_multipart (cut_stream cuts (enc_multipart parts ++ tail))) = true ->
  match o with
  | ROk ps rest =>
      frames_eqb (map rle_expand ps) (if single then [concat parts] else parts) && bytes_eqb (rle_expand rest) tail
  | _ => false
  end = true.
Proof.
  intros Hne HL. destruct (cut_stream_ok cuts (enc_multipart parts ++ tail)) as (W & C).
  destruct (multipart_roundtrip parts tail _ Hne HL W C) as (s' & -> & _ & <-).
  destruct o; intros Hm; exact Hm.
Qed.

Lemma fcase_model_implies_spec : forall c, fcase_wf c -> fcase_model_ok c = true -> fcase_spec_ok c = true.
Proof.
  intros c [HL Hs] Hm. unfold fcase_model_ok in Hm. unfold fcase_spec_ok.
  destruct (fc_parts c) as [|p0 ps0] eqn:Ep; [reflexivity|].
  destruct (fc_sent c) as [sent|]; [|discriminate].
  apply andb_true_iff in Hm as [Hsent Hrecv]. apply bytes_eqb_eq in Hsent. rewrite <- Hsent in Hrecv.
  unfold model_sent in Hrecv. rewrite Ep in Hrecv.
  destruct (fc_single c).
  - destruct (Hs eq_refl) as (p & [= -> ->]). cbn [map hd] in *. rewrite enc_single_is_multipart in Hrecv.
    apply recv_matches_roundtrip in Hrecv; [exact Hrecv|discriminate|apply envelope_len_ok, (Forall_inv HL)].
  - apply recv_matches_roundtrip in Hrecv; [exact Hrecv|discriminate|exact HL].
Qed.
