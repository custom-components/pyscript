(* The calendar of Common/Civil.v.  [jan1] and [days_before_month] grow step by step ([steps_mono]), which makes the year
   and month searches the inverses of [days_from_civil]: the round trips days <-> (y, m, d) and instants <-> [datetime].
   The arithmetic with / and mod that needs the Zify hook set below is done here, for all C06 files. *)
From Coq Require Import ZArith List Bool Lia.
From PV Require Import Common.Civil.
Import ListNotations.
Local Open Scope Z_scope.

Lemma div_pred k y : 0 < k -> (y - 1) / k = y / k - (if y mod k =? 0 then 1 else 0).
Proof.
  intros Hk. pose proof (Z.div_mod y k ltac:(lia)) as E. pose proof (Z.mod_pos_bound y k Hk) as B. symmetry.
  destruct (Z.eqb_spec (y mod k) 0) as [Z0|NZ].
  - apply (Z.div_unique _ _ _ (k - 1)); lia.
  - apply (Z.div_unique _ _ _ (y mod k - 1)); lia.
Qed.

Lemma digit_join a b c : 0 < b -> 0 < c -> a / (b * c) * c + a mod (b * c) / b = a / b.
Proof.
  intros Hb Hc. rewrite (Z.div_mod a (b * c)) at 3 by lia.
  replace (b * c * (a / (b * c))) with (a / (b * c) * c * b) by ring. rewrite Z.div_add_l by lia. reflexivity.
Qed.

Lemma digit_bound a b c : 0 < b -> 0 < c -> 0 <= a mod (b * c) / b < c.
Proof.
  intros Hb Hc. pose proof (Z.mod_pos_bound a (b * c) ltac:(lia)).
  split; [apply Z.div_pos; lia|apply Z.div_lt_upper_bound; lia].
Qed.

(* [lia] alone does not know / and mod; with this, every [lia] of this file first replaces [a / b] and [a mod b] by
   fresh q and r with the Euclidean equations.  [::=] is not confined by sections, modules or [Local]: the last sentence
   of this file puts the default back. *)
Ltac Zify.zify_post_hook ::= Z.to_euclidean_division_equations.

Lemma steps_mono (f : Z -> Z) a b : (forall x, a <= x < b -> f x <= f (x + 1)) -> a <= b -> f a <= f b.
Proof.
  intros St L. revert St. pattern b. apply (Zlt_lower_bound_ind _ a); [|exact L].
  intros x IH Hx St. destruct (Z.eq_dec x a) as [->|NE]; [lia|].
  pose proof (IH (x - 1) ltac:(lia) (fun y Hy => St y ltac:(lia))). pose proof (St (x - 1) ltac:(lia)) as Last.
  replace (x - 1 + 1) with x in Last by lia. lia.
Qed.

(* a value lies between two consecutive members of a non-decreasing sequence at one place only: were x < y,
   n < f (x + 1) <= f y <= n *)
Lemma bracket_unique (f : Z -> Z) x y n : (x < y -> f (x + 1) <= f y) -> (y < x -> f (y + 1) <= f x) ->
  f x <= n < f (x + 1) -> f y <= n < f (y + 1) -> x = y.
Proof. lia. Qed.

(* y / k exceeds (y - 1) / k exactly when k divides y; is_leap counts the multiples of 4, 100, 400 with signs +, -, + *)
Lemma dby_succ y : days_before_year (y + 1) = days_before_year y + 365 + (if is_leap y then 1 else 0).
Proof.
  unfold days_before_year, is_leap. replace (y + 1 - 1) with y by ring.
  rewrite (div_pred 4 y), (div_pred 100 y), (div_pred 400 y) by reflexivity.
  assert (y mod 100 = 0 -> y mod 4 = 0) as H1 by lia. assert (y mod 400 = 0 -> y mod 100 = 0) as H2 by lia.
  destruct (Z.eqb_spec (y mod 4) 0), (Z.eqb_spec (y mod 100) 0), (Z.eqb_spec (y mod 400) 0); cbn [andb orb negb];
    try tauto; ring.
Qed.

Definition jan1 (y : Z) : Z := days_before_year y + 1 - EPOCH_ORD.

Lemma dfc_jan1 y : days_from_civil y 1 1 = jan1 y.
Proof. unfold days_from_civil, days_before_month, jan1. cbn. lia. Qed.

Lemma dfc_via_jan1 y m d : days_from_civil y m d = jan1 y + days_before_month y m + d - 1.
Proof. unfold days_from_civil, jan1. lia. Qed.

Lemma jan1_succ y : jan1 (y + 1) = jan1 y + 365 + (if is_leap y then 1 else 0).
Proof. unfold jan1. rewrite dby_succ. lia. Qed.

Lemma jan1_lt_succ y : jan1 y < jan1 (y + 1).
Proof. rewrite jan1_succ. destruct (is_leap y); lia. Qed.

Lemma jan1_mono_le a b : a <= b -> jan1 a <= jan1 b.
Proof. apply steps_mono. intros x _. apply Z.lt_le_incl, jan1_lt_succ. Qed.

Lemma jan1_mono_lt a b : a < b -> jan1 a < jan1 b.
Proof.
  intros H. pose proof (jan1_mono_le (a + 1) b ltac:(lia)). pose proof (jan1_lt_succ a). lia.
Qed.

(* 400 years have 146097 days.  With Y = y - 1, 400 * (Y / 4) >= 100 * Y - 300 and 400 * (Y / 400) >= Y - 399 lose at
   most 699, and 400 * (Y / 100) >= 4 * Y - 396 is subtracted. *)
Lemma dby_mean y : 146097 * (y - 1) - 699 <= 400 * days_before_year y <= 146097 * (y - 1) + 396.
Proof. unfold days_before_year. lia. Qed.

Lemma year_of_day_spec n : jan1 (year_of_day n) <= n < jan1 (year_of_day n + 1).
Proof.
  unfold year_of_day. set (y0 := (n + EPOCH_ORD - 1) * 400 / 146097 + 1).
  (* [y0] is the year of [n] at mean year length; [jan1] is within two days of the mean ([dby_mean]) *)
  assert (jan1 (y0 - 1) <= n < jan1 (y0 + 2)) as B
    by (pose proof (dby_mean (y0 - 1)); pose proof (dby_mean (y0 + 2)); unfold y0, jan1, EPOCH_ORD in *; lia).
  rewrite !dfc_jan1.
  destruct (Z.leb_spec (jan1 (y0 + 1)) n).
  - replace (y0 + 1 + 1) with (y0 + 2) by lia. lia.
  - destruct (Z.ltb_spec n (jan1 y0)); [replace (y0 - 1 + 1) with y0 by lia|]; lia.
Qed.

Lemma year_of_day_unique n y : jan1 y <= n < jan1 (y + 1) -> year_of_day n = y.
Proof.
  intros H. apply (bracket_unique jan1 _ _ n); [intros; apply jan1_mono_le; lia..|apply year_of_day_spec|exact H].
Qed.

Lemma dbm_1 y : days_before_month y 1 = 0.
Proof. reflexivity. Qed.

Lemma dbm_13 y : days_before_month y 13 = 365 + (if is_leap y then 1 else 0).
Proof. reflexivity. Qed.

Lemma days_in_month_eq y m :
  days_in_month y m = month_offset (m + 1) - month_offset m + (if (m =? 2) && is_leap y then 1 else 0).
Proof.
  unfold days_in_month, days_before_month.
  destruct (Z.ltb_spec 2 (m + 1)), (Z.ltb_spec 2 m), (Z.eqb_spec m 2), (is_leap y); cbn [andb]; lia.
Qed.

Lemma month_offset_step m : 1 <= m <= 12 -> 28 <= month_offset (m + 1) - month_offset m.
Proof.
  intros H.
  assert (m = 1 \/ m = 2 \/ m = 3 \/ m = 4 \/ m = 5 \/ m = 6 \/ m = 7 \/ m = 8 \/ m = 9 \/ m = 10 \/ m = 11 \/ m = 12) as C by lia.
  destruct C as [->|[->|[->|[->|[->|[->|[->|[->|[->|[->|[->| ->]]]]]]]]]]]; cbn; lia.
Qed.

Lemma dbm_mono y a b : 1 <= a -> a <= b -> b <= 13 -> days_before_month y a <= days_before_month y b.
Proof.
  intros H1 L H13. apply steps_mono; [|exact L]. intros m Hm.
  pose proof (days_in_month_eq y m) as E. pose proof (month_offset_step m ltac:(lia)).
  unfold days_in_month in E. destruct ((m =? 2) && is_leap y); lia.
Qed.

Lemma month_of_doy_spec y doy : 0 <= doy < days_before_month y 13 ->
  1 <= month_of_doy y doy <= 12 /\
  days_before_month y (month_of_doy y doy) <= doy < days_before_month y (month_of_doy y doy + 1).
Proof.
  intros H. pose proof (dbm_1 y). unfold month_of_doy.
  (* the eleven tests in turn; each failed test leaves the lower bound for the next (for month 1 that is [dbm_1]) *)
  repeat match goal with |- context [if doy <? ?b then _ else _] => destruct (Z.ltb_spec doy b); [simpl (_ + 1); lia|] end.
  simpl (_ + 1). lia.
Qed.

Lemma month_of_doy_unique y doy m : 1 <= m <= 12 ->
  days_before_month y m <= doy < days_before_month y (m + 1) -> month_of_doy y doy = m.
Proof.
  intros Hm H.
  pose proof (dbm_mono y 1 m) as L1. pose proof (dbm_mono y (m + 1) 13) as L13. rewrite dbm_1 in L1.
  destruct (month_of_doy_spec y doy ltac:(lia)) as (Hm' & H').
  apply (bracket_unique (days_before_month y) _ _ doy); [intros; apply dbm_mono; lia..|exact H'|exact H].
Qed.

Lemma valid_date_iff y m d : valid_date y m d = true <->
  1 <= m <= 12 /\ 1 <= d /\ days_before_month y m + d <= days_before_month y (m + 1).
Proof. unfold valid_date, days_in_month. rewrite !andb_true_iff, !Z.leb_le. lia. Qed.

Lemma valid_date_common_year y0 y m d : is_leap y0 = false -> valid_date y0 m d = true -> valid_date y m d = true.
Proof.
  intros NL. unfold valid_date. rewrite !andb_true_iff, !Z.leb_le, !days_in_month_eq, NL, andb_false_r.
  destruct ((m =? 2) && is_leap y); lia.
Qed.

Lemma dfc_in_year y m d : valid_date y m d = true -> jan1 y <= days_from_civil y m d < jan1 (y + 1).
Proof.
  intros V. apply valid_date_iff in V. destruct V as (Hm & Hd & Hle).
  pose proof (dbm_mono y 1 m) as L1. pose proof (dbm_mono y (m + 1) 13) as L13. rewrite dbm_1 in L1. rewrite dbm_13 in L13.
  rewrite dfc_via_jan1, jan1_succ. lia.
Qed.

Lemma civil_from_days_spec n : let '(y, m, d) := civil_from_days n in days_from_civil y m d = n /\ valid_date y m d = true.
Proof.
  unfold civil_from_days. set (y := year_of_day n). rewrite dfc_jan1. set (doy := n - jan1 y).
  pose proof (year_of_day_spec n) as S. fold y in S. rewrite jan1_succ in S. pose proof (dbm_13 y) as E13.
  pose proof (month_of_doy_spec y doy ltac:(lia)) as M.
  split; [rewrite dfc_via_jan1|apply valid_date_iff]; lia.
Qed.

Lemma civil_from_days_from_civil y m d : valid_date y m d = true ->
  civil_from_days (days_from_civil y m d) = (y, m, d).
Proof.
  intros V. unfold civil_from_days.
  rewrite (year_of_day_unique _ y (dfc_in_year y m d V)), dfc_jan1.
  apply valid_date_iff in V. destruct V as (Hm & Hd & Hle).
  replace (days_from_civil y m d - jan1 y) with (days_before_month y m + d - 1) by (rewrite dfc_via_jan1; lia).
  rewrite (month_of_doy_unique y _ m Hm) by lia.
  f_equal. lia.
Qed.

Lemma dfc_next_year y m d : 365 <= days_from_civil (y + 1) m d - days_from_civil y m d <= 366.
Proof.
  rewrite !dfc_via_jan1, jan1_succ. unfold days_before_month.
  destruct (2 <? m), (is_leap y), (is_leap (y + 1)); cbn [andb]; lia.
Qed.

Lemma dfc_year_span y y' m d : y <= y' ->
  365 * (y' - y) <= days_from_civil y' m d - days_from_civil y m d <= 366 * (y' - y).
Proof.
  intros L. pose proof (fun x => dfc_next_year x m d) as N.
  pose proof (steps_mono (fun x => days_from_civil x m d - 365 * x) y y') as Lo.
  pose proof (steps_mono (fun x => 366 * x - days_from_civil x m d) y y') as Hi. cbv beta in Lo, Hi.
  specialize (Lo ltac:(intros x _; specialize (N x); lia) L). specialize (Hi ltac:(intros x _; specialize (N x); lia) L). lia.
Qed.

Lemma dfc_year_mono_upper y y' m d : 1 <= m <= 12 -> y <= y' ->
  days_from_civil y' m d <= days_from_civil y m d + 366 * (y' - y).
Proof. intros _ L. pose proof (dfc_year_span y y' m d L). lia. Qed.

Lemma dfc_two_years day m d : (forall y, valid_date y m d = true) ->
  days_from_civil (year_of_day day - 2) m d + 366 <= day <= days_from_civil (year_of_day day + 2) m d - 366.
Proof.
  intros V. pose proof (year_of_day_spec day) as S. set (y0 := year_of_day day) in *.
  pose proof (dfc_in_year (y0 - 2) m d (V _)) as I1. pose proof (dfc_in_year (y0 + 2) m d (V _)) as I2.
  pose proof (jan1_succ (y0 - 1)) as J1. pose proof (jan1_succ (y0 + 1)) as J2.
  replace (y0 - 2 + 1) with (y0 - 1) in I1 by lia. replace (y0 - 1 + 1) with y0 in J1 by lia.
  replace (y0 + 1 + 1) with (y0 + 2) in J2 by lia.
  destruct (is_leap (y0 - 1)), (is_leap (y0 + 1)); lia.
Qed.

Lemma weekday_range n : 0 <= weekday_sun0 n <= 6.
Proof. unfold weekday_sun0. lia. Qed.

Lemma weekday_shift n k : weekday_sun0 (n + k) = (weekday_sun0 n + k) mod 7.
Proof. unfold weekday_sun0. lia. Qed.

Lemma dow_unique today w day : 0 <= w <= 6 ->
  (today <= day < today + 7 /\ weekday_sun0 day = w) <->
  day = today + (if weekday_sun0 today <=? w then w - weekday_sun0 today else 7 + w - weekday_sun0 today).
Proof.
  intros Hw. unfold weekday_sun0. destruct (Z.leb_spec ((today + 4) mod 7) w); lia.
Qed.

Example weekday_epoch : weekday_sun0 (days_from_civil 1970 1 1) = 4 /\ weekday_sun0 (days_from_civil 2024 3 10) = 0.
Proof. vm_compute. split; reflexivity. Qed.

Lemma day_tod t : t = midnight (day_of t) + tod_of t /\ 0 <= tod_of t < DAY.
Proof. unfold midnight, day_of, tod_of, DAY. lia. Qed.

Lemma day_of_midnight n r : 0 <= r < DAY -> day_of (midnight n + r) = n.
Proof. unfold midnight, day_of, DAY. lia. Qed.

Lemma tod_of_midnight n r : 0 <= r < DAY -> tod_of (midnight n + r) = r.
Proof. unfold midnight, tod_of, DAY. lia. Qed.

Lemma midnight_succ n : midnight (n + 1) = midnight n + DAY.
Proof. unfold midnight. ring. Qed.

Lemma midnight_le a b : a <= b -> midnight a <= midnight b.
Proof. unfold midnight, DAY. lia. Qed.

Lemma day_bracket now c : 0 <= c < DAY -> midnight (day_of now + -1) + c < now < midnight (day_of now + 1) + c.
Proof. pose proof (day_tod now). unfold midnight, DAY in *. lia. Qed.

Lemma year_away_before d c now : d + 366 <= day_of now -> c <= 365 * DAY -> midnight d + c <= now.
Proof. pose proof (day_tod now). unfold midnight, DAY in *. lia. Qed.

Lemma year_away_after d c now : day_of now <= d - 366 -> - (365 * DAY) <= c -> now < midnight d + c.
Proof. pose proof (day_tod now). unfold midnight, DAY in *. lia. Qed.

(* for the every-minute crontab *)
Lemma minute_grid t : let v := (t / MINUTE + 1) * MINUTE in
  t < v /\ tod_of v mod MINUTE = 0 /\ forall t', t < t' -> t' < v -> tod_of t' mod MINUTE <> 0.
Proof. unfold tod_of, DAY, MINUTE. cbv zeta. split; [lia|]. split; [lia|]. intros t' L1 L2. lia. Qed.

Lemma hms_us_of_tod r : hms_us (r / HOUR) (r mod HOUR / MINUTE) (r mod MINUTE / USEC) (r mod USEC) = r.
Proof.
  unfold hms_us. change HOUR with (MINUTE * 60). rewrite digit_join by reflexivity.
  change MINUTE with (USEC * 60). rewrite digit_join by reflexivity.
  rewrite Z.mul_comm. symmetry. apply Z.div_mod. discriminate.
Qed.

Lemma datetime_to_us_of_us t : datetime_to_us (us_datetime t) = t.
Proof.
  unfold datetime_to_us, us_datetime, datetime_us.
  pose proof (civil_from_days_spec (day_of t)) as R.
  destruct (civil_from_days (day_of t)) as [[y m] d]. cbn [dt_y dt_m dt_d dt_h dt_mi dt_s dt_us].
  rewrite (proj1 R), hms_us_of_tod. symmetry. apply day_tod.
Qed.

Lemma us_datetime_of_datetime x : valid_datetime x = true -> us_datetime (datetime_to_us x) = x.
Proof.
  destruct x as [y m d h mi s us]. unfold valid_datetime. cbn [dt_y dt_m dt_d dt_h dt_mi dt_s dt_us].
  rewrite !andb_true_iff, !Z.leb_le, !Z.ltb_lt. intros H. assert (valid_date y m d = true) as V by tauto.
  unfold datetime_to_us, datetime_us. cbn [dt_y dt_m dt_d dt_h dt_mi dt_s dt_us].
  assert (0 <= hms_us h mi s us < DAY) as Hr by (unfold hms_us, USEC, DAY in *; lia).
  unfold us_datetime. rewrite day_of_midnight, tod_of_midnight by exact Hr.
  rewrite (civil_from_days_from_civil _ _ _ V).
  (* the fields read off are digits too, and they make up the same number *)
  set (r := hms_us h mi s us). pose proof (hms_us_of_tod r) as E.
  pose proof (digit_bound r MINUTE 60 eq_refl eq_refl) as B1. pose proof (digit_bound r USEC 60 eq_refl eq_refl) as B2.
  pose proof (Z.mod_pos_bound r USEC eq_refl) as B3.
  change (MINUTE * 60) with HOUR in B1. change (USEC * 60) with MINUTE in B2.
  revert E B1 B2 B3. generalize (r / HOUR) (r mod HOUR / MINUTE) (r mod MINUTE / USEC) (r mod USEC).
  unfold r, hms_us, USEC in *. intros h' mi' s' us' E B1 B2 B3. f_equal; lia.
Qed.

Lemma div_rhe_spec a b : 0 < b -> let q := div_rhe a b in -b <= 2 * (a - b * q) <= b.
Proof.
  intros Hb. cbv zeta. unfold div_rhe.
  destruct (Z.ltb_spec (2 * (a mod b)) b); [lia|].
  destruct (Z.ltb_spec b (2 * (a mod b))); [lia|].
  destruct (Z.even (a / b)); lia.
Qed.

Lemma div_rhe_exact a b : 0 < b -> a mod b = 0 -> div_rhe a b = a / b.
Proof.
  intros Hb H. unfold div_rhe. rewrite H. destruct (Z.ltb_spec (2 * 0) b); [reflexivity|lia].
Qed.

Ltac Zify.zify_post_hook ::= idtac.
