(* Witnesses for C01 on the host over builtin values (Interp/BuiltinHost.v).  It meets H1 and H2, so every program agrees
   on it; the example program runs; each of the thirteen deviation switches that stand for a finding, on its own, makes
   the model of pyscript observably different from the reference on the witness program of its finding, on which the two agree with the switch off. *)
From PV Require Import Common.Util Interp.Syntax Interp.Host Interp.PsEval Interp.PyRef Interp.BuiltinHost Proofs.InterpEquiv.

Lemma builtin_host_H1 : H1 bh_prim.
Proof. intros v h. eexists. reflexivity. Qed.

Lemma builtin_host_H2 : H2 bh_prim.
Proof.
  split; [|reflexivity]. intros o a b h h' v.
  (* which row of [bh_prim] applies depends on the operator and on whether [a] is an int, only then on [b] *)
  destruct o, a as [[| |x| | | |]| | | | | |]; try discriminate; try (intros [= _ <-]; eauto; fail).
  all: destruct b as [[]| | | | | |]; try discriminate; intros [= _ <-]; eauto.
Qed.

Definition ps_obs (cfg : deviations) (p : program) := option_map obs (ps_run bh_state bh_prim bh_hashable cfg 30 p bh_init bh_env).
Definition py_obs (p : program) := option_map obs (py_run bh_state bh_prim bh_hashable 30 p bh_init bh_env).

Lemma example_runs : exists e t, py_obs w_example = Some (e, t, ONormal) /\ 10 <= length t.
Proof. eexists. eexists. split; [vm_compute; reflexivity|]. vm_compute. repeat constructor. Qed.

Lemma builtin_agrees p : ps_obs no_deviations p = py_obs p.
Proof. exact (obs_equiv _ _ _ _ eq_refl builtin_host_H1 builtin_host_H2 _ _ _ _). Qed.

Lemma example_agrees : ps_obs no_deviations w_example = py_obs w_example.
Proof. exact (builtin_agrees w_example). Qed.

Lemma refuted_D1 : ps_obs (only_dev 1) w_D1 <> py_obs w_D1.   Proof. vm_compute. discriminate. Qed.
Lemma refuted_D2 : ps_obs (only_dev 2) w_D2 <> py_obs w_D2.   Proof. vm_compute. discriminate. Qed.
Lemma refuted_D3 : ps_obs (only_dev 3) w_D3 <> py_obs w_D3.   Proof. vm_compute. discriminate. Qed.
Lemma refuted_D4 : ps_obs (only_dev 4) w_D4 <> py_obs w_D4.   Proof. vm_compute. discriminate. Qed.
Lemma refuted_D5 : ps_obs (only_dev 5) w_D5 <> py_obs w_D5.   Proof. vm_compute. discriminate. Qed.
Lemma refuted_D6 : ps_obs (only_dev 6) w_D6 <> py_obs w_D6.   Proof. vm_compute. discriminate. Qed.
Lemma refuted_D7 : ps_obs (only_dev 7) w_D7 <> py_obs w_D7.   Proof. vm_compute. discriminate. Qed.
Lemma refuted_D100 : ps_obs (only_dev 100) w_D100 <> py_obs w_D100.   Proof. vm_compute. discriminate. Qed.
Lemma refuted_D101 : ps_obs (only_dev 101) w_D101 <> py_obs w_D101.   Proof. vm_compute. discriminate. Qed.
Lemma refuted_D102 : ps_obs (only_dev 102) w_D102 <> py_obs w_D102.   Proof. vm_compute. discriminate. Qed.
Lemma refuted_D103 : ps_obs (only_dev 103) w_D103 <> py_obs w_D103.   Proof. vm_compute. discriminate. Qed.
Lemma refuted_D104 : ps_obs (only_dev 104) w_D104 <> py_obs w_D104.   Proof. vm_compute. discriminate. Qed.
Lemma refuted_D105 : ps_obs (only_dev 105) w_D105 <> py_obs w_D105.   Proof. vm_compute. discriminate. Qed.

(* with the switch off both finish on every witness within this fuel: each difference above is the switch's *)
Lemma witnesses_agree_when_off :
  forallb (fun p => match ps_obs no_deviations p, py_obs p with
                    | Some a, Some b => true
                    | _, _ => false
                    end)
          [w_D1; w_D2; w_D3; w_D4; w_D5; w_D6; w_D7; w_D100; w_D101; w_D102; w_D103; w_D104; w_D105] = true.
Proof. vm_compute. reflexivity. Qed.
