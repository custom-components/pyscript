(* C18 attribution: the formatter's fold over pyscript's interpreter frames yields CPython's traceback entries.
   [head_ok a cx F T]: read from any formatter state that [tracks] activation a, the frames F add exactly the entries T.
   [sim] lifts it to the evaluator; [attribution_ok] holds for any switches on terms that avoid what they touch.  Then one
   witness per switch, Model |= Spec for the checker, a boolean test for the plain fragment with an instance, and what the generated
   constants say of the formatter's source ([formatter_shape]). *)
From PV Require Import Common.Util Gen.ErrorConsts Interp.Frames Interp.FramesCheck.

Local Open Scope N_scope.

Definition rel_res {X Y} (R : X -> Y -> Prop) (r1 : res X) (r2 : res Y) : Prop :=
  match r1, r2 with
  | RNormal, RNormal => True
  | RReturn, RReturn => True
  | RFuel, RFuel => True
  | RRaise x, RRaise y => R x y
  | _, _ => False
  end.

Lemma rel_wrap {X Y} (R R' : X -> Y -> Prop) f g r1 r2 :
  (forall x y, R x y -> R' (f x) (g y)) -> rel_res R r1 r2 -> rel_res R' (wrap f r1) (wrap g r2).
Proof. intros H; destruct r1, r2; cbn; auto. Qed.

(* the evaluator's sequencing *)
Lemma rel_case {X Y} (R : X -> Y -> Prop) r1 r2 k1 k2 h1 h2 :
  rel_res R r1 r2 -> rel_res R k1 k2 -> (forall x y, R x y -> rel_res R (h1 x) (h2 y)) ->
  rel_res R (match r1 with RNormal => k1 | RRaise x => h1 x | RReturn => RReturn | RFuel => RFuel end)
            (match r2 with RNormal => k2 | RRaise y => h2 y | RReturn => RReturn | RFuel => RFuel end).
Proof. intros H Hk Hh. destruct r1, r2; cbn in H |- *; try contradiction; auto. Qed.

Lemma rel_list {X Y A} (R : X -> Y -> Prop) (ev1 : A -> res X) (ev2 : A -> res Y) l :
  (forall a, In a l -> rel_res R (ev1 a) (ev2 a)) -> rel_res R (g_list ev1 l) (g_list ev2 l).
Proof.
  induction l as [|a l IH]; intros H; cbn; [exact I|].
  apply rel_case; [apply H; left; reflexivity| |intros x y Hxy; exact Hxy].
  apply IH. intros b Hb. apply H. right. exact Hb.
Qed.

Lemma rel_ret {X Y} (R : X -> Y -> Prop) r1 r2 :
  rel_res R r1 r2 -> rel_res R (ret_to_normal r1) (ret_to_normal r2).
Proof. destruct r1, r2; cbn; auto. Qed.

Lemma rel_res_map {X Y} (f : X -> Y) r1 r2 : rel_res (fun x y => f x = y) r1 r2 -> res_map f r1 = r2.
Proof. destruct r1, r2; cbn; try contradiction; congruence. Qed.

(* one step of the mutual fixpoint; [cbn] would leave the other component behind as a bare [fix] *)
Lemma g_expr_S {X} (A : alg X) p fu cx a e :
  g_expr A p (S fu) cx a e =
  match e with
  | ENative n es => RRaise (x_native A cx a n es)
  | EAtom _ => RNormal
  | EFault n => RRaise (x_raise A cx a n)
  | EOp n subs fault =>
      match wrap (x_node A cx a n) (g_list (g_expr A p fu cx a) subs) with
      | RNormal => if fault then RRaise (x_raise A cx a n) else RNormal
      | o => o
      end
  | ECall n args c =>
      match wrap (x_node A cx a n) (g_list (g_expr A p fu cx a) args) with
      | RNormal =>
          match c with
          | CFunc k =>
              match nth_error (p_funcs p) k with
              | None => RRaise (x_raise A cx a n)
              | Some f => ret_to_normal (wrap (x_call A cx a n f) (g_list (g_stmt A p fu cx (func_act f)) (ef_body f)))
              end
          | CMod k =>
              match nth_error (p_mods p) k with
              | None => RRaise (x_raise A cx a n)
              | Some m => ret_to_normal (wrap (x_import A cx a n m) (g_list (g_stmt A p fu (mod_ctx m) (mod_act m)) (em_body m)))
              end
          end
      | o => o
      end
  end.
Proof. reflexivity. Qed.

Lemma g_stmt_S {X} (A : alg X) p fu cx a s :
  g_stmt A p (S fu) cx a s =
  match s with
  | SExpr n es => wrap (x_node A cx a n) (g_list (g_expr A p fu cx a) es)
  | SRaise n cause => RRaise (if cause then x_cause A (x_raise A cx a n) else x_raise A cx a n)
  | SReturn n es =>
      match wrap (x_node A cx a n) (g_list (g_expr A p fu cx a) es) with
      | RNormal => RReturn
      | o => o
      end
  | SBlock n k hdr enter body =>
      match wrap (x_node A cx a n) (g_list (g_expr A p fu cx a) hdr) with
      | RNormal => if enter then wrap (x_node A cx a n) (g_list (g_stmt A p fu cx a) body) else RNormal
      | RRaise x =>
          match k with
          | BkPlain => RRaise x
          | BkWith => match x_with_hdr A x with Some x' => RRaise x' | None => RNormal end
          end
      | o => o
      end
  | STry n body h =>
      match g_list (g_stmt A p fu cx a) body with
      | RRaise x =>
          match h with
          | HNone => RRaise (x_node A cx a n x)
          | HSwallow => RNormal
          | HRaise nr => RRaise (x_chain A cx a n nr x)
          end
      | o => o
      end
  end.
Proof. reflexivity. Qed.

(* the entries that the next [ast_frame] leaves in place *)
Definition base (st : fstate) : list triple := if s_fresh st then s_rstack st else tl (s_rstack st).
Definition in_script (a : act) : Prop := a_file a <> 0.

Lemma run_cons dv st f F : run_frames dv st (f :: F) = run_frames dv (step dv st f) F.
Proof. reflexivity. Qed.
Lemma run_app dv st F1 F2 : run_frames dv st (F1 ++ F2) = run_frames dv (run_frames dv st F1) F2.
Proof. unfold run_frames. apply fold_left_app. Qed.

Lemma is_script_good (a : act) (l : line) : in_script a -> is_script (a_file a, a_name a, l) = true.
Proof. unfold in_script, is_script. intros H. destruct (N.eqb_spec (a_file a) 0); [contradiction|reflexivity]. Qed.

Lemma filter_rev {A} (f : A -> bool) T : filter f (rev T) = rev (filter f T).
Proof.
  induction T as [|t T IH]; [reflexivity|]. cbn [rev filter]. rewrite filter_app, IH. cbn [filter].
  destruct (f t); cbn [rev]; [reflexivity|apply app_nil_r].
Qed.

Lemma run_natives dv st es : d_lambda_name dv = false ->
  s_rstack (run_frames dv st (map (native_frame dv) es)) = rev (map native_entry es) ++ s_rstack st.
Proof.
  intros Lm. revert st. induction es as [|[[[f pyn] psn] l] es IH]; intros st; [reflexivity|].
  cbn [map native_frame native_entry]. rewrite run_cons, IH, Lm. cbn [step s_rstack rev]. rewrite <- app_assoc. reflexivity.
Qed.

Lemma same_fn_self (a : act) l0 l : same_fn (a_file a, a_name a, l0) (a_file a, a_name a, l) = true.
Proof. cbn. rewrite N.eqb_refl. destruct (a_name a); cbn; apply N.eqb_refl. Qed.
Lemma same_fn_line t f n l l' : same_fn t (f, n, l) = same_fn t (f, n, l').
Proof. destruct t as [[g m] k]. reflexivity. Qed.
Lemma same_fn_real nm l (a : act) l' : in_script a -> same_fn (0, nm, l) (a_file a, a_name a, l') = false.
Proof. unfold in_script. intros G. cbn. destruct (a_file a); [congruence|reflexivity]. Qed.

Definition act_eqb (a b : act) : bool := N.eqb (a_file a) (a_file b) && fname_eqb (a_name a) (a_name b).

Lemma same_fn_act a b l : act_eqb a b = false -> same_fn (a_file a, a_name a, l) (a_file b, a_name b, (0 : line)) = false.
Proof. unfold act_eqb. cbn. auto. Qed.

Section Formatter.
  Variable dv : deviations.

  (* the three [let]s of [ast_frame] *)
  Definition push (st : fstate) (new : triple) : list triple :=
    match s_rstack st with
    | [] => [new]
    | last :: rest =>
        if (if d_merge_same_name dv then same_fn last new else negb (s_fresh st)) then new :: rest else new :: last :: rest
    end.
  Definition af_file (cx : ctxinfo) (a : act) (st : fstate) : fileid :=
    match s_func st with
    | Some _ => file_or_ctx st cx
    | None => if d_chain_ctx dv then file_or_ctx st cx else a_file a
    end.
  Definition af_name (cx : ctxinfo) (a : act) (st : fstate) : fname :=
    match s_func st with
    | Some nm => nm
    | None => if d_chain_ctx dv then cx_name cx else a_name a
    end.
  Lemma ast_frame_unfold cx a l st :
    ast_frame dv cx a l st = mkSt (s_func st) (Some (file_or_ctx st cx)) l false (push st (af_file cx a st, af_name cx a st, l)).
  Proof. reflexivity. Qed.

  (* the entry [ast_frame] builds for the next node is one of [a]: by the function name held or, with none held and D184 on,
     by the context *)
  Definition names (a : act) (cx : ctxinfo) (st : fstate) : Prop := af_file cx a st = a_file a /\ af_name cx a st = a_name a.
  (* with D182 on, the replace test of [ast_frame] on such an entry comes out as the conformant one, [negb (s_fresh st)] *)
  Definition lands (a : act) (st : fstate) : Prop :=
    d_merge_same_name dv = true ->
    match s_rstack st with last :: _ => same_fn last (a_file a, a_name a, (0 : line)) = negb (s_fresh st) | [] => True end.
  Definition tracks (a : act) (cx : ctxinfo) (st : fstate) : Prop := names a cx st /\ lands a st.

  (* [ast_frame] and an [aeval] frame without a line set the file so *)
  Lemma names_kept cx a st l fr rs : names a cx st -> names a cx (mkSt (s_func st) (Some (file_or_ctx st cx)) l fr rs).
  Proof.
    unfold names, af_file, af_name, file_or_ctx. cbn [s_func s_file]. destruct (s_func st), (d_chain_ctx dv); exact (fun H => H).
  Qed.

  Lemma names_mod m l fr rs : names (mod_act m) (mod_ctx m) (mkSt None (Some (em_file m)) l fr rs).
  Proof. unfold names, af_file, af_name. cbn. destruct (d_chain_ctx dv); auto. Qed.

  Lemma lands_push a st l : lands a st -> push st (a_file a, a_name a, l) = (a_file a, a_name a, l) :: base st.
  Proof.
    unfold lands, push, base. intros Hs. destruct (s_rstack st) as [|last rest]; [destruct (s_fresh st); reflexivity|].
    destruct (d_merge_same_name dv); [|destruct (s_fresh st); reflexivity].
    rewrite (same_fn_line last (a_file a) (a_name a) l 0), (Hs eq_refl). destruct (s_fresh st); reflexivity.
  Qed.

  (* in a tracking state [ast_frame] puts the entry of [a] on the base *)
  Lemma ast_frame_tracked cx a l st : tracks a cx st ->
    ast_frame dv cx a l st = mkSt (s_func st) (Some (file_or_ctx st cx)) l false ((a_file a, a_name a, l) :: base st).
  Proof.
    intros [[Ef En] Hs]. rewrite ast_frame_unfold, Ef, En, (lands_push a st l Hs). reflexivity.
  Qed.

  Definition head_ok (a : act) (cx : ctxinfo) (F : list frame) (T : list triple) : Prop :=
    forall st, tracks a cx st -> filter is_script (s_rstack (run_frames dv st F)) = rev T ++ filter is_script (base st).

  Lemma head_ok_raise cx a l : in_script a -> head_ok a cx [FAeval cx a (Some l); FOther] [(a_file a, a_name a, l)].
  Proof.
    intros G st H. cbn [run_frames fold_left step]. rewrite (ast_frame_tracked cx a l st H). cbn [s_rstack filter rev app].
    rewrite (is_script_good a l G). reflexivity.
  Qed.

  Definition leads (a : act) (cx : ctxinfo) (P : list frame) (E : list triple) (b : act) (cx' : ctxinfo) : Prop :=
    forall st, tracks a cx st ->
      tracks b cx' (run_frames dv st P) /\ filter is_script (base (run_frames dv st P)) = rev E ++ filter is_script (base st).

  Lemma leads_head_ok {a cx P E b cx' F T} : leads a cx P E b cx' -> head_ok b cx' F T -> head_ok a cx (P ++ F) (E ++ T).
  Proof.
    intros L HF st H. destruct (L st H) as [H' B]. rewrite run_app, (HF _ H'), B, rev_app_distr, app_assoc. reflexivity.
  Qed.

  Lemma leads_node cx a l : leads a cx [FAeval cx a (Some l); FOther] [] a cx.
  Proof.
    intros st H. cbn [run_frames fold_left step]. rewrite (ast_frame_tracked cx a l st H). split; [|reflexivity].
    split; [apply names_kept, H|]. intros _. apply same_fn_self.
  Qed.

  Lemma leads_other a cx : leads a cx [FOther] [] a cx.
  Proof. intros st H. split; [exact H|reflexivity]. Qed.

  Lemma leads_call cx (a : act) (l : line) nm (f : efunc) :
    in_script a -> (d_merge_same_name dv = true -> act_eqb a (func_act f) = false) ->
    leads a cx [FAeval cx a (Some l); FOther; FCallFunc nm; FOther; FEvalFuncCall (ef_file f) (FnNamed (ef_name f))]
          [(a_file a, a_name a, l)] (func_act f) cx.
  Proof.
    intros G NE st H.
    replace (run_frames dv st _)
      with (mkSt (Some (FnNamed (ef_name f))) (Some (ef_file f)) l true ((a_file a, a_name a, l) :: base st))
      by (cbn [run_frames fold_left step]; rewrite (ast_frame_tracked cx a l st H); cbn [s_func]; destruct (s_func st); reflexivity).
    split.
    - split; [split; reflexivity|]. intros M. apply same_fn_act, NE, M.
    - cbn [base s_fresh s_rstack filter rev app]. rewrite (is_script_good a l G). reflexivity.
  Qed.

  Lemma leads_import cx (a : act) (l : line) (m : emod) :
    in_script a -> in_script (mod_act m) -> d_import_sticky dv = false ->
    leads a cx [FAeval cx a (Some l); FOther; FReal 0 nm_module_import 0; FReal 0 nm_load_file 0; FAstEval;
                FAeval (mod_ctx m) (mod_act m) None; FOther]
          [(a_file a, a_name a, l)] (mod_act m) (mod_ctx m).
  Proof.
    intros G Gm St st H.
    replace (run_frames dv st _)
      with (mkSt None (Some (em_file m)) l true
                 ((0, FnNamed nm_load_file, 0) :: (0, FnNamed nm_module_import, 0) :: (a_file a, a_name a, l) :: base st))
      by (cbn [run_frames fold_left step]; rewrite (ast_frame_tracked cx a l st H), St; reflexivity).
    split.
    - split; [apply names_mod|]. intros _. apply (same_fn_real _ _ (mod_act m) _ Gm).
    - cbn [base s_fresh s_rstack filter rev app]. rewrite (is_script_good a l G). reflexivity.
  Qed.

  Lemma head_ok_native cx (a : act) (l : line) es :
    in_script a -> d_lambda_name dv = false ->
    head_ok a cx (FAeval cx a (Some l) :: FOther :: FCallFunc None :: map (native_frame dv) es)
              ((a_file a, a_name a, l) :: filter is_script (map native_entry es)).
  Proof.
    intros G Lm st H. rewrite !run_cons, (run_natives _ _ _ Lm).
    replace (s_rstack _) with ((a_file a, a_name a, l) :: base st)
      by (cbn [step]; rewrite (ast_frame_tracked cx a l st H); cbn [s_func]; destruct (s_func st); reflexivity).
    rewrite filter_app, filter_rev. cbn [filter rev]. rewrite (is_script_good a l G), <- app_assoc. reflexivity.
  Qed.

  Definition starts (P : list frame) (b : act) (cx' : ctxinfo) : Prop :=
    tracks b cx' (run_frames dv init_st P) /\ filter is_script (base (run_frames dv init_st P)) = [].

  Lemma starts_head_ok {P b cx' F T} : starts P b cx' -> head_ok b cx' F T -> script_frames (format_stack dv (P ++ F)) = T.
  Proof.
    intros [H B] HF. unfold script_frames, format_stack. rewrite filter_rev, run_app, (HF _ H), B, app_nil_r. apply rev_involutive.
  Qed.

  Lemma starts_nil a cx : d_chain_ctx dv = false -> starts [] a cx.
  Proof. intros C. split; [|reflexivity]. split; [|intros _; exact I]. unfold names, af_file, af_name. cbn. rewrite C. auto. Qed.

  Lemma starts_mod (m : emod) : in_script (mod_act m) ->
    starts [FReal 0 nm_load_file 0; FAstEval; FAeval (mod_ctx m) (mod_act m) None; FOther] (mod_act m) (mod_ctx m).
  Proof.
    intros G. unfold starts.
    replace (run_frames dv init_st _) with (mkSt None (Some (em_file m)) 1 true [(0, FnNamed nm_load_file, 0)])
      by (cbn [run_frames fold_left step]; destruct (d_import_sticky dv); reflexivity).
    split; [|reflexivity]. split; [apply names_mod|]. intros _. apply (same_fn_real _ _ (mod_act m) _ G).
  Qed.

  Lemma starts_func cx (f : efunc) (direct : bool) nm : in_script (func_act f) ->
    starts (FReal 0 nm_catch_site 0 :: (if direct then [] else [FCallFunc nm]) ++ [FEvalFuncCall (ef_file f) (FnNamed (ef_name f))])
           (func_act f) cx.
  Proof.
    intros G. unfold starts.
    replace (run_frames dv init_st _)
      with (mkSt (Some (FnNamed (ef_name f))) (Some (ef_file f)) 1 true [(0, FnNamed nm_catch_site, 0)]) by (destruct direct; reflexivity).
    split; [|reflexivity]. split; [split; reflexivity|]. intros _. apply (same_fn_real _ _ (func_act f) _ G).
  Qed.

  Inductive exc_rel (a : act) (cx : ctxinfo) : exc_ps -> exc_py -> Prop :=
    exc_rel_intro F T C : head_ok a cx F T -> exc_rel a cx (F :: C) (T :: format_exc dv C).

  Definition line_ok (n : node) : Prop := node_ps_line dv n = node_py_line n.
  Definition name_ok (f : efunc) : Prop := disp_name dv f = FnNamed (ef_name f).

  Lemma exc_rel_raise cx a n : in_script a -> line_ok n -> exc_rel a cx (x_raise (ps_alg dv) cx a n) (x_raise py_alg cx a n).
  Proof. intros G L. cbn. rewrite L. apply (exc_rel_intro a cx _ _ []), head_ok_raise, G. Qed.

  Lemma exc_rel_native cx a n es : in_script a -> line_ok n -> d_lambda_name dv = false ->
    exc_rel a cx (x_native (ps_alg dv) cx a n es) (x_native py_alg cx a n es).
  Proof. intros G L Lm. cbn. rewrite L. apply (exc_rel_intro a cx _ _ []), head_ok_native; assumption. Qed.

  Lemma exc_rel_node cx a n x y : exc_rel a cx x y -> exc_rel a cx (x_node (ps_alg dv) cx a n x) (x_node py_alg cx a n y).
  Proof. intros [F T C H]. exact (exc_rel_intro a cx _ _ C (leads_head_ok (leads_node cx a _) H)). Qed.

  Lemma exc_rel_call cx a n f x y :
    in_script a -> line_ok n -> name_ok f -> (d_merge_same_name dv = true -> act_eqb a (func_act f) = false) ->
    exc_rel (func_act f) cx x y -> exc_rel a cx (x_call (ps_alg dv) cx a n f x) (x_call py_alg cx a n f y).
  Proof. intros G L D NE [F T C H]. cbn. rewrite L, D. exact (exc_rel_intro a cx _ _ C (leads_head_ok (leads_call cx a _ _ f G NE) H)). Qed.

  Lemma exc_rel_import cx a n m x y :
    in_script a -> in_script (mod_act m) -> line_ok n -> d_import_sticky dv = false ->
    exc_rel (mod_act m) (mod_ctx m) x y -> exc_rel a cx (x_import (ps_alg dv) cx a n m x) (x_import py_alg cx a n m y).
  Proof. intros G Gm L St [F T C H]. cbn. rewrite L. exact (exc_rel_intro a cx _ _ C (leads_head_ok (leads_import cx a _ m G Gm St) H)). Qed.

  (* the caught exception joins the cause chain; its frames are then read from the initial state *)
  Lemma exc_rel_chain cx a nt nr x y :
    in_script a -> line_ok nr -> d_chain_ctx dv = false ->
    exc_rel a cx x y -> exc_rel a cx (x_chain (ps_alg dv) cx a nt nr x) (x_chain py_alg cx a nt nr y).
  Proof.
    intros G L Ch [F T C H]. cbn [x_chain ps_alg py_alg on_head]. rewrite L.
    rewrite <- (starts_head_ok (T:=T) (starts_nil a cx Ch) (leads_head_ok (leads_other a cx) H)).
    exact (exc_rel_intro a cx _ _ (_ :: C) (leads_head_ok (leads_node cx a _) (head_ok_raise cx a _ G))).
  Qed.

  Lemma exc_rel_cause a cx x y : exc_rel a cx x y -> exc_rel a cx (x_cause (ps_alg dv) x) (x_cause py_alg y).
  Proof.
    intros [F T C H]. cbn [x_cause ps_alg py_alg app]. change (@nil triple :: nil) with (format_exc dv [[]]).
    unfold format_exc. rewrite <- map_app. apply exc_rel_intro, H.
  Qed.

  Lemma exc_rel_enter_mod m x y : in_script (mod_act m) ->
    exc_rel (mod_act m) (mod_ctx m) x y -> format_exc dv (x_enter_mod (ps_alg dv) m x) = x_enter_mod py_alg m y.
  Proof. intros G [F T C H]. cbn [x_enter_mod ps_alg py_alg on_head format_exc map]. f_equal. exact (starts_head_ok (starts_mod m G) H). Qed.

  Lemma exc_rel_enter_func cx f direct x y : in_script (func_act f) -> name_ok f ->
    exc_rel (func_act f) cx x y -> format_exc dv (x_enter_func (ps_alg dv) cx f direct x) = x_enter_func py_alg cx f direct y.
  Proof.
    intros G D [F T C H]. cbn [x_enter_func ps_alg py_alg on_head format_exc map]. f_equal.
    rewrite D. assert (S := starts_func cx f direct (Some (FnNamed (ef_name f))) G). destruct direct; exact (starts_head_ok S H).
  Qed.

  Section Sim.
    Variable p : prog.
    (* a class of terms per activation, closed under sub-terms, avoiding what the switches touch; the bodies of the program's
       functions and modules lie in it ([funcs_ok], [mods_ok]) *)
    Variable exprs : act -> expr -> Prop.
    Variable stmts : act -> stmt -> Prop.

    Definition body_ok (a : act) (body : list stmt) : Prop := in_script a /\ forall s, In s body -> stmts a s.

    Definition ok_expr (a : act) (e : expr) : Prop :=
      match e with
      | ENative n _ => line_ok n /\ d_lambda_name dv = false
      | EAtom _ => True
      | EFault n => line_ok n
      | EOp n subs fault => (forall e', In e' subs -> exprs a e') /\ (fault = true -> line_ok n)
      | ECall n args c =>
          (forall e', In e' args -> exprs a e') /\ line_ok n /\
          match c with
          | CFunc k => forall f, nth_error (p_funcs p) k = Some f -> d_merge_same_name dv = true -> act_eqb a (func_act f) = false
          | CMod k => forall m, nth_error (p_mods p) k = Some m -> d_import_sticky dv = false
          end
      end.
    Definition ok_stmt (a : act) (s : stmt) : Prop :=
      match s with
      | SExpr _ es => forall e, In e es -> exprs a e
      | SRaise n _ => line_ok n
      | SReturn _ es => forall e, In e es -> exprs a e
      | SBlock _ k hdr _ body =>
          (forall e, In e hdr -> exprs a e) /\ (forall s', In s' body -> stmts a s') /\ (k = BkWith -> d_with_swallow dv = false)
      | STry _ body h =>
          (forall s', In s' body -> stmts a s') /\
          match h with HRaise nr => line_ok nr /\ d_chain_ctx dv = false | _ => True end
      end.

    Hypothesis exprs_ok : forall a e, exprs a e -> ok_expr a e.
    Hypothesis stmts_ok : forall a s, stmts a s -> ok_stmt a s.
    Hypothesis funcs_ok : forall k f, nth_error (p_funcs p) k = Some f -> name_ok f /\ body_ok (func_act f) (ef_body f).
    Hypothesis mods_ok : forall k m, nth_error (p_mods p) k = Some m -> body_ok (mod_act m) (em_body m).

    (* stated for lists of terms, which is how the evaluator meets them *)
    Lemma sim : forall fuel,
      (forall cx a es, in_script a -> (forall e, In e es -> exprs a e) ->
         rel_res (exc_rel a cx) (g_list (g_expr (ps_alg dv) p fuel cx a) es) (g_list (g_expr py_alg p fuel cx a) es)) /\
      (forall cx a ss, body_ok a ss ->
         rel_res (exc_rel a cx) (g_list (g_stmt (ps_alg dv) p fuel cx a) ss) (g_list (g_stmt py_alg p fuel cx a) ss)).
    Proof.
      induction fuel as [|fu [Les Lss]]; [split; intros; apply rel_list; intros; exact I|].
      (* [Les] seen through an enclosing node *)
      assert (Lwn : forall cx a n es, in_script a -> (forall e, In e es -> exprs a e) ->
                rel_res (exc_rel a cx) (wrap (x_node (ps_alg dv) cx a n) (g_list (g_expr (ps_alg dv) p fu cx a) es))
                                 (wrap (x_node py_alg cx a n) (g_list (g_expr py_alg p fu cx a) es))).
      { intros cx a n es G Pl. eapply rel_wrap; [|apply Les; assumption]. intros x y. apply exc_rel_node. }
      split.
      - intros cx a es G Pl. apply rel_list. intros e Pe. apply Pl, exprs_ok in Pe. rewrite !g_expr_S.
        destruct e as [n es'|n|n|n subs fault|n args c]; cbn [ok_expr] in Pe.
        + (* ENative *) destruct Pe as [Ln Lm]. apply exc_rel_native; assumption.
        + (* EAtom *) exact I.
        + (* EFault *) apply exc_rel_raise; assumption.
        + (* EOp *)
          destruct Pe as [Ps Lf]. apply rel_case; [apply Lwn; assumption| |intros x y H; exact H].
          destruct fault; cbn; [apply exc_rel_raise; auto|exact I].
        + (* ECall: the callee's body by [Lss] *)
          destruct Pe as (Pa & Ln & Pc). apply rel_case; [apply Lwn; assumption| |intros x y H; exact H].
          destruct c as [k|k].
          * destruct (nth_error (p_funcs p) k) as [f|] eqn:E; [|apply exc_rel_raise; assumption].
            destruct (funcs_ok k f E) as [D Hb]. assert (NE := Pc f eq_refl).
            apply rel_ret. eapply rel_wrap; [|apply Lss, Hb]. intros x y. apply exc_rel_call; assumption.
          * destruct (nth_error (p_mods p) k) as [m|] eqn:E; [|apply exc_rel_raise; assumption].
            assert (Hb := mods_ok k m E).
            apply rel_ret. eapply rel_wrap; [|apply Lss, Hb]. intros x y. apply exc_rel_import; [exact G|apply Hb|exact Ln|exact (Pc m eq_refl)].
      - intros cx a ss [G Pl]. apply rel_list. intros s Qs. apply Pl, stmts_ok in Qs. rewrite !g_stmt_S.
        destruct s as [n es|n cause|n es|n k hdr enter body|n body h]; cbn [ok_stmt] in Qs.
        + (* SExpr *) apply Lwn; assumption.
        + (* SRaise *) destruct cause; cbn [rel_res]; [apply exc_rel_cause|]; apply exc_rel_raise; assumption.
        + (* SReturn *) apply rel_case; [apply Lwn; assumption|exact I|intros x y H; exact H].
        + (* SBlock *) destruct Qs as (Ph & Pb & Pw). apply rel_case; [apply Lwn; assumption| |].
          * destruct enter; [|exact I]. eapply rel_wrap; [|apply Lss; split; assumption]. intros x y. apply exc_rel_node.
          * (* [ok_stmt] wants D186 off in a with *)
            intros x y H. destruct k; [exact H|]. cbn [x_with_hdr ps_alg py_alg]. rewrite (Pw eq_refl). exact H.
        + (* STry *)
          destruct Qs as (Pb & Ph). apply rel_case; [apply Lss; split; assumption|exact I|]. intros x y H.
          destruct h as [| |nr]; cbn [rel_res].
          * apply exc_rel_node, H.
          * exact I.
          * destruct Ph as [Ln Ch]. apply exc_rel_chain; assumption.
    Qed.

    Lemma attribution_ok : forall fuel en, reported dv p fuel en = reference_triples p fuel en.
    Proof.
      intros fuel en. unfold reported, frames_at_fault, reference_triples, g_run. destruct en as [k|k cxname direct].
      - destruct (nth_error (p_mods p) k) as [m|] eqn:E; [|reflexivity]. assert (Hb := mods_ok k m E).
        apply rel_res_map, rel_ret. eapply rel_wrap; [|apply (sim fuel), Hb]. intros x y. apply exc_rel_enter_mod, Hb.
      - destruct (nth_error (p_funcs p) k) as [f|] eqn:E; [|reflexivity]. destruct (funcs_ok k f E) as [D Hb].
        apply rel_res_map, rel_ret. eapply rel_wrap; [|apply (sim fuel), Hb]. intros x y. apply exc_rel_enter_func; [apply Hb|exact D].
    Qed.
  End Sim.
End Formatter.

(* the theorems below write [=] *)
Definition agrees (r1 r2 : res exc_py) : Prop := r1 = r2.

Lemma line_all_off n : line_ok all_off n.
Proof. unfold line_ok, node_ps_line, node_py_line. destruct (nk n); reflexivity. Qed.

Lemma wf_funcs_good p : wf_prog p = true ->
  (forall k f, nth_error (p_funcs p) k = Some f -> in_script (func_act f)) /\
  (forall k m, nth_error (p_mods p) k = Some m -> in_script (mod_act m)).
Proof.
  unfold wf_prog, in_script. rewrite andb_true_iff, !forallb_forall. intros [Hf Hm]. split.
  - intros k f E. apply N.eqb_neq, negb_true_iff, Hf, (nth_error_In _ _ E).
  - intros k m E. apply N.eqb_neq, negb_true_iff, Hm, (nth_error_In _ _ E).
Qed.

Lemma attribution_all_off : forall p fuel en,
  wf_prog p = true -> reported all_off p fuel en = reference_triples p fuel en.
Proof.
  intros p fuel en W. destruct (wf_funcs_good p W) as [GF GM].
  apply (attribution_ok all_off p (fun _ _ => True) (fun _ _ => True)).
  - intros a e _. destruct e as [n es|n|n|n subs fault|n args c]; cbn [ok_expr].
    + (* ENative *) split; [apply line_all_off|reflexivity].
    + (* EAtom *) exact I.
    + (* EFault *) apply line_all_off.
    + (* EOp *) split; [auto|intros _; apply line_all_off].
    + (* ECall *) split; [auto|]. split; [apply line_all_off|]. destruct c as [k|k]; [discriminate|reflexivity].
  - intros a s _. destruct s as [n es|n cause|n es|n k hdr enter body|n body h]; cbn [ok_stmt].
    + (* SExpr *) auto.
    + (* SRaise *) apply line_all_off.
    + (* SReturn *) auto.
    + (* SBlock *) auto.
    + (* STry *) split; [auto|]. destruct h as [| |nr]; [exact I|exact I|split; [apply line_all_off|reflexivity]].
  - intros k f E. split; [reflexivity|]. split; [exact (GF k f E)|auto].
  - intros k m E. split; [exact (GM k m E)|auto].
Qed.

Definition only_merge : deviations := mkDev true false false false false false false.
Definition only_rename : deviations := mkDev false true false false false false false.
Definition only_chain : deviations := mkDev false false true false false false false.
Definition only_line : deviations := mkDev false false false true false false false.
Definition only_with : deviations := mkDev false false false false true false false.
Definition only_sticky : deviations := mkDev false false false false false true false.
Definition only_lambda : deviations := mkDev false false false false false false true.

Definition pn (l : N) : node := mkNode NkPlain l 0.

(* D182: entry (line 31) -> rec (17) -> rec (17) -> rec raises (16): one 'rec' entry instead of three *)
Definition w182 : prog :=
  let last := mkFunc 1 10 None [SBlock (pn 15) BkPlain [] false []; SRaise (pn 16) false] in
  let mid k := mkFunc 1 10 None [SBlock (pn 15) BkPlain [] true [SReturn (pn 17) [ECall (pn 17) [] (CFunc k)]]] in
  mkProg [mkFunc 1 11 None [SExpr (pn 31) [ECall (pn 31) [] (CFunc 1)]]; mid 2%nat; mid 3%nat; last] [].
Lemma refuted_D182 :
  wf_prog w182 = true /\
  reported only_merge w182 50 (EnFunc 0 99 false) = RRaise [[(1, FnNamed 11, 31); (1, FnNamed 10, 16)]] /\
  reference_triples w182 50 (EnFunc 0 99 false)
    = RRaise [[(1, FnNamed 11, 31); (1, FnNamed 10, 17); (1, FnNamed 10, 17); (1, FnNamed 10, 16)]].
Proof. repeat split; reflexivity. Qed.

(* D183: entry -> wrapper 'w' (renamed to 'g' by ast_functiondef) -> g raises *)
Definition w183 : prog :=
  mkProg [mkFunc 1 11 None [SExpr (pn 20) [ECall (pn 20) [] (CFunc 1)]];
          mkFunc 1 12 (Some 13) [SReturn (pn 6) [ECall (pn 6) [] (CFunc 2)]];
          mkFunc 1 13 None [SRaise (pn 9) false]] [].
Lemma refuted_D183 :
  wf_prog w183 = true /\
  reported only_rename w183 50 (EnFunc 0 99 true) = RRaise [[(1, FnNamed 11, 20); (1, FnNamed 13, 6); (1, FnNamed 13, 9)]] /\
  reference_triples w183 50 (EnFunc 0 99 true) = RRaise [[(1, FnNamed 11, 20); (1, FnNamed 12, 6); (1, FnNamed 13, 9)]].
Proof. repeat split; reflexivity. Qed.

(* D184: mid() catches low()'s exception and raises from it: the cause's first entry names the interpreter *)
Definition w184 : prog :=
  mkProg [mkFunc 1 20 None [SRaise (pn 3) false];
          mkFunc 1 21 None [STry (pn 5) [SExpr (pn 6) [ECall (pn 6) [] (CFunc 0)]] (HRaise (pn 8))];
          mkFunc 1 22 None [SExpr (pn 10) [ECall (pn 10) [] (CFunc 1)]]] [].
Lemma refuted_D184 :
  wf_prog w184 = true /\
  reported only_chain w184 50 (EnFunc 2 99 false)
    = RRaise [[(1, FnNamed 22, 10); (1, FnNamed 21, 8)]; [(1, FnNamed 99, 6); (1, FnNamed 20, 3)]] /\
  reference_triples w184 50 (EnFunc 2 99 false)
    = RRaise [[(1, FnNamed 22, 10); (1, FnNamed 21, 8)]; [(1, FnNamed 21, 6); (1, FnNamed 20, 3)]].
Proof. repeat split; reflexivity. Qed.

(* D185: a method call written over lines 7-8 *)
Definition w185 : prog :=
  mkProg [mkFunc 1 11 None [SReturn (pn 7) [ECall (mkNode NkAttr 7 8) [] (CFunc 1)]]; mkFunc 1 12 None [SRaise (pn 4) false]] [].
Lemma refuted_D185 :
  wf_prog w185 = true /\
  reported only_line w185 50 (EnFunc 0 99 false) = RRaise [[(1, FnNamed 11, 7); (1, FnNamed 12, 4)]] /\
  reference_triples w185 50 (EnFunc 0 99 false) = RRaise [[(1, FnNamed 11, 8); (1, FnNamed 12, 4)]].
Proof. repeat split; reflexivity. Qed.

(* D186: the context expression of a with statement raises: nothing is reported *)
Definition w186 : prog := mkProg [mkFunc 1 11 None [SBlock (pn 5) BkWith [EFault (pn 5)] true []; SReturn (pn 7) []]] [].
Lemma refuted_D186 :
  wf_prog w186 = true /\
  reported only_with w186 50 (EnFunc 0 99 false) = RNormal /\
  reference_triples w186 50 (EnFunc 0 99 false) = RRaise [[(1, FnNamed 11, 5)]].
Proof. repeat split; reflexivity. Qed.

(* D187: f() imports a module whose body raises at its line 3 *)
Definition w187 : prog :=
  mkProg [mkFunc 1 11 None [SExpr (pn 9) [ECall (pn 9) [] (CMod 0)]]] [mkMod 3 [SRaise (pn 3) false]].
Lemma refuted_D187 :
  wf_prog w187 = true /\
  reported only_sticky w187 50 (EnFunc 0 99 false) = RRaise [[(1, FnNamed 11, 9); (1, FnNamed 11, 3)]] /\
  reference_triples w187 50 (EnFunc 0 99 false) = RRaise [[(1, FnNamed 11, 9); (3, FnModule 3, 3)]].
Proof. repeat split; reflexivity. Qed.

(* D190: f() calls a file-level lambda (line 2) that raises: <lambda> (name 30) in CPython, __lambda_defn_temp__ (31) here *)
Definition w190 : prog := mkProg [mkFunc 1 11 None [SReturn (pn 5) [ENative (pn 5) [(1, 30, 31, 2)]]]] [].
Lemma refuted_D190 :
  wf_prog w190 = true /\
  reported only_lambda w190 50 (EnFunc 0 99 false) = RRaise [[(1, FnNamed 11, 5); (1, FnNamed 31, 2)]] /\
  reference_triples w190 50 (EnFunc 0 99 false) = RRaise [[(1, FnNamed 11, 5); (1, FnNamed 30, 2)]].
Proof. repeat split; reflexivity. Qed.

(* the main theorem's hypothesis on three witnesses, its conclusion on one *)
Example wf_instances : wf_prog w182 = true /\ wf_prog w184 = true /\ wf_prog w187 = true.
Proof. exact (conj (proj1 refuted_D182) (conj (proj1 refuted_D184) (proj1 refuted_D187))). Qed.
Example attribution_instance :
  reported all_off w184 50 (EnFunc 2 99 false)
    = RRaise [[(1, FnNamed 22, 10); (1, FnNamed 21, 8)]; [(1, FnNamed 21, 6); (1, FnNamed 20, 3)]].
Proof. reflexivity. Qed.

Lemma fname_eqb_eq a b : fname_eqb a b = true <-> a = b.
Proof.
  destruct a as [f|n], b as [g|m]; cbn; try (split; [discriminate|congruence]).
  - rewrite N.eqb_eq. split; congruence.
  - rewrite N.eqb_eq. split; congruence.
Qed.

Lemma triple_eqb_eq t u : triple_eqb t u = true <-> t = u.
Proof.
  destruct t as [[f n] l], u as [[g m] k]. cbn. rewrite !andb_true_iff, !N.eqb_eq, fname_eqb_eq.
  split; [intros [[-> ->] ->]; reflexivity|intros E; inversion E; auto].
Qed.

Lemma exc_eqb_eq a b : exc_eqb a b = true <-> a = b.
Proof. apply list_eqb_eq. intros x y. apply list_eqb_eq. apply triple_eqb_eq. Qed.

Lemma option_exc_eqb_eq a b : option_eqb exc_eqb a b = true <-> a = b.
Proof. apply option_eqb_eq, exc_eqb_eq. Qed.

Lemma obs_eqb_eq m o : obs_eqb m o = true -> m = Some o.
Proof. destruct m as [m'|]; cbn; [|discriminate]. rewrite option_exc_eqb_eq. congruence. Qed.

(* [stopiter_on]: the StopIteration conversion D189 *)
Lemma model_ok_spec_ok cf c :
  stopiter_on cf c = false -> reported (a_dv cf) (ac_prog c) fuel_big (ac_entry c) = reference c ->
  acase_model_ok cf c = true -> acase_spec_ok c = true.
Proof.
  intros S A H. unfold acase_model_ok, predicted_msg_ok, predicted in H. rewrite S, A in H. cbn [negb] in H.
  apply andb_true_iff in H as [H Hm]. apply andb_true_iff in H as [Hp Hr].
  apply obs_eqb_eq in Hp. apply obs_eqb_eq in Hr. assert (E : ac_ps c = ac_py c) by congruence.
  (* so both raise or neither does, which is when the Model predicts that type and message agree *)
  rewrite Hp, <- E in Hm.
  unfold acase_spec_ok. apply andb_true_iff. split; [|apply option_exc_eqb_eq, E].
  destruct (ac_ps c), (ac_msg_ok c); cbn in Hm; congruence.
Qed.

Lemma acase_model_implies_spec : forall c,
  wf_prog (ac_prog c) = true -> acase_model_ok acfg_off c = true -> acase_spec_ok c = true.
Proof. intros c W. apply model_ok_spec_ok; [reflexivity|apply attribution_all_off, W]. Qed.

(* the plain fragment: every setting of the switches attributes as CPython does *)
Definition plain_node (n : node) : bool := match nk n with NkPlain => true | _ => false end.

Section Plain.
  Variable p : prog.

  Definition callee_plain (caller : act) (c : callee) : bool :=
    match c with
    | CFunc k =>
        match nth_error (p_funcs p) k with
        | Some f => match ef_rename f with None => negb (act_eqb caller (func_act f)) | Some _ => false end
        | None => true
        end
    | CMod _ => false
    end.

  Fixpoint plain_expr (caller : act) (e : expr) : bool :=
    match e with
    | ENative _ _ => false
    | EAtom n => plain_node n
    | EFault n => plain_node n
    | EOp n subs _ => plain_node n && forallb (plain_expr caller) subs
    | ECall n args c => plain_node n && forallb (plain_expr caller) args && callee_plain caller c
    end.

  Fixpoint plain_stmt (caller : act) (s : stmt) : bool :=
    match s with
    | SExpr n es => plain_node n && forallb (plain_expr caller) es
    | SRaise n _ => plain_node n
    | SReturn n es => plain_node n && forallb (plain_expr caller) es
    | SBlock n k hdr _ body =>
        plain_node n && match k with BkPlain => true | BkWith => false end
        && forallb (plain_expr caller) hdr && forallb (plain_stmt caller) body
    | STry n body h =>
        plain_node n && forallb (plain_stmt caller) body && match h with HRaise _ => false | _ => true end
    end.

  Definition plain_prog : Prop :=
    (forall k f, nth_error (p_funcs p) k = Some f ->
       ef_file f <> 0 /\ ef_rename f = None /\ forallb (plain_stmt (func_act f)) (ef_body f) = true) /\
    (forall k m, nth_error (p_mods p) k = Some m ->
       em_file m <> 0 /\ forallb (plain_stmt (mod_act m)) (em_body m) = true).
End Plain.

Section TodayProof.
  Variable dv : deviations.

  (* [inv] is a condition on the state itself that gives [tracks] whatever the switches, [head_ok'] is [head_ok] over it;
     [attribution_today_plain] does not go through them *)
  Definition key (a : act) : triple := (a_file a, a_name a, (0 : line)).

  Definition inv (a : act) (cx : ctxinfo) (st : fstate) : Prop :=
    (match s_func st with
     | Some nm => nm = a_name a /\ s_file st = Some (a_file a)
     | None => cx_file cx = a_file a /\ cx_name cx = a_name a /\ (s_file st = None \/ s_file st = Some (a_file a))
     end) /\
    (if s_fresh st
     then match s_rstack st with last :: _ => same_fn last (key a) = false | [] => True end
     else exists l0 rest, s_rstack st = (a_file a, a_name a, l0) :: rest).

  Definition head_ok' (a : act) (cx : ctxinfo) (F : list frame) (T : list triple) : Prop :=
    forall st, inv a cx st -> filter is_script (s_rstack (run_frames dv st F)) = rev T ++ filter is_script (base st).

  Lemma head_ok'_other a cx F T : head_ok' a cx F T -> head_ok' a cx (FOther :: F) T.
  Proof. intros HF st H. rewrite run_cons. cbn [step]. apply HF, H. Qed.

  Lemma line_plain n : plain_node n = true -> line_ok dv n.
  Proof. unfold plain_node, line_ok, node_ps_line, node_py_line. destruct (nk n); [reflexivity|discriminate|discriminate]. Qed.

  Lemma name_plain f : ef_rename f = None -> name_ok dv f.
  Proof. intros Rn. unfold name_ok, disp_name. rewrite Rn. destruct (d_deco_rename dv); reflexivity. Qed.

  Variable p : prog.
  Hypothesis PP : plain_prog p.

  Lemma attribution_today_plain : forall fuel en, reported dv p fuel en = reference_triples p fuel en.
  Proof.
    destruct PP as [PF PM]. intros fuel en.
    apply (attribution_ok dv p (fun a e => plain_expr p a e = true) (fun a s => plain_stmt p a s = true)).
    - intros a e H. destruct e as [n es|n|n|n subs fault|n args c]; cbn [plain_expr] in H; cbn [ok_expr].
      + (* ENative: not plain *) discriminate.
      + (* EAtom *) exact I.
      + (* EFault *) apply line_plain, H.
      + (* EOp *) apply andb_true_iff in H as [Hn Hs]. split; [apply forallb_forall, Hs|intros _; apply line_plain, Hn].
      + (* ECall *)
        rewrite !andb_true_iff in H. destruct H as ((Hn & Ha) & Hc).
        split; [apply forallb_forall, Ha|]. split; [apply line_plain, Hn|].
        destruct c as [k|k]; cbn [callee_plain] in Hc; [|discriminate].
        intros f E _. rewrite E in Hc. destruct (PF _ _ E) as (_ & Rn & _). rewrite Rn in Hc. apply negb_true_iff, Hc.
    - intros a s H. destruct s as [n es|n cause|n es|n k hdr enter body|n body h]; cbn [plain_stmt] in H; cbn [ok_stmt].
      + (* SExpr *) apply andb_true_iff in H as [_ He]. apply forallb_forall, He.
      + (* SRaise *) apply line_plain, H.
      + (* SReturn *) apply andb_true_iff in H as [_ He]. apply forallb_forall, He.
      + (* SBlock: no plain block is a with *)
        rewrite !andb_true_iff in H. destruct H as (((_ & Hk) & Hh) & Hb).
        split; [apply forallb_forall, Hh|]. split; [apply forallb_forall, Hb|]. intros ->. discriminate.
      + (* STry: no plain handler raises *)
        rewrite !andb_true_iff in H. destruct H as ((_ & Hb) & Hh).
        split; [apply forallb_forall, Hb|]. destruct h; [exact I|exact I|discriminate].
    - intros k f E. destruct (PF _ _ E) as (G & Rn & Pb). split; [apply name_plain, Rn|]. split; [exact G|apply forallb_forall, Pb].
    - intros k m E. destruct (PM _ _ E) as (G & Pb). split; [exact G|apply forallb_forall, Pb].
  Qed.
End TodayProof.

Definition plain_progb (p : prog) : bool :=
  forallb (fun f => negb (N.eqb (ef_file f) 0) && match ef_rename f with None => true | Some _ => false end
                    && forallb (plain_stmt p (func_act f)) (ef_body f)) (p_funcs p)
  && forallb (fun m => negb (N.eqb (em_file m) 0) && forallb (plain_stmt p (mod_act m)) (em_body m)) (p_mods p).

Lemma plain_progb_ok p : plain_progb p = true -> plain_prog p.
Proof.
  unfold plain_progb. rewrite andb_true_iff, !forallb_forall. intros [Hf Hm]. split.
  - intros k f E. apply nth_error_In, Hf in E. rewrite !andb_true_iff in E. destruct E as ((Hz & Hr) & Hb).
    split; [apply N.eqb_neq, negb_true_iff, Hz|]. split; [destruct (ef_rename f); [discriminate|reflexivity]|exact Hb].
  - intros k m E. apply nth_error_In, Hm in E. apply andb_true_iff in E as [Hz Hb].
    split; [apply N.eqb_neq, negb_true_iff, Hz|exact Hb].
Qed.

(* module -> f (call in a comprehension in a for loop in try/finally) -> method g of another file -> fault *)
Definition w_plain : prog :=
  mkProg [mkFunc 1 11 None [SExpr (pn 4) []; STry (pn 5) [SBlock (pn 6) BkPlain [EAtom (pn 6)] true
                              [SReturn (pn 7) [EOp (pn 7) [EOp (pn 7) [ECall (pn 8) [EAtom (pn 8)] (CFunc 1)] false] false]]] HNone];
          mkFunc 2 12 None [SExpr (pn 3) [EOp (pn 3) [EAtom (pn 3); EFault (pn 4)] false]]]
         [mkMod 1 [SExpr (pn 20) [ECall (pn 20) [] (CFunc 0)]]].
Example plain_instance : plain_prog w_plain.
Proof. apply plain_progb_ok. reflexivity. Qed.
Example plain_instance_report :
  reported as_is w_plain 50 (EnModule 0) = RRaise [[(1, FnModule 1, 20); (1, FnNamed 11, 8); (2, FnNamed 12, 4)]].
Proof. reflexivity. Qed.

(* EvalExceptionFormatter (Gen/ErrorConsts.v): the replace test ([ast_frame]) compares filename and name, the walk
   ([format_exc]) follows __cause__ and __context__ *)
Lemma formatter_shape : fmt_replace_on_filename = true /\ fmt_replace_on_name = true
  /\ fmt_chains_cause = true /\ fmt_chains_context = true.
Proof. repeat split; reflexivity. Qed.
