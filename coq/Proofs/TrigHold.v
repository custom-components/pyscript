(* C05: each implementation model of the hold logic (all switches off) produces exactly the Spec's runs (times and arguments)
   on every tie-free timed history, for every configuration.  First the driver, for any machines: inputs that a [punctual]
   machine [skips] leave no trace ([run_machine_irrelevant]); one simulation lemma ([drive_sim]) over the obligations
   [simulates], lifted through [with_timeout] ([wt_sim]).  Then the four machines: each is punctual, and its state is viewed as a
   Spec state ([lg_view], [dm_view]).  At the end: instances of the hypotheses and a refuting witness per deviation switch. *)
From PV Require Import Common.Util Gen.HoldConsts Trig.Hold Trig.HoldCheck.
From Coq Require Import ZArith List Bool Lia ZifyBool.
Local Open Scope Z_scope.

(* projections, not destructuring lets: each sub-step can then be rewritten on its own *)
Lemma drive_cons {St} (m : machine St) st t i r :
  drive m st ((t, i) :: r) =
  let s1 := pre_expire m st t in
  let s2 := m_step m (fst s1) t i in
  let s3 := post_expire m (fst s2) t in
  snd s1 ++ snd s2 ++ snd s3 ++ drive m (fst s3) r.
Proof.
  cbn [drive]. destruct (pre_expire m st t) as [st1 o1]. cbn [fst snd].
  destruct (m_step m st1 t i) as [st2 o2]. cbn [fst snd]. destruct (post_expire m st2 t). reflexivity.
Qed.

Lemma run_machine_proj {St} (m : machine St) ini h :
  run_machine m ini h = let s1 := post_expire m (fst ini) 0 in snd ini ++ snd s1 ++ drive m (fst s1) h.
Proof. destruct ini as [st0 o0]. cbn [run_machine fst snd]. destruct (post_expire m st0 0). reflexivity. Qed.

(* the timer fires at the first loop top at or after its expiry, and is not pending once fired *)
Record punctual {St} (m : machine St) : Prop := {
  pu_post : forall st t e, m_due m st = Some e -> m_post m st t = (e <=? t);
  pu_clears : forall st e, m_due m (fst (m_expire m st e)) = None }.
Arguments pu_post {St m}. Arguments pu_clears {St m}.

(* what D14 breaks *)
Definition skips {St} (m : machine St) : Prop := forall st t i, relevant i = false -> m_step m st t i = (st, []).

Lemma sorted_from_all t h : sorted_from t h = true -> Forall (fun x => t < fst x) h.
Proof.
  revert t. induction h as [|[t' i] r IH]; intros t H; constructor; cbn in H; apply andb_true_iff in H as [H1 H2].
  - cbn. lia.
  - eapply Forall_impl; [|exact (IH t' H2)]. cbn. intros x Hx. lia.
Qed.

Section Punctual.
  Context {St : Type} {m : machine St} (Hm : punctual m).

  Lemma pre_due st t e : m_due m (fst (pre_expire m st t)) = Some e -> t <= e.
  Proof.
    unfold pre_expire. destruct (m_due m st) as [e0|] eqn:E.
    - destruct (e0 <? t) eqn:L.
      + rewrite (pu_clears Hm). discriminate.
      + cbn [fst]. rewrite E. intros [= <-]. lia.
    - cbn [fst]. rewrite E. discriminate.
  Qed.

  (* time is in whole microseconds *)
  Lemma post_as_pre st t : post_expire m st t = pre_expire m st (t + 1).
  Proof.
    unfold post_expire, pre_expire. destruct (m_due m st) as [e|] eqn:E; [|reflexivity].
    rewrite (pu_post Hm st t e E). replace (e <? t + 1) with (e <=? t) by lia. reflexivity.
  Qed.

  (* looking at the timer early changes nothing: what is overdue at [t] fires anyway before the next input, or at the end *)
  Lemma drive_flush st t t0 r : sorted_from t0 r = true -> t <= t0 + 1 ->
    snd (pre_expire m st t) ++ drive m (fst (pre_expire m st t)) r = drive m st r.
  Proof.
    intros Hr Ht. unfold pre_expire. destruct (m_due m st) as [e|] eqn:Hd; [|reflexivity].
    destruct (e <? t) eqn:L; [|reflexivity]. destruct r as [|[t' i] r'].
    - cbn [drive]. rewrite Hd, (pu_clears Hm). apply app_nil_r.
    - cbn in Hr. rewrite !drive_cons. unfold pre_expire. rewrite Hd, (pu_clears Hm).
      destruct (e <? t') eqn:L'; [reflexivity|lia].
  Qed.

  Context (Hskip : skips m).

  Lemma drive_skip st t i r :
    relevant i = false -> sorted_from t r = true -> drive m st ((t, i) :: r) = drive m st r.
  Proof.
    intros Hi Hr. rewrite drive_cons. cbv zeta. rewrite (Hskip _ t i Hi), post_as_pre. cbn [fst snd app].
    rewrite (drive_flush _ (t + 1) t r Hr), (drive_flush st t t r Hr) by lia. reflexivity.
  Qed.

  Lemma drive_filter : forall h t0 st, sorted_from t0 h = true ->
    drive m st (filter (fun x => relevant (snd x)) h) = drive m st h.
  Proof.
    induction h as [|[t i] r IH]; intros t0 st Hs; [reflexivity|].
    cbn in Hs. apply andb_true_iff in Hs as [_ Hs].
    cbn [filter snd]. destruct (relevant i) eqn:Ri.
    - rewrite !drive_cons. cbv zeta. rewrite (IH t _ Hs). reflexivity.
    - rewrite (drive_skip st t i r Ri Hs). apply (IH t st Hs).
  Qed.

  Theorem run_machine_irrelevant ini h : sorted_times h = true ->
    run_machine m ini (filter (fun x => relevant (snd x)) h) = run_machine m ini h.
  Proof. intros Hs. rewrite !run_machine_proj. cbv zeta. rewrite (drive_filter h 0 _ Hs). reflexivity. Qed.
End Punctual.

Definition sim_res {A B} (R : A -> B -> Prop) (x : A * list run) (y : B * list run) : Prop :=
  snd x = snd y /\ R (fst x) (fst y).

Lemma sim_res_nil {A B} (R : A -> B -> Prop) a b : R a b -> sim_res R (a, []) (b, []).
Proof. intros H. split; [reflexivity|exact H]. Qed.

(* [p]: the instants seen so far (0 and those of the inputs taken); [adm p] speaks of the history alone.  A step is taken at a
   loop top, where no timer is overdue. *)
Record simulates {A B} (ma : machine A) (mb : machine B) (R : list Z -> A -> B -> Prop) (adm : list Z -> Z -> hin -> Prop) : Prop := {
  sim_due : forall p a b, R p a b -> m_due ma a = m_due mb b;
  sim_expire : forall p a b e, R p a b -> m_due mb b = Some e -> sim_res (R p) (m_expire ma a e) (m_expire mb b e);
  sim_step : forall p a b t i, R p a b -> adm p t i -> (forall e, m_due mb b = Some e -> t <= e) ->
             sim_res (R (t :: p)) (m_step ma a t i) (m_step mb b t i) }.
Arguments sim_due {A B ma mb R adm}.
Arguments sim_expire {A B ma mb R adm}.
Arguments sim_step {A B ma mb R adm}.

Fixpoint admitted (adm : list Z -> Z -> hin -> Prop) (p : list Z) (h : history) : Prop :=
  match h with
  | [] => True
  | (t, i) :: r => adm p t i /\ admitted adm (t :: p) r
  end.

Lemma admitted_all : forall h p, admitted (fun _ _ _ => True) p h.
Proof. induction h as [|[t i] r IH]; intros p; [exact I|]. split; [exact I|apply IH]. Qed.

Section Sim.
  Context {A B : Type} {ma : machine A} {mb : machine B} {R : list Z -> A -> B -> Prop} {adm : list Z -> Z -> hin -> Prop}
          (Hma : punctual ma) (Hmb : punctual mb) (Hsim : simulates ma mb R adm).

  Lemma pre_sim p a b t : R p a b -> sim_res (R p) (pre_expire ma a t) (pre_expire mb b t).
  Proof.
    intros HR. unfold pre_expire. rewrite (sim_due Hsim _ _ _ HR).
    destruct (m_due mb b) as [e|] eqn:E; [|apply sim_res_nil; exact HR].
    destruct (e <? t); [apply (sim_expire Hsim); assumption|apply sim_res_nil; exact HR].
  Qed.

  Lemma post_sim p a b t : R p a b -> sim_res (R p) (post_expire ma a t) (post_expire mb b t).
  Proof. rewrite (post_as_pre Hma), (post_as_pre Hmb). apply pre_sim. Qed.

  Lemma drive_sim : forall h p a b, R p a b -> admitted adm p h -> drive ma a h = drive mb b h.
  Proof.
    induction h as [|[t i] r IH]; intros p a b HR Hg.
    - cbn [drive]. rewrite (sim_due Hsim _ _ _ HR). destruct (m_due mb b) as [e|] eqn:E; [|reflexivity].
      apply (sim_expire Hsim p); assumption.
    - destruct Hg as [Hi Hg]. rewrite !drive_cons. cbv zeta.
      destruct (pre_sim p a b t HR) as [-> HR1].
      destruct (sim_step Hsim _ _ _ t i HR1 Hi (pre_due Hmb b t)) as [-> HR2].
      destruct (post_sim _ _ _ t HR2) as [-> HR3].
      rewrite (IH _ _ _ HR3 Hg). reflexivity.
  Qed.

  Lemma run_machine_sim ia ib h : sim_res (R [0]) ia ib -> admitted adm [0] h -> run_machine ma ia h = run_machine mb ib h.
  Proof.
    intros [Ho HR] Hg. rewrite !run_machine_proj. cbv zeta. rewrite Ho.
    destruct (post_sim _ _ _ 0 HR) as [-> HR1]. rewrite (drive_sim h _ _ _ HR1 Hg). reflexivity.
  Qed.
End Sim.

Lemma wt_punctual {St} (m : machine St) T : punctual m -> punctual (with_timeout m T).
Proof.
  intros Hm. split; cbn [m_due m_post m_expire m_step with_timeout].
  - intros s t e. unfold wt_due, wt_post, wt_is_tmo. destruct (snd s); [|discriminate].
    destruct T as [tm|], (m_due m (fst s)) as [e0|] eqn:E; try discriminate.
    + destruct (e0 <? tm); cbn [negb]; intros [= <-]; [apply (pu_post Hm), E|reflexivity].
    + intros [= <-]. reflexivity.
    + intros [= <-]. apply (pu_post Hm), E.
  - intros s e. unfold wt_expire. destruct (wt_is_tmo m T s); [reflexivity|]. destruct (m_expire m (fst s) e). reflexivity.
Qed.

(* the wrapped machines are live or dead together, and related inside while live *)
Inductive RT {A B} (R : A -> B -> Prop) : A * bool -> B * bool -> Prop :=
  | RT_live a b : R a b -> RT R (a, true) (b, true)
  | RT_dead a b : RT R (a, false) (b, false).

Section SimT.
  Context {A B : Type} {ma : machine A} {mb : machine B} {R : list Z -> A -> B -> Prop} {adm : list Z -> Z -> hin -> Prop}
          (Hma : punctual ma) (Hmb : punctual mb) (Hsim : simulates ma mb R adm) (T : option Z).

  Lemma wt_inner_due b e : wt_due mb T (b, true) = Some e -> wt_is_tmo mb T (b, true) = false -> m_due mb b = Some e.
  Proof.
    unfold wt_due, wt_is_tmo; cbn [fst snd]. destruct T as [tm|], (m_due mb b) as [e0|]; try discriminate.
    - destruct (e0 <? tm); [intros [= <-] _; reflexivity|discriminate].
    - intros [= <-] _. reflexivity.
  Qed.

  Lemma wt_due_le b t e : (forall x, wt_due mb T (b, true) = Some x -> t <= x) -> m_due mb b = Some e -> t <= e.
  Proof.
    unfold wt_due; cbn [fst snd]. intros H E. rewrite E in H. destruct T as [tm|]; [|exact (H e eq_refl)].
    specialize (H _ eq_refl). destruct (e <? tm) eqn:L; lia.
  Qed.

  Lemma wt_sim : simulates (with_timeout ma T) (with_timeout mb T) (fun p => RT (R p)) adm.
  Proof.
    split; cbn [m_due m_post m_expire m_step with_timeout].
    - intros p _ _ [a b HR|a b]; [|reflexivity]. unfold wt_due; cbn [fst snd]. rewrite (sim_due Hsim _ _ _ HR). reflexivity.
    - intros p _ _ e [a b HR|a b] Hd; [|discriminate Hd]. unfold wt_expire.
      replace (wt_is_tmo ma T (a, true)) with (wt_is_tmo mb T (b, true))
        by (unfold wt_is_tmo; cbn [fst]; rewrite (sim_due Hsim _ _ _ HR); reflexivity).
      destruct (wt_is_tmo mb T (b, true)) eqn:Ht; [split; [reflexivity|constructor]|]. cbn [fst].
      destruct (sim_expire Hsim _ _ _ e HR (wt_inner_due b e Hd Ht)) as [Ho _].
      destruct (m_expire ma a e), (m_expire mb b e). split; [exact Ho|constructor].
    - intros p _ _ t i [a b HR|a b] Hi Hle; [|apply sim_res_nil; constructor]. unfold wt_step; cbn [fst snd].
      destruct (sim_step Hsim _ _ _ t i HR Hi (fun e => wt_due_le b t e Hle)) as [Ho HR'].
      destruct (m_step ma a t i), (m_step mb b t i). split; [exact Ho|constructor; exact HR'].
  Qed.

  Lemma run_machine_sim_t ia ib h : sim_res (R [0]) ia ib -> admitted adm [0] h ->
    run_machine (with_timeout ma T) (lift_ini ia) h = run_machine (with_timeout mb T) (lift_ini ib) h.
  Proof.
    intros [Ho HR]. apply (run_machine_sim (wt_punctual ma T Hma) (wt_punctual mb T Hmb) wt_sim).
    split; [exact Ho|constructor; exact HR].
  Qed.
End SimT.

(* the constants of Gen/HoldConsts.v are looked into here and nowhere else *)
Lemma far_neq x : far x = true -> x <> 0.
Proof. unfold far, tie_eps, wu_eps_us, dm_eps_us. lia. Qed.

Lemma far_opp x : far (- x) = far x.
Proof. unfold far. rewrite Z.abs_opp. reflexivity. Qed.

Lemma lg_cmp_ok x y : negb (zcmp lg_too_soon_cmp x y) = (y <=? x).
Proof. unfold lg_too_soon_cmp, zcmp. lia. Qed.
Lemma wu_cmp_ok x y : negb (zcmp wu_too_soon_cmp x y) = (y <=? x).
Proof. unfold wu_too_soon_cmp, zcmp. lia. Qed.
Lemma dm_false_cmp_ok x y : zcmp dm_false_cmp x y = (y <=? x).
Proof. reflexivity. Qed.
Lemma dm_true_cmp_ok x y : zcmp dm_true_cmp x y = (y <=? x).
Proof. reflexivity. Qed.
Lemma dm_post_ok s t t0 :
  zcmp dm_eps_cmp (s - (t - t0)) dm_eps_us && zcmp dm_hold_cmp (t - t0) s = (t0 + s <=? t).
Proof. unfold dm_eps_cmp, dm_hold_cmp, dm_eps_us, zcmp. lia. Qed.

(* the pending run was started at an instant seen: an admitted input then comes strictly before the pending expiry *)
Definition pend_in (prev : list Z) (sp : sstate) : Prop :=
  match s_pend sp with Some (t0, _) => In t0 prev | None => True end.

Lemma pend_in_mono prev t sp : pend_in prev sp -> pend_in (t :: prev) sp.
Proof. unfold pend_in. destruct (s_pend sp) as [[t0 a]|]; cbn; auto. Qed.

Lemma sp_trigger_pend c prev sp t a : pend_in (t :: prev) sp -> pend_in (t :: prev) (fst (sp_trigger c sp t a)).
Proof.
  unfold sp_trigger, pend_in. destruct (hold c); [|auto].
  destruct (s_pend sp) as [[t0 a0]|] eqn:E; cbn [fst s_pend]; [rewrite E; auto|]. intros _. cbn. auto.
Qed.

Lemma sp_step_pend c prev sp t i : pend_in prev sp -> pend_in (t :: prev) (fst (sp_step c sp t i)).
Proof.
  intros H. apply (pend_in_mono prev t) in H. destruct i as [[|] a|a|a|]; cbn [sp_step]; auto.
  - destruct (hold_false c) as [hf|]; [|apply sp_trigger_pend; assumption].
    destruct (s_fs sp) as [f|]; [|assumption].
    destruct (hf <=? t - f); [apply sp_trigger_pend|cbn [fst]]; exact H.
  - exact I.
  - apply sp_trigger_pend; assumption.
Qed.

Lemma sp_init_pend wu c truth : pend_in [0] (fst (sp_init wu c truth)).
Proof.
  unfold sp_init. destruct ((if wu then cn_wu c else cn_dec c) && truth); [|exact I].
  apply sp_trigger_pend. exact I.
Qed.

(* of the epsilons of [no_ties] only this is used: [t] is not the very expiry of a hold begun at an instant seen *)
Record dm_adm (c : hcfg) (prev : list Z) (t : Z) (i : hin) : Prop := {
  adm_any : is_any i = true -> hold_false c = None;
  adm_untied : forall p hs, In p prev -> hold c = Some hs -> t <> p + hs }.
Arguments adm_any {c prev t i}. Arguments adm_untied {c prev t i}.

(* [t <= e] holds at a loop top, where every timer that was overdue has fired; the tie is what [dm_adm] excludes *)
Lemma pend_later c prev sp t i : pend_in prev sp -> dm_adm c prev t i -> (forall e, sp_due c sp = Some e -> t <= e) ->
  forall e, sp_due c sp = Some e -> t < e.
Proof.
  intros Hp Ha Hle e He. specialize (Hle e He). enough (t <> e) by lia. revert He. unfold pend_in, sp_due in *.
  destruct (s_pend sp) as [[t0 a]|]; [|discriminate]. destruct (hold c) as [hs|] eqn:Eh; [|discriminate].
  intros [= <-]. exact (adm_untied Ha t0 hs Hp Eh).
Qed.

Lemma any_ok_cons c t i r : any_ok c ((t, i) :: r) = true -> (is_any i = true -> hold_false c = None) /\ any_ok c r = true.
Proof.
  unfold any_ok. destruct (hold_false c); [|auto]. cbn [forallb snd]. intros H. apply andb_true_iff in H as [Hi Hr].
  split; [intros E; rewrite E in Hi; discriminate Hi|exact Hr].
Qed.

Lemma no_ties_admitted c : forall h prev, no_ties_aux (cfg_delays c) prev h = true -> any_ok c h = true ->
  admitted (dm_adm c) prev h.
Proof.
  induction h as [|[t i] r IH]; intros prev Hn Hok; [exact I|]. cbn [no_ties_aux] in Hn.
  apply andb_true_iff in Hn as [Hnow Hn]. apply any_ok_cons in Hok as [Hi Hok].
  split; [split; [exact Hi|]|apply IH; assumption].
  intros p hs Hp Eh. rewrite forallb_forall in Hnow. specialize (Hnow p Hp).
  unfold cfg_delays in Hnow. rewrite Eh in Hnow. cbn [opt_list app forallb] in Hnow.
  apply andb_true_iff in Hnow as [Hf _]. apply far_neq in Hf.
  clear - Hf. (* under ZifyBool [lia] would take up every boolean hypothesis in sight *) lia.
Qed.

Lemma sp_punctual c : punctual (sp_machine c).
Proof.
  split; cbn [m_due m_post m_expire m_step sp_machine].
  - intros st t e E. unfold sp_post. rewrite E. reflexivity.
  - reflexivity.
Qed.

Lemma lg_punctual cmp c : punctual (lg_machine cmp c).
Proof.
  split; cbn [m_due m_post m_expire m_step lg_machine].
  - intros st t e. unfold lg_due, lg_post. destruct (l_wait st), (hold c); try discriminate. intros [= <-]. lia.
  - reflexivity.
Qed.

Lemma dm_punctual dv c : punctual (dm_machine dv c).
Proof.
  split; cbn [m_due m_post m_expire m_step dm_machine].
  - intros st t e. unfold dm_due, dm_post. destruct (d_tea st), (hold c); try discriminate. intros [= <-]. apply dm_post_ok.
  - intros st e. unfold dm_due. reflexivity.
Qed.

Lemma lg_skips cmp c : skips (lg_machine cmp c).
Proof. intros st t [] H; try discriminate H; reflexivity. Qed.

Lemma dm_skips dv c : d_irr_as_false dv = false -> skips (dm_machine dv c).
Proof. intros D14 st t [] H; try discriminate H; cbn; rewrite ?D14; reflexivity. Qed.

(* [view g st] is the Spec state that [st] stands for; [g] supplies what [st] does not keep (without state_hold_false no
   implementation notes the false-since instant, and the Spec, which does, never reads it).  The proofs take [c] apart so that
   [hold c] and [hold_false c] compute inside a view. *)
Definition on_fst {A B C} (f : A -> B) (r : A * C) : B * C := (f (fst r), snd r).

Definition shows {St G} (view : G -> St -> sstate) (st : St) (sp : sstate) : Prop := exists g, sp = view g st.

Lemma shows_res {St G} (view : G -> St -> sstate) g x y : y = on_fst (view g) x -> sim_res (shows view) x y.
Proof. intros ->. split; [reflexivity|exists g; reflexivity]. Qed.

Definition lg_view (c : hcfg) (g : option Z) (st : lstate) : sstate :=
  {| s_pend := if l_wait st then match hold c with Some _ => Some (l_t0 st, l_info st) | None => None end else None;
     s_fs := match hold_false c with Some _ => l_ft st | None => g end |}.

Lemma lg_hold_block_view c g st t ok a :
  on_fst (lg_view c g) (lg_hold_block c st t ok a)
  = if ok then sp_trigger c (lg_view c g st) t a else ({| s_pend := None; s_fs := s_fs (lg_view c g st) |}, []).
Proof. unfold lg_hold_block, sp_trigger, lg_view, on_fst. destruct st as [[|] t0 info ft], (hold c), ok; reflexivity. Qed.

Lemma lg_step_view cmp c g st t i : (forall x y, negb (zcmp cmp x y) = (y <=? x)) ->
  sim_res (shows (lg_view c)) (lg_step cmp c st t i) (sp_step c (lg_view c g st) t i).
Proof.
  intros Hcmp. destruct i as [ok a|a|a|]; cbn [lg_step sp_step]; try (apply (shows_res _ g); reflexivity).
  - destruct c as [cn hs [H|]], st as [w t0 info ft]; cbn [hold_false lg_view s_fs l_ft].
    + unfold lg_hf_block. destruct ft as [f|], ok; cbv iota beta.
      * (* true after false *)
        rewrite Hcmp. destruct (H <=? t - f); apply (shows_res _ g); [rewrite lg_hold_block_view|]; reflexivity.
      * (* false again *) apply (shows_res _ g). rewrite lg_hold_block_view. reflexivity.
      * (* true, not after a false *) apply (shows_res _ g). reflexivity.
      * (* first false *) apply (shows_res _ g). rewrite lg_hold_block_view. reflexivity.
    + destruct ok; [apply (shows_res _ g)|apply (shows_res _ (match g with Some f => Some f | None => Some t end))];
        rewrite lg_hold_block_view; reflexivity.
  - apply (shows_res _ g). rewrite lg_hold_block_view. reflexivity.
Qed.

Lemma lg_sim cmp c adm :
  (forall x y, negb (zcmp cmp x y) = (y <=? x)) -> simulates (lg_machine cmp c) (sp_machine c) (fun _ => shows (lg_view c)) adm.
Proof.
  intros Hcmp. split; cbn [m_due m_post m_expire m_step lg_machine sp_machine].
  - intros _ st sp [g ->]. unfold lg_due, sp_due, lg_view; cbn [s_pend]. destruct (hold c), (l_wait st); reflexivity.
  - intros _ st sp e [g ->]. unfold sp_due, lg_expire, sp_expire, lg_view; cbn [s_pend s_fs].
    destruct (hold c), (l_wait st); try discriminate. intros _. apply (shows_res _ g). reflexivity.
  - intros _ st sp t i [g ->] _ _. apply lg_step_view, Hcmp.
Qed.

Lemma lg_init_sim c truth : sim_res (shows (lg_view c)) (lg_init c truth) (sp_init false c truth).
Proof.
  apply (shows_res _ (if truth then None else Some 0)). unfold lg_init, sp_init.
  destruct c as [x hs [H|]], (cn_dec _), truth; cbn [orb andb is_some hold_false]; rewrite ?lg_hold_block_view; reflexivity.
Qed.

Lemma wul_init_sim c truth : sim_res (shows (lg_view c)) (wul_init no_dev c truth) (sp_init true c truth).
Proof.
  apply (shows_res _ (if truth then None else Some 0)). unfold wul_init, sp_init.
  destruct c as [x hs [H|]], (cn_wu _), truth; cbn [orb andb negb is_some hold_false no_dev d_wul_init_false];
    rewrite ?lg_hold_block_view; reflexivity.
Qed.

(* [d_largs] is scratch; [d_hfe] never changes *)
Definition dm_view (c : hcfg) (g : option Z) (st : dstate) : sstate :=
  {| s_pend := match d_tea st, hold c with Some t0, Some _ => Some (t0, d_hargs st) | _, _ => None end;
     s_fs := match hold_false c with Some _ => d_fea st | None => g end |}.

(* [dm_check] reads state_hold_false from the state ([d_hfe], which D53 clears at the start), the view reads it from [c] *)
Definition R_dm (c : hcfg) (st : dstate) (sp : sstate) : Prop := shows (dm_view c) st sp /\ d_hfe st = hold_false c.

Definition R_dm_in (c : hcfg) (prev : list Z) (st : dstate) (sp : sstate) : Prop := R_dm c st sp /\ pend_in prev sp.

Lemma sim_res_and {A B} (R : A -> B -> Prop) (Q : B -> Prop) x y : sim_res R x y -> Q (fst y) -> sim_res (fun a b => R a b /\ Q b) x y.
Proof. intros [Ho HR] HQ. split; [exact Ho|split; assumption]. Qed.

Lemma dm_res c g x y : y = on_fst (dm_view c g) x -> d_hfe (fst x) = hold_false c -> sim_res (R_dm c) x y.
Proof. intros -> H. split; [reflexivity|split; [exists g; reflexivity|exact H]]. Qed.

Lemma dm_trigger_sim dv c g st t : d_hfe st = hold_false c -> (forall e, sp_due c (dm_view c g st) = Some e -> t < e) ->
  sim_res (R_dm c) (dm_trigger dv c st t) (sp_trigger c (dm_view c g st) t (d_largs st)).
Proof.
  unfold sp_due, dm_trigger, sp_trigger.
  destruct c as [cn [hs|] hf], st as [[t0|] fea la ha hfe]; cbn [hold d_tea d_hfe s_pend dm_view];
    intros He Hlt; try (apply (dm_res _ g); [reflexivity|exact He]).
  rewrite dm_true_cmp_ok. specialize (Hlt _ eq_refl). destruct (hs <=? t - t0) eqn:L; [lia|].
  apply (dm_res _ g); [reflexivity|exact He].
Qed.

Lemma dm_check_sim dv c g st t ok : d_hfe st = hold_false c -> (forall e, sp_due c (dm_view c g st) = Some e -> t < e) ->
  sim_res (R_dm c) (dm_check dv c st t ok) (sp_step c (dm_view c g st) t (HEval ok (d_largs st))).
Proof.
  intros He Hlt. unfold dm_check. rewrite He.
  destruct c as [cn hs [H|]], st as [tea fea la ha hfe], ok; cbn [sp_step hold_false s_fs dm_view d_fea d_largs].
  - destruct fea as [f|]; [|apply (dm_res _ g); [reflexivity|exact He]].
    rewrite dm_false_cmp_ok. destruct (H <=? t - f); [|apply (dm_res _ g); [reflexivity|exact He]].
    exact (dm_trigger_sim dv _ g (d_set_fea _ None) t He Hlt).
  - destruct fea as [f|]; apply (dm_res _ g); try exact He; reflexivity.
  - exact (dm_trigger_sim dv _ g _ t He Hlt).
  - apply (dm_res _ (match g with Some f => Some f | None => Some t end)); [reflexivity|exact He].
Qed.

Lemma sp_step_any c sp t a : hold_false c = None -> sp_step c sp t (HAny a) = sp_step c sp t (HEval true a).
Proof. intros E. cbn [sp_step]. rewrite E. reflexivity. Qed.

Lemma dm_sim c : simulates (dm_machine no_dev c) (sp_machine c) (R_dm_in c) (dm_adm c).
Proof.
  split; cbn [m_due m_post m_expire m_step dm_machine sp_machine].
  - intros p st sp [[[g ->] _] _]. unfold dm_due, sp_due, dm_view; cbn [s_pend]. destruct (d_tea st), (hold c); reflexivity.
  - intros p st sp e [[[g ->] He] _]. unfold sp_due, dm_expire, sp_expire, dm_view, d_hold_args; cbn [s_pend s_fs no_dev d_latest_args].
    destruct c as [cn [hs|] hf], st as [[t0|] fea la ha hfe]; try discriminate. intros _.
    apply sim_res_and; [apply (dm_res _ g); [reflexivity|exact He]|exact I].
  - intros p st sp t i [[[g ->] He] Hp] Ha Hle. apply sim_res_and; [|apply sp_step_pend, Hp].
    pose proof (pend_later c p _ t i Hp Ha Hle) as Hlt.
    destruct i as [ok a|a|a|]; cbn [dm_step no_dev d_irr_as_false]; try (apply (dm_res _ g); [reflexivity|exact He]).
    + exact (dm_check_sim _ c g (d_set_largs st a) t ok He Hlt).
    + (* admitted only without state_hold_false, where it acts as a true evaluation *)
      rewrite (sp_step_any c _ t a (adm_any Ha eq_refl)). exact (dm_check_sim _ c g (d_set_largs st a) t true He Hlt).
Qed.

(* the definition-time trigger bypasses state_hold_false *)
Lemma dm_init_sim wu c truth : sim_res (R_dm_in c [0]) (dm_init no_dev wu c truth) (sp_init wu c truth).
Proof.
  apply sim_res_and; [|apply sp_init_pend]. unfold dm_init, sp_init. cbn [no_dev d_wud_drop_hf d_dm_start_hf negb]. rewrite andb_false_r.
  replace (if wu then true else true) with true by (destruct wu; reflexivity).
  generalize (if wu then cn_wu c else cn_dec c). intros cn.
  destruct cn, truth; cbn [orb andb negb].
  - destruct c as [x hs [H|]]; (refine (dm_trigger_sim _ _ None _ 0 _ _); [reflexivity|discriminate]).
  - unfold dm_check. destruct c as [x hs [H|]]; apply (dm_res _ (Some 0)); reflexivity.
  - destruct c as [x hs [H|]]; apply (dm_res _ None); reflexivity.
  - destruct c as [x hs [H|]]; apply (dm_res _ (Some 0)); reflexivity.
Qed.

(* without [any_ok]: on an "any change" entry under state_hold_false the legacy models do what the Spec does *)
Theorem timeline_legacy : forall dv c init h,
  all_off dv -> no_ties c h = true ->
  legacy_runs dv c init h = spec_runs false c init h /\ wul_runs dv c init h = spec_runs true c init h.
Proof.
  intros dv c init h -> Hnt. unfold legacy_runs, wul_runs, spec_runs, once. split; [|f_equal].
  - apply (run_machine_sim (lg_punctual _ c) (sp_punctual c) (lg_sim _ c (fun _ _ _ => True) lg_cmp_ok)); [apply lg_init_sim|apply admitted_all].
  - apply (run_machine_sim (lg_punctual _ c) (sp_punctual c) (lg_sim _ c (fun _ _ _ => True) wu_cmp_ok)); [apply wul_init_sim|apply admitted_all].
Qed.

Theorem timeline : forall dv c init h,
  all_off dv -> no_ties c h = true -> any_ok c h = true ->
  legacy_runs dv c init h = spec_runs false c init h
  /\ dm_runs dv c init h = spec_runs false c init h
  /\ wul_runs dv c init h = spec_runs true c init h
  /\ wud_runs dv c init h = spec_runs true c init h.
Proof.
  intros dv c init h -> Hnt Hany. destruct (timeline_legacy no_dev c init h eq_refl Hnt) as [Hlg Hwul].
  assert (Hdm : forall wu, run_machine (dm_machine no_dev c) (dm_init no_dev wu c init) h
                           = run_machine (sp_machine c) (sp_init wu c init) h).
  { intros wu. apply (run_machine_sim (dm_punctual _ c) (sp_punctual c) (dm_sim c));
      [apply dm_init_sim|apply no_ties_admitted; assumption]. }
  unfold dm_runs, wud_runs, spec_runs, once in *. rewrite !Hdm. auto.
Qed.

(* the overall timeout needs no condition of its own: [with_timeout] treats every machine alike *)
Theorem timeline_timeout_gen : forall c T init h,
  no_ties c h = true -> any_ok c h = true ->
  wul_runs_t no_dev c T init h = spec_runs_t c T init h /\ wud_runs_t no_dev c T init h = spec_runs_t c T init h.
Proof.
  intros c T init h Hnt Hany. unfold wul_runs_t, wud_runs_t, spec_runs_t. split; f_equal.
  - apply (run_machine_sim_t (lg_punctual _ c) (sp_punctual c) (lg_sim _ c (fun _ _ _ => True) wu_cmp_ok)); [apply wul_init_sim|apply admitted_all].
  - apply (run_machine_sim_t (dm_punctual _ c) (sp_punctual c) (dm_sim c));
      [apply dm_init_sim|apply no_ties_admitted; assumption].
Qed.

Theorem timeline_timeout : forall dv c T init h,
  all_off dv -> no_ties_t c T h = true -> any_ok c h = true ->
  wul_runs_t dv c T init h = spec_runs_t c T init h /\ wud_runs_t dv c T init h = spec_runs_t c T init h.
Proof.
  intros dv c T init h -> Hnt. unfold no_ties_t in Hnt. apply andb_true_iff in Hnt as [Hnt _]. exact (timeline_timeout_gen c T init h Hnt).
Qed.

Theorem irrelevant_no_effect : forall dv c init h, all_off dv -> sorted_times h = true ->
  let h' := filter (fun x => relevant (snd x)) h in
  legacy_runs dv c init h' = legacy_runs dv c init h /\ dm_runs dv c init h' = dm_runs dv c init h
  /\ wul_runs dv c init h' = wul_runs dv c init h /\ wud_runs dv c init h' = wud_runs dv c init h.
Proof.
  intros dv c init h -> Hs h'. unfold legacy_runs, dm_runs, wul_runs, wud_runs, h'.
  rewrite !(run_machine_irrelevant (lg_punctual _ c) (lg_skips _ c)),
          !(run_machine_irrelevant (dm_punctual _ c) (dm_skips no_dev c eq_refl)) by exact Hs. auto.
Qed.

Lemma sp_trigger_times c st t a : Forall (fun r => fst r = t) (snd (sp_trigger c st t a)).
Proof. unfold sp_trigger. destruct (hold c); [destruct (s_pend st)|]; cbn; auto. Qed.

Lemma sp_step_times c st t i : Forall (fun r => fst r = t) (snd (sp_step c st t i)).
Proof.
  destruct i as [[|] a|a|a|]; cbn [sp_step]; try apply sp_trigger_times; try constructor.
  destruct (hold_false c) as [hf|]; [|apply sp_trigger_times]. destruct (s_fs st) as [f|]; [|constructor].
  destruct (hf <=? t - f); [apply sp_trigger_times|constructor].
Qed.

(* without state_hold no timer is ever due, so every run is made at the instant of an input *)
Lemma sp_drive_after c : hold c = None -> forall h t0 st, sorted_from t0 h = true ->
  Forall (fun r => t0 < fst r) (drive (sp_machine c) st h).
Proof.
  intros Hh. assert (Hd : forall st, sp_due c st = None).
  { intros st. unfold sp_due. rewrite Hh. destruct (s_pend st) as [[? ?]|]; reflexivity. }
  induction h as [|[t i] r IH]; intros t0 st Hs.
  - cbn [drive m_due sp_machine]. rewrite Hd. constructor.
  - cbn in Hs. apply andb_true_iff in Hs as [Ht Hs].
    rewrite drive_cons. unfold pre_expire, post_expire. cbn [m_due m_step sp_machine]. rewrite !Hd. cbn [fst snd app].
    apply Forall_app. split; (eapply Forall_impl; [|first [exact (sp_step_times c st t i)|exact (IH t _ Hs)]]);
      cbn; intros x Hx; lia.
Qed.

Lemma once_incl wu (l : list run) : incl (once wu l) l.
Proof.
  destruct wu; [|apply incl_refl]. intros x H. rewrite <- (firstn_skipn 1 l). apply in_or_app. left. exact H.
Qed.

Theorem spec_definition_time : forall wu c init h,
  hold c = None -> sorted_times h = true ->
  ((exists a, In (0, a) (spec_runs wu c init h)) <-> (if wu then cn_wu c else cn_dec c) && init = true).
Proof.
  intros wu c init h Hh Hs. unfold spec_runs, run_machine, post_expire, sp_init, sp_trigger.
  cbn [m_due sp_machine]. rewrite Hh.
  destruct ((if wu then cn_wu c else cn_dec c) && init); unfold sp_due; cbn [s_pend app].
  - split; [reflexivity|]. intros _. exists 0%N. destruct wu; left; reflexivity.
  - split; [|discriminate]. intros [a Hin]. apply once_incl in Hin.
    eapply Forall_forall in Hin; [|exact (sp_drive_after c Hh h 0 _ Hs)]. cbn in Hin. lia.
Qed.

Theorem definition_time : forall dv c init h,
  all_off dv -> hold c = None -> sorted_times h = true -> no_ties c h = true -> any_ok c h = true ->
  ((exists a, In (0, a) (legacy_runs dv c init h)) <-> cn_dec c && init = true)
  /\ ((exists a, In (0, a) (dm_runs dv c init h)) <-> cn_dec c && init = true)
  /\ ((exists a, In (0, a) (wul_runs dv c init h)) <-> cn_wu c && init = true)
  /\ ((exists a, In (0, a) (wud_runs dv c init h)) <-> cn_wu c && init = true).
Proof.
  intros dv c init h Hoff Hh Hs Hn Ha.
  destruct (timeline dv c init h Hoff Hn Ha) as (E1 & E2 & E3 & E4).
  rewrite E1, E2, E3, E4.
  pose proof (spec_definition_time false c init h Hh Hs) as Hdec.
  pose proof (spec_definition_time true c init h Hh Hs) as Hwu.
  exact (conj Hdec (conj Hdec (conj Hwu Hwu))).
Qed.

(* with every switch off the Model's runs are the Spec's, whichever of the four implementations the case names *)
Lemma hcase_runs_spec c : no_ties (hc_cfg c) (hc_hist c) = true -> any_ok (hc_cfg c) (hc_hist c) = true ->
  model_runs no_dev c = spec_of c.
Proof.
  intros Hn Ha. unfold model_runs, spec_of. destruct (hc_wu c).
  - destruct (timeline_timeout_gen (hc_cfg c) (hc_tmo c) (hc_init c) (hc_hist c) Hn Ha) as [Hwul Hwud].
    destruct (hc_legacy c); assumption.
  - destruct (timeline no_dev (hc_cfg c) (hc_init c) (hc_hist c) eq_refl Hn Ha) as (Hlg & Hdm & _).
    destruct (hc_legacy c); assumption.
Qed.

(* a reproduced behaviour of conformant code satisfies the Spec *)
Theorem model_implies_spec : forall c, hcase_model_ok no_dev c = true -> hcase_spec_ok c = true.
Proof.
  intros c H. unfold hcase_spec_ok. destruct (hcase_in_scope c) eqn:Sc; [|reflexivity].
  unfold hcase_in_scope, no_ties_t in Sc. apply andb_true_iff in Sc as [Sc Ha]. apply andb_true_iff in Sc as [_ Hn].
  apply andb_true_iff in Hn as [Hn _]. rewrite <- (hcase_runs_spec c Hn Ha).
  apply andb_true_iff in H as [_ H]. exact H.
Qed.

Definition ex_cfg : hcfg := {| check_now := Some true; hold := Some 2500000; hold_false := Some 1500000 |}.
Definition ex_hist : history :=
  [(1000000, HEval true 1%N); (2000000, HIrr 2%N); (3000000, HEval false 3%N); (4000000, HUnw);
   (5000000, HEval true 4%N); (6000000, HEval true 5%N); (9000000, HEval false 6%N); (10000000, HEval true 7%N)].

Example timeline_hyps_inhabited :
  sorted_times ex_hist = true /\ no_ties ex_cfg ex_hist = true /\ any_ok ex_cfg ex_hist = true
  /\ spec_runs false ex_cfg true ex_hist = [(2500000, 0%N); (7500000, 4%N)]
  /\ legacy_runs no_dev ex_cfg true ex_hist = [(2500000, 0%N); (7500000, 4%N)]
  /\ dm_runs no_dev ex_cfg true ex_hist = [(2500000, 0%N); (7500000, 4%N)].
Proof. vm_compute. repeat split. Qed.

Definition ex_cfg0 : hcfg := {| check_now := Some true; hold := None; hold_false := Some 0 |}.
Example definition_time_hyps_inhabited :
  hold ex_cfg0 = None /\ sorted_times ex_hist = true /\ no_ties ex_cfg0 ex_hist = true /\ any_ok ex_cfg0 ex_hist = true
  /\ spec_runs false ex_cfg0 true ex_hist = [(0, 0%N); (5000000, 4%N); (10000000, 7%N)].
Proof. vm_compute. repeat split. Qed.

Example timeout_hyps_inhabited :
  let c := {| check_now := None; hold := Some 2500000; hold_false := None |} in
  let h := [(1000000, HEval true 1%N); (2000000, HEval true 2%N)] in
  sorted_times h = true /\ no_ties_t c (Some 2250000) h = true /\ any_ok c h = true
  /\ spec_runs_t c (Some 2250000) false h = [(2250000, timeout_id)]      (* timeout before the hold ends *)
  /\ spec_runs_t c (Some 3750000) false h = [(3500000, 1%N)]             (* hold ends first *)
  /\ spec_runs_t c (Some 1250000) true [] = [(1250000, timeout_id)]      (* hold started by the initial check *)
  /\ wul_runs_t no_dev c (Some 2250000) false h = [(2250000, timeout_id)]
  /\ wud_runs_t no_dev c (Some 2250000) false h = [(2250000, timeout_id)].
Proof. vm_compute. repeat split. Qed.

Example model_implies_spec_hyp_inhabited :
  hcase_model_ok no_dev {| hc_legacy := false; hc_wu := false; hc_cfg := ex_cfg; hc_init := true; hc_tmo := None;
                           hc_hist := ex_hist; hc_obs := [(2500000, 0%N); (7500000, 4%N)]; hc_clean := true |} = true.
Proof. vm_compute. reflexivity. Qed.

(* with switch k alone on the statement is false *)
Definition only (k : nat) : deviations :=
  {| d_irr_as_false := Nat.eqb k 14; d_latest_args := Nat.eqb k 50; d_dm_start_hf := Nat.eqb k 51;
     d_wul_init_false := Nat.eqb k 52; d_wud_drop_hf := Nat.eqb k 53 |}.

Definition in_domain (c : hcfg) (h : history) : Prop :=
  sorted_times h = true /\ no_ties c h = true /\ any_ok c h = true.

Lemma refuted_D14 : exists c init h, in_domain c h /\ dm_runs (only 14) c init h <> spec_runs false c init h.
Proof.
  exists {| check_now := None; hold := Some 2500000; hold_false := None |}, false,
    [(1000000, HEval true 1%N); (2000000, HIrr 2%N)].
  split; [vm_compute; auto|vm_compute; discriminate].
Qed.

(* an attribute-only update starts the state_hold_false period although never false *)
Lemma refuted_D14_hold_false : exists c init h, in_domain c h /\ dm_runs (only 14) c init h <> spec_runs false c init h.
Proof.
  exists {| check_now := None; hold := None; hold_false := Some 1500000 |}, true,
    [(1000000, HIrr 1%N); (3000000, HEval true 2%N)].
  split; [vm_compute; auto|vm_compute; discriminate].
Qed.

Lemma refuted_D50 : exists c init h, in_domain c h /\ dm_runs (only 50) c init h <> spec_runs false c init h.
Proof.
  exists {| check_now := None; hold := Some 2500000; hold_false := None |}, false,
    [(1000000, HEval true 1%N); (2000000, HEval true 2%N)].
  split; [vm_compute; auto|vm_compute; discriminate].
Qed.

Lemma refuted_D51 : exists c init h, in_domain c h /\ dm_runs (only 51) c init h <> spec_runs false c init h.
Proof.
  exists {| check_now := Some true; hold := None; hold_false := Some 1500000 |}, true, [].
  split; [vm_compute; auto|vm_compute; discriminate].
Qed.

Lemma refuted_D52 : exists c init h, in_domain c h /\ wul_runs (only 52) c init h <> spec_runs true c init h.
Proof.
  exists {| check_now := None; hold := None; hold_false := Some 1500000 |}, false, [(2000000, HEval true 1%N)].
  split; [vm_compute; auto|vm_compute; discriminate].
Qed.

Lemma refuted_D53 : exists c init h, in_domain c h /\ wud_runs (only 53) c init h <> spec_runs true c init h.
Proof.
  exists {| check_now := None; hold := Some 2500000; hold_false := Some 1500000 |}, true,
    [(1000000, HEval false 1%N); (2000000, HEval true 2%N)].
  split; [vm_compute; auto|vm_compute; discriminate].
Qed.
