(* discover (glob_read_files driven by the regenerated load_paths) is "first candidate in (row, sorted path) order wins"
   ([discover_find]); hence a discovered entry is [mk_entry] of a row and a file the row admits ([discover_cand]), and
   row by row ([load_paths_is]) where the auto-loaded entries come from ([auto_entry]).  [entry_of] is the body of
   glob_entry as a function of the file, in which [cands] is stated; the proofs work with [admits]/[mk_entry]. *)
From PV Require Import Common.Util Life.ReloadBase Gen.ReloadConsts Life.Modules Life.Reload Life.ReloadPlanSpec
  Proofs.LifeReloadBase.

Definition entry_of (lp : load_path) (k : apps_config) (pf : path * file) : option sfile :=
  let '(p, f) := pf in
  if negb (lp_match lp p) then None else
  if hashed p then None else
  let name := match lp_base lp with None => top_root :: strip_init p | Some _ => strip_init p end in
  let mk := fun cfg => {| sf_name := name; sf_path := p; sf_rel := if ends_slash_init p then Some p else None; sf_cfg := cfg;
                          sf_gen := f_gen f; sf_mtime := f_mtime f; sf_imps := f_imps f; sf_auto := lp_auto lp; sf_force := false |} in
  if lp_check lp then
    match cfg_get k (app_of (lp_base lp) name) with
    | None => None
    | Some v => Some (mk (Some v))
    end
  else Some (mk None).

Definition add_first (acc : list sfile) (x : sfile) : list sfile := if sf_has acc (sf_name x) then acc else acc ++ [x].

Lemma glob_entry_entry_of lp k acc pf :
  glob_entry lp k acc pf = match entry_of lp k pf with Some x => add_first acc x | None => acc end.
Proof.
  destruct pf as [p f]. unfold glob_entry, entry_of, add_first.
  destruct (negb (lp_match lp p)); [reflexivity|]. destruct (hashed p); [reflexivity|].
  destruct (lp_check lp).
  - destruct (cfg_get k _); cbn [sf_name]; [reflexivity|]. destruct (sf_has acc _); reflexivity.
  - cbn [sf_name]. reflexivity.
Qed.

Definition row_cands (k : apps_config) (t : tree) (lp : load_path) : list sfile :=
  flat_map (fun pf => match entry_of lp k pf with Some x => [x] | None => [] end) t.
Definition cands (t : tree) (k : apps_config) : list sfile := flat_map (row_cands k t) load_paths.

Lemma fold_glob_row lp k t acc : fold_left (glob_entry lp k) t acc = fold_left add_first (row_cands k t lp) acc.
Proof.
  unfold row_cands. revert acc. induction t as [|pf t IH]; intros acc; cbn [fold_left flat_map]; [reflexivity|].
  rewrite glob_entry_entry_of, IH, fold_left_app. destruct (entry_of lp k pf); reflexivity.
Qed.

Lemma discover_eq t k : discover t k = fold_left add_first (cands t k) [].
Proof.
  unfold discover, cands. generalize (@nil sfile). generalize load_paths.
  induction l as [|lp rows IH]; intros acc; cbn [fold_left flat_map]; [reflexivity|].
  rewrite IH, fold_glob_row, fold_left_app. reflexivity.
Qed.

Lemma sf_find_app a b n : sf_find (a ++ b) n = match sf_find a n with Some s => Some s | None => sf_find b n end.
Proof.
  unfold sf_find. induction a as [|x a IH]; cbn; [reflexivity|]. destruct (nl_eqb (sf_name x) n); [reflexivity|exact IH].
Qed.

Lemma add_first_find l : forall acc n,
  sf_find (fold_left add_first l acc) n = match sf_find acc n with Some s => Some s | None => sf_find l n end.
Proof.
  induction l as [|x l IH]; intros acc n; cbn [fold_left].
  - destruct (sf_find acc n); reflexivity.
  - rewrite IH. unfold add_first. destruct (sf_has acc (sf_name x)) eqn:Eh.
    + destruct (sf_find acc n) eqn:Ea; [reflexivity|].
      unfold sf_find at 2. cbn [find]. destruct (nl_eqb_spec (sf_name x) n) as [<-|_]; [|reflexivity].
      apply sf_find_None in Ea. apply sf_has_In in Eh. tauto.
    + rewrite sf_find_app. destruct (sf_find acc n); [reflexivity|].
      unfold sf_find at 1 3. cbn [find]. destruct (nl_eqb (sf_name x) n); reflexivity.
Qed.

Theorem discover_find t k n : sf_find (discover t k) n = sf_find (cands t k) n.
Proof. rewrite discover_eq. apply add_first_find. Qed.

Corollary discover_uniq t k : uniq_files (discover t k).
Proof.
  rewrite discover_eq. apply (fold_left_inv uniq_files); [|constructor]. intros acc x _ Hu. unfold add_first.
  destruct (sf_has acc (sf_name x)) eqn:E; [exact Hu|]. unfold uniq_files. rewrite map_app.
  apply NoDup_snoc; [exact Hu|]. rewrite <- sf_has_In. congruence.
Qed.

Definition name_of (lp : load_path) (p : path) :=
  match lp_base lp with None => top_root :: strip_init p | Some _ => strip_init p end.
Definition configured (lp : load_path) (k : apps_config) (p : path) : option N :=
  cfg_get k (app_of (lp_base lp) (name_of lp p)).

Definition admits (lp : load_path) (k : apps_config) (p : path) : bool :=
  lp_match lp p && negb (hashed p) && (negb (lp_check lp) || match configured lp k p with Some _ => true | None => false end).
Definition mk_entry (lp : load_path) (k : apps_config) (p : path) (f : file) : sfile :=
  {| sf_name := name_of lp p; sf_path := p; sf_rel := if ends_slash_init p then Some p else None;
     sf_cfg := if lp_check lp then configured lp k p else None;
     sf_gen := f_gen f; sf_mtime := f_mtime f; sf_imps := f_imps f; sf_auto := lp_auto lp; sf_force := false |}.

Lemma entry_of_eq lp k p f : entry_of lp k (p, f) = if admits lp k p then Some (mk_entry lp k p f) else None.
Proof.
  unfold entry_of, admits, mk_entry, configured. cbv zeta. fold (name_of lp p).
  destruct (lp_match lp p); [|reflexivity]. destruct (hashed p); [reflexivity|].
  destruct (lp_check lp); [|reflexivity]. destruct (cfg_get k _); reflexivity.
Qed.

Lemma admits_spec lp k p : admits lp k p = true <->
  lp_match lp p = true /\ hashed p = false /\ (lp_check lp = true -> exists v, configured lp k p = Some v).
Proof.
  unfold admits. split.
  - intros H. apply andb_true_iff in H. destruct H as [H Hc]. apply andb_true_iff in H. destruct H as [Hm Hh].
    apply negb_true_iff in Hh. split; [exact Hm|]. split; [exact Hh|]. intros Ec. rewrite Ec in Hc.
    destruct (configured lp k p) as [v|]; [eauto|discriminate].
  - intros (-> & -> & Hc). destruct (lp_check lp); [|reflexivity]. destruct (Hc eq_refl) as (v & ->). reflexivity.
Qed.

Lemma row_cands_In k t lp x : In x (row_cands k t lp) <-> exists p f, In (p, f) t /\ admits lp k p = true /\ x = mk_entry lp k p f.
Proof.
  unfold row_cands. rewrite in_flat_map. split.
  - intros ([p f] & Hpf & Hx). exists p, f. split; [exact Hpf|]. rewrite entry_of_eq in Hx.
    destruct (admits lp k p); [destruct Hx as [<-|[]]; auto|destruct Hx].
  - intros (p & f & Hpf & Had & ->). exists (p, f). split; [exact Hpf|]. rewrite entry_of_eq, Had. left. reflexivity.
Qed.

Lemma discover_cand t k s : In s (discover t k) ->
  exists lp p f, In lp load_paths /\ In (p, f) t /\ admits lp k p = true /\ s = mk_entry lp k p f.
Proof.
  intros Hs. apply (sf_find_uniq _ s (discover_uniq t k)) in Hs. rewrite discover_find in Hs. apply sf_find_Some in Hs.
  destruct Hs as [Hs _]. apply in_flat_map in Hs. destruct Hs as (lp & Hlp & Hs). apply row_cands_In in Hs. destruct Hs as (p & f & Hs). eauto.
Qed.

Corollary discover_fresh t k : fresh (discover t k).
Proof. intros s Hs. destruct (discover_cand t k s Hs) as (lp & p & f & _ & _ & _ & ->). reflexivity. Qed.

Lemma gmatch_starpy p : gmatch [GStarPy] p = true <-> exists x, p = [x].
Proof.
  cbn. destruct p as [|x [|y r]]; split; try discriminate; try (intros (z & H); discriminate); eauto.
Qed.
Lemma gmatch_star_init p : gmatch [GStar; GInitPy] p = true <-> exists a, p = [a; s_init].
Proof.
  cbn. destruct p as [|a [|i [|z r]]]; split; try discriminate; try (intros (y & H); discriminate).
  - intros H. apply N.eqb_eq in H. subst. eauto.
  - intros (y & H). inversion H; subst. reflexivity.
Qed.
Lemma gmatch_starstar_py p : gmatch [GStarStar; GStarPy] p = true <-> p <> [].
Proof.
  cbn [gmatch]. split; [intros H ->; discriminate|].
  induction p as [|d p IH]; [congruence|]. intros _. destruct p as [|e p]; [reflexivity|].
  change (dir_suffixes (d :: e :: p)) with ((d :: e :: p) :: dir_suffixes (e :: p)). cbn [existsb].
  rewrite IH by discriminate. apply orb_true_r.
Qed.

Definition lp1 := {| lp_base := None; lp_pat := [GStarPy]; lp_check := false; lp_auto := true |}.
Definition lp2 := {| lp_base := Some s_apps; lp_pat := [GStar; GInitPy]; lp_check := true; lp_auto := true |}.
Definition lp3 := {| lp_base := Some s_apps; lp_pat := [GStarPy]; lp_check := true; lp_auto := true |}.
Definition lp4 := {| lp_base := Some s_apps; lp_pat := [GStar; GStarStar; GStarPy]; lp_check := false; lp_auto := false |}.
Definition lp5 := {| lp_base := Some s_modules; lp_pat := [GStar; GInitPy]; lp_check := false; lp_auto := false |}.
Definition lp6 := {| lp_base := Some s_modules; lp_pat := [GStarPy]; lp_check := false; lp_auto := false |}.
Definition lp7 := {| lp_base := Some s_modules; lp_pat := [GStar; GStarStar; GStarPy]; lp_check := false; lp_auto := false |}.
Definition lp8 := {| lp_base := Some s_scripts; lp_pat := [GStarStar; GStarPy]; lp_check := false; lp_auto := true |}.

(* the regenerated table [load_paths] (tie T1), row by row *)
Lemma load_paths_is : load_paths = [lp1; lp2; lp3; lp4; lp5; lp6; lp7; lp8].
Proof. reflexivity. Qed.

Lemma lp_match_based lp b p : lp_base lp = Some b -> lp_match lp p = true -> exists r, p = b :: r /\ gmatch (lp_pat lp) r = true.
Proof.
  unfold lp_match. intros -> Hm. destruct p as [|b' r]; [discriminate|].
  apply andb_true_iff in Hm. destruct Hm as [Eb Hm]. apply N.eqb_eq in Eb. subst b'. eauto.
Qed.

Lemma strip_init_head b r : r <> [] -> exists q, strip_init (b :: r) = b :: q.
Proof.
  intros Hr. unfold strip_init. destruct (ends_slash_init (b :: r)); [|eauto].
  destruct r as [|c r]; [congruence|]. cbn [removelast]. eauto.
Qed.

Lemma auto_entry t k s : In s (discover t k) -> sf_auto s = true ->
  (exists y, sf_path s = [y] /\ sf_name s = [top_root; y])
  \/ (exists a v, sf_path s = [s_apps; a; s_init] /\ sf_name s = [s_apps; a] /\ cfg_get k a = Some v)
  \/ (exists y v, sf_path s = [s_apps; y] /\ sf_name s = strip_init [s_apps; y] /\ cfg_get k (app_of (Some s_apps) (sf_name s)) = Some v)
  \/ (exists a r, sf_path s = s_scripts :: a :: r /\ sf_name s = strip_init (s_scripts :: a :: r)).
Proof.
  intros Hs Hau. destruct (discover_cand t k s Hs) as (lp & p & f & Hlp & _ & Had & ->).
  apply admits_spec in Had. destruct Had as (Hm & _ & Hg). cbn [mk_entry sf_auto sf_path sf_name] in *.
  unfold configured, name_of in *. rewrite load_paths_is in Hlp.
  destruct Hlp as [<-|[<-|[<-|[<-|[<-|[<-|[<-|[<-|[]]]]]]]]].
  4-7: discriminate Hau.      (* lp4 .. lp7 do not auto-load *)
  - apply gmatch_starpy in Hm. destruct Hm as (y & ->). left. exists y. split; reflexivity.
  - destruct (lp_match_based lp2 _ _ eq_refl Hm) as (r & -> & Hr). apply gmatch_star_init in Hr. destruct Hr as (a & ->).
    destruct (Hg eq_refl) as (v & Ev). right; left. exists a, v. repeat split. exact Ev.
  - destruct (lp_match_based lp3 _ _ eq_refl Hm) as (r & -> & Hr). apply gmatch_starpy in Hr. destruct Hr as (y & ->).
    destruct (Hg eq_refl) as (v & Ev). right; right; left. exists y, v. auto.
  - destruct (lp_match_based lp8 _ _ eq_refl Hm) as (r & -> & Hr). apply gmatch_starstar_py in Hr.
    destruct r as [|a r]; [congruence|]. right; right; right. eauto.
Qed.

(* an auto-loaded file below a widening root is the root file of its package: package widening keeps it forced *)
Lemma auto_root_file t k s : In s (discover t k) -> sf_auto s = true -> under_roots widen_roots (sf_name s) = true ->
  is_root_file s = true.
Proof.
  intros Hs Hau Hu. unfold is_root_file.
  destruct (auto_entry t k s Hs Hau) as [(y & _ & En)|[(a & v & Ep & En & _)|[(y & v & Ep & En & _)|(a & r & _ & En)]]]; rewrite En in *.
  - discriminate.
  - rewrite Ep. cbn. rewrite !N.eqb_refl. reflexivity.
  - rewrite Ep. unfold strip_init, ends_slash_init in *. cbn in *. destruct (y =? s_init)%N; [discriminate|].
    cbn. rewrite !N.eqb_refl. apply orb_true_r.
  - destruct (strip_init_head s_scripts (a :: r)) as (q & Eq); [discriminate|]. rewrite Eq in Hu. destruct q; discriminate.
Qed.
