(* The period(...) branches of timer_trigger_next.  On plain instants: what the code answers for a grid without end
   ([open_result]) and for one window ([window_next]) is the successor in [on_grid] / [grid_window]; daily windows are a
   scan over day offsets.  Section Period reads [period_open], [period_closed] and [denotes] in these terms. *)
From Coq Require Import ZArith List Bool Lia.
From PV Require Import Common.Civil Proofs.Civil Time.DtExpr Time.Next Gen.TimeConsts Proofs.TimeNext.
Import ListNotations.
Local Open Scope Z_scope.

Definition on_grid (S P t : Z) : Prop := exists k, 0 <= k /\ t = S + P * k.
Definition grid_window (S E P t : Z) : Prop := on_grid S P t /\ t <= E.

Lemma on_grid_ge S P t : 0 < P -> on_grid S P t -> S <= t.
Proof. intros HP (k & Hk & ->). pose proof (Z.mul_nonneg_nonneg P k). lia. Qed.

(* what period_open answers once its start is denoted *)
Definition open_result (S P now su : Z) : cand :=
  if (now <? S) || startup_eq now S su then Some (S, S)
  else let this := S + P * ((now - S) / P + 1) in if now <? this then Some (this, this) else None.

Lemma open_successor S P now su : 0 < P -> successor_of (on_grid S P) now su (open_result S P now su).
Proof.
  intros HP. unfold open_result. destruct ((now <? S) || startup_eq now S su) eqn:E.
  - apply startup_cond in E. apply successor_some; [exact E|exists 0; lia|]. intros t' _ G. apply (on_grid_ge S P t' HP G).
  - rewrite <- not_true_iff_false, startup_cond in E. cbv zeta. rewrite (proj2 (Z.ltb_lt _ _) (next_multiple_gt S P now HP)).
    apply next_multiple_successor; [exact HP|intros t (k & _ & ->); eauto|].
    exists ((now - S) / P + 1). split; [pose proof (Z.div_pos (now - S) P); lia|reflexivity].
Qed.

(* a time-only start names a grid for every day; the code looks at today's only.  Under these bounds (from [in_fragment])
   every day's grid is the same set *)
Lemma open_successor_daily c P now su : 0 < P -> c < P -> DAY mod P = 0 ->
  successor_of (fun t => exists k, on_grid (midnight (day_of now + k) + c) P t) now su
               (open_result (midnight (day_of now + 0) + c) P now su).
Proof.
  intros HP Hc Hd. apply Z.mod_divide in Hd; [destruct Hd as (n & Hn)|lia].
  eapply successor_ext; [|apply open_successor; exact HP]. intros t L. split.
  - intros G. exists 0. exact G.
  - intros (d & k & Hk & ->). rewrite Z.add_0_r.
    assert (midnight (day_of now + d) + c + P * k = midnight (day_of now) + c + P * (d * n + k)) as E
      by (unfold midnight; rewrite Hn; ring).
    exists (d * n + k). split; [|exact E].
    pose proof (day_tod now). assert (P * -1 < P * (d * n + k)) as X by lia. apply Z.mul_lt_mono_pos_l in X; lia.
Qed.

(* one pass of the dither loop *)
Definition window_next (S E P now su : Z) : cand :=
  if ((now <? S) || startup_eq now S su) && (S <=? E) then Some (S, S)
  else let this := S + P * ((now - S) / P + 1) in if (S <=? this) && (this <=? E) then Some (this, this) else None.

Lemma window_next_successor S E P now su : 0 < P ->
  successor_of (grid_window S E P) now su (window_next S E P now su).
Proof.
  intros HP. unfold window_next.
  pose proof (next_multiple_gt S P now HP) as G. pose proof (fun k => next_multiple_min S P now k HP) as M.
  set (q := (now - S) / P + 1) in *.
  destruct (((now <? S) || startup_eq now S su) && (S <=? E)) eqn:C1.
  - rewrite andb_true_iff, startup_cond, Z.leb_le in C1.
    apply successor_some; [tauto|split; [exists 0|]; lia|]. intros t' _ (X & _). apply (on_grid_ge S P t' HP X).
  - rewrite <- not_true_iff_false, andb_true_iff, startup_cond, Z.leb_le in C1. cbv zeta.
    destruct ((S <=? S + P * q) && (S + P * q <=? E)) eqn:C2.
    + rewrite andb_true_iff, !Z.leb_le in C2. apply next_multiple_successor; [exact HP|intros t ((k & _ & ->) & _); eauto|].
      split; [exists q; split; [apply (Z.mul_le_mono_pos_l _ _ P HP)|]|]; lia.
    + rewrite <- not_true_iff_false, andb_true_iff, !Z.leb_le in C2.
      intros t' L (X & Hle). pose proof (on_grid_ge S P t' HP X). destruct X as (k & _ & ->). specialize (M k L). lia.
Qed.

Lemma windows_ordered (A B : Z -> Z) : (forall d, A d <= B d < A (d + 1)) -> forall d d', d < d' -> B d < A d'.
Proof.
  intros W d d' L. assert (A (d + 1) <= A d') by (apply steps_mono; [intros x _; pose proof (W x); lia|lia]).
  pose proof (W d). lia.
Qed.

Lemma ltb_add_l a x y : (a + x <? a + y) = (x <? y).
Proof. unfold Z.ltb. rewrite Z.add_compare_mono_l. reflexivity. Qed.

(* one window a day from cs to ce, ce on the next day if it is the earlier; the loop tries yesterday's, today's and
   tomorrow's, and decides on today's times whether the end belongs to the next day *)
Lemma daily_windows_successor cs ce P now su (A E : Z -> Z) : 0 < P -> 0 <= cs < DAY -> 0 <= ce < DAY ->
  (forall d, A d = midnight (day_of now + d) + cs) -> (forall d, E d = midnight (day_of now + d) + ce) ->
  successor_of (fun t => exists d, grid_window (A d) (if E d <? A d then E d + DAY else E d) P t) now su
               (scan (fun d => window_next (A d) (E (d + (if E 0 <? A 0 then 1 else 0))) P now su) [-1; 0; 1]).
Proof.
  intros HP Hcs Hce EA EE. set (B := fun d => if E d <? A d then E d + DAY else E d).
  set (w := if ce <? cs then ce + DAY else ce).
  assert (forall d, B d = midnight (day_of now + d) + w) as EB.
  { intros d. unfold B, w. rewrite EA, EE, ltb_add_l. destruct (ce <? cs); lia. }
  assert (forall d, A d <= B d < A (d + 1)) as W.
  { intros d. rewrite EB, !EA, Z.add_assoc, midnight_succ. unfold w. destruct (Z.ltb_spec ce cs); lia. }
  assert (forall d, E (d + (if E 0 <? A 0 then 1 else 0)) = B d) as EO.
  { intros d. rewrite EB, !EE, EA, ltb_add_l. unfold w.
    destruct (ce <? cs); rewrite ?Z.add_assoc, ?midnight_succ, ?Z.add_0_r; lia. }
  assert (A (-1) < now < A 1) as N by (rewrite !EA; apply day_bracket, Hcs).
  apply (scan_successor (fun d => grid_window (A d) (B d) P)) with (a := -1).
  - intros d. rewrite EO. apply window_next_successor, HP.
  - intros d d' t t' L (_ & Hle) (X' & _). pose proof (windows_ordered A B W d d' L). pose proof (on_grid_ge _ P t' HP X'). lia.
  - cbn. auto.
  - intros d t L (_ & Hle). pose proof (windows_ordered A B W d (-1) L). lia.
  - exists 1, (A 1). split; [cbn; auto|]. split; [split; [exists 0; lia|apply W]|apply N].
Qed.

Lemma tz_const_diff lu ul : tz_const lu ul -> forall a b, lu a - lu b = a - b.
Proof. intros (c & Hc) a b. rewrite (proj1 (Hc a)), (proj1 (Hc b)). ring. Qed.

Lemma tz_const_shift lu ul : tz_const lu ul -> forall a x, ul (lu a + x) = a + x.
Proof. intros (c & Hc) a x. rewrite (proj2 (Hc _)), (proj1 (Hc a)). ring. Qed.

Section Period.
  Variable scale : N -> Z.
  Variable sun : Z -> bool -> option Z.
  Variable lu ul : Z -> Z.
  Variable cfg : deviations.
  Hypothesis Htz : d_period_wallclock cfg = true \/ tz_const lu ul.

  Let elapsed := negb (d_period_wallclock cfg).

  (* [false]: without the float effect *)
  Lemma grid_next_eq start P now : grid_next lu ul cfg false start P now = start + P * ((now - start) / P + 1).
  Proof.
    unfold grid_next. rewrite andb_false_r. cbn [andb].
    destruct (d_period_wallclock cfg) eqn:E; [reflexivity|]. destruct Htz as [X|TZ]; [discriminate|].
    rewrite (tz_const_diff lu ul TZ), (tz_const_shift lu ul TZ). reflexivity.
  Qed.

  Lemma grid_iff S P t : grid lu ul elapsed S P t <-> on_grid S P t.
  Proof.
    unfold grid, on_grid, elapsed. destruct (d_period_wallclock cfg) eqn:E; cbn [negb]; [tauto|].
    destruct Htz as [X|TZ]; [discriminate|]. setoid_rewrite (tz_const_shift lu ul TZ). tauto.
  Qed.

  Lemma period_open_val st P now su : expr_ok st = true ->
    period_open scale sun lu ul cfg false st P now su = ROk (open_result (inst_val scale st 0 0 now su) P now su).
  Proof.
    intros OK. unfold period_open, open_result. rewrite (denote_dt_ok scale sun st 0 now su OK). cbn [rbind].
    rewrite grid_next_eq. destruct ((now <? _) || _); reflexivity.
  Qed.

  Lemma period_open_successor st iv P now su : expr_ok st = true -> amount_us_exact scale iv = Some P -> 0 < P ->
    (fixed_date st = false -> tod_off scale st < P /\ DAY mod P = 0) ->
    answers (period_open scale sun lu ul cfg false st P now su)
            (denotes scale sun lu ul elapsed (Period st iv None) su now) now su.
  Proof.
    intros OK EP HP FR. rewrite (period_open_val st P now su OK).
    apply (successor_ext (fun t => exists k, on_grid (inst_val scale st 0 k now su) P t)).
    { intros t _. cbn [denotes]. setoid_rewrite (inst_iff scale sun st false su now _ OK). setoid_rewrite grid_iff. split.
      - intros (k & G). exists P, (inst_val scale st 0 k now su). split; [exact EP|]. split; [exact HP|]. split; [exists 0, k; reflexivity|exact G].
      - intros (P' & S & E' & _ & (_ & k & ->) & G). rewrite EP in E'. injection E' as <-. eauto. }
    destruct (fixed_date st) eqn:FX.
    - eapply successor_ext; [|apply open_successor, HP]. intros t _. split.
      + intros G. exists 0. exact G.
      + intros (k & G). rewrite (inst_val_fixed scale st 0 0 k now su FX). exact G.
    - destruct (FR eq_refl) as (Hc & Hd). rewrite (inst_val_undated scale st 0 0 now su FX).
      eapply successor_ext; [|apply (open_successor_daily _ P now su HP Hc Hd)].
      intros t _. setoid_rewrite (inst_val_undated scale st 0 _ now su FX). tauto.
  Qed.

  Lemma dither_loop_scan s e P eoff now su days : expr_ok s = true -> expr_ok e = true ->
    dither_loop scale sun lu ul cfg false days s e P eoff now su =
    ROk (scan (fun d => window_next (inst_val scale s 0 d now su) (inst_val scale e 0 (d + eoff) now su) P now su) days).
  Proof.
    intros OKs OKe. induction days as [|d rest IH]; cbn [dither_loop scan]; [reflexivity|].
    rewrite (denote_dt_ok scale sun s d now su OKs), (denote_dt_ok scale sun e (d + eoff) now su OKe). cbn [rbind].
    rewrite grid_next_eq. unfold window_next. destruct (_ && _); [reflexivity|]. cbv zeta. destruct (_ && _); [reflexivity|exact IH].
  Qed.

  Lemma period_closed_val st en P now su : expr_ok st = true -> expr_ok en = true ->
    period_closed scale sun lu ul cfg false st en P now su =
    ROk (let S d := inst_val scale st 0 d now su in let E d := inst_val scale en 0 d now su in
         if fixed_date st || fixed_date en then window_next (S 0) (E 0) P now su
         else scan (fun d => window_next (S d) (E (d + (if E 0 <? S 0 then 1 else 0))) P now su) dither_undated).
  Proof.
    intros OKs OKe. unfold period_closed.
    rewrite (denote_dt_ok scale sun st 0 now su OKs), (denote_dt_ok scale sun en 0 now su OKe). cbn [rbind].
    rewrite <- negb_orb, !(dither_loop_scan st en P _ now su _ OKs OKe).
    destruct (fixed_date st || fixed_date en); cbn [negb]; [|reflexivity].
    unfold dither_dated. cbn [scan Z.add]. destruct (window_next _ _ P now su); reflexivity.
  Qed.

  Lemma denotes_closed_iff st iv en P su now t : expr_ok st = true -> expr_ok en = true ->
    amount_us_exact scale iv = Some P -> 0 < P ->
    denotes scale sun lu ul elapsed (Period st iv (Some en)) su now t <->
    if fixed_date st || fixed_date en then grid_window (inst_val scale st 0 0 now su) (inst_val scale en 0 0 now su) P t
    else exists d, grid_window (inst_val scale st 0 d now su)
                     (if inst_val scale en 0 d now su <? inst_val scale st 0 d now su then inst_val scale en 0 d now su + DAY
                      else inst_val scale en 0 d now su) P t.
  Proof.
    intros OKs OKe EP HP. cbn [denotes]. unfold grid_window.
    assert (forall X : Z -> Prop, (exists P', amount_us_exact scale iv = Some P' /\ 0 < P' /\ X P') <-> X P) as IV.
    { intros X. split; [intros (P' & E' & _ & H); rewrite EP in E'; injection E' as <-; exact H|intros H; exists P; auto]. }
    etransitivity; [apply IV|].
    destruct (fixed_date st || fixed_date en);
      setoid_rewrite (inst_on_iff scale sun st _ su now _ OKs); setoid_rewrite (inst_on_iff scale sun en _ su now _ OKe);
      setoid_rewrite grid_iff.
    - rewrite Z.sub_diag. split.
      + intros (S & E & -> & -> & H). exact H.
      + intros H. do 2 eexists. split; [reflexivity|]. split; [reflexivity|exact H].
    - split.
      + intros (D & S & E0 & E & -> & -> & -> & H). exists (D - day_of now). exact H.
      + intros (d & H). exists (day_of now + d). do 3 eexists. split; [reflexivity|]. split; [reflexivity|]. split; [reflexivity|].
        replace (day_of now + d - day_of now) with d by lia. exact H.
  Qed.

  Lemma period_closed_successor st iv en P now su : expr_ok st = true -> expr_ok en = true ->
    amount_us_exact scale iv = Some P -> 0 < P ->
    (fixed_date st || fixed_date en = false -> 0 <= tod_off scale st < DAY /\ 0 <= tod_off scale en < DAY) ->
    answers (period_closed scale sun lu ul cfg false st en P now su)
            (denotes scale sun lu ul elapsed (Period st iv (Some en)) su now) now su.
  Proof.
    intros OKs OKe EP HP FR. rewrite (period_closed_val st en P now su OKs OKe). cbv zeta.
    eapply successor_ext; [intros t _; symmetry; apply (denotes_closed_iff st iv en P su now t OKs OKe EP HP)|].
    destruct (fixed_date st || fixed_date en) eqn:FX; [apply window_next_successor, HP|].
    apply orb_false_iff in FX. destruct FX as (FS & FE). destruct (FR eq_refl) as (Hcs & Hce).
    apply (daily_windows_successor (tod_off scale st) (tod_off scale en) P now su
             (fun d => inst_val scale st 0 d now su) (fun d => inst_val scale en 0 d now su));
      try assumption; intros d; apply inst_val_undated; assumption.
  Qed.
End Period.
