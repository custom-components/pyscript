(* C09, the ledger (model: Life/Ledger.v).  The tables as one trigger unit sees them, each operation on a unit as one record over
   them ([x_nf]): start followed by stop is the identity ([cycle_inverse]).  Then bounds in place of equations: what a stop, a
   start, a crash or the reaper may change ([released], [acquired], [less]).  Last the invariant [Inv] (preserved: LifeLedgerSys.v). *)
From Coq Require Import List NArith Bool Lia.
From PV Require Import Common.Util Life.Ledger.
Import ListNotations.
Local Open Scope N_scope.

Arguments memp : simpl never.
Arguments delp : simpl never.
Arguments addp : simpl never.
Arguments memn : simpl never.
Arguments deln : simpl never.
Arguments addn : simpl never.
Arguments has_fst : simpl never.
Arguments pair_eqb : simpl never.

Ltac wsimpl := cbn [w_led w_funcs w_active w_delayed w_pending w_zombie w_running w_starting w_hdl w_auto w_next w_log
                    set_led led_log set_active set_delayed set_pending set_zombie set_running set_starting set_hdl set_auto set_next fst snd
                    l_state l_event l_bus l_tasks l_reap l_svc set_state set_evbus set_tasks set_reap set_svc] in *.

Lemma pair_eqb_eq a b : pair_eqb a b = true <-> a = b.
Proof. exact (prod_eqb_eq _ _ N.eqb_eq N.eqb_eq a b). Qed.

Lemma pair_eqb_refl a : pair_eqb a a = true.
Proof. apply pair_eqb_eq; reflexivity. Qed.
Lemma pair_eqb_neq a b : pair_eqb a b = false <-> a <> b.
Proof. rewrite <- pair_eqb_eq. destruct (pair_eqb a b); split; congruence. Qed.

Lemma memp_In p l : memp p l = true <-> In p l.
Proof. exact (existsb_eqb_In _ pair_eqb_eq p l). Qed.
Lemma memp_false p l : memp p l = false <-> ~ In p l.
Proof. exact (existsb_eqb_notin _ pair_eqb_eq p l). Qed.
Lemma memn_In x l : memn x l = true <-> In x l.
Proof. exact (existsb_eqb_In _ N.eqb_eq x l). Qed.
Lemma memn_false x l : memn x l = false <-> ~ In x l.
Proof. exact (existsb_eqb_notin _ N.eqb_eq x l). Qed.

Lemma In_delp p x l : In x (delp p l) <-> In x l /\ x <> p.
Proof. exact (In_remove_key _ (eqb_flip_eq _ pair_eqb_eq) (fun y => y) p x l). Qed.
Lemma In_deln a x l : In x (deln a l) <-> In x l /\ x <> a.
Proof. exact (In_remove_key _ (eqb_flip_eq _ N.eqb_eq) (fun y => y) a x l). Qed.
Lemma deln_sub a l x : In x (deln a l) -> In x l.
Proof. intros H. apply In_deln in H. apply H. Qed.
Lemma In_addp p x l : In x (addp p l) <-> In x l \/ x = p.
Proof. exact (In_add_eqb _ pair_eqb_eq p x l). Qed.
Lemma In_addn a x l : In x (addn a l) <-> In x l \/ x = a.
Proof. exact (In_add_eqb _ N.eqb_eq a x l). Qed.
Lemma has_fst_In k l : has_fst k l = true <-> exists q, In (k, q) l.
Proof.
  unfold has_fst. rewrite existsb_exists. split.
  - intros [[a b] [H E]]. cbn in E. apply N.eqb_eq in E. subst. exists b. exact H.
  - intros [q H]. exists (k, q). split; [exact H|cbn; apply N.eqb_refl].
Qed.

Lemma has_fst_addp_mono k p l : has_fst k l = true -> has_fst k (addp p l) = true.
Proof.
  intros H. apply has_fst_In in H. destruct H as [q H]. apply has_fst_In. exists q. apply In_addp. left; exact H.
Qed.

Lemma delp_notin p l : ~ In p l -> delp p l = l.
Proof.
  intros H. apply filter_all. intros x Hx. apply negb_true_iff, pair_eqb_neq. intros ->. exact (H Hx).
Qed.
Lemma delp_app_last p l : ~ In p l -> delp p (l ++ [p]) = l.
Proof.
  intros H. unfold delp. rewrite filter_app. cbn. rewrite pair_eqb_refl. cbn. rewrite app_nil_r. apply delp_notin. exact H.
Qed.
Lemma delp_addp p l : ~ In p l -> delp p (addp p l) = l.
Proof. intros H. unfold addp. rewrite (proj2 (memp_false p l) H). apply delp_app_last. exact H. Qed.
Lemma has_fst_delp_other ev ev' q E : ev' <> ev -> has_fst ev' (delp (ev, q) E) = has_fst ev' E.
Proof.
  intros NE. apply eq_true_iff_eq. rewrite !has_fst_In. split; intros [q' H]; exists q'.
  - apply In_delp in H. apply H.
  - apply In_delp. split; [exact H|]. congruence.
Qed.
Lemma deln_notin a l : ~ In a l -> deln a l = l.
Proof.
  intros H. apply filter_all. intros x Hx. apply negb_true_iff, N.eqb_neq. intros ->. exact (H Hx).
Qed.
Lemma deln_addn a l : ~ In a l -> deln a (addn a l) = l.
Proof.
  intros H. unfold addn. rewrite (proj2 (memn_false a l) H). unfold deln. rewrite filter_app. cbn.
  rewrite N.eqb_refl. cbn. rewrite app_nil_r. apply deln_notin. exact H.
Qed.
Lemma addn_in a l : In a l -> addn a l = l.
Proof. intros H. unfold addn. apply memn_In in H. rewrite H. reflexivity. Qed.
Lemma deln_idem a l : deln a (deln a l) = deln a l.
Proof. apply deln_notin. rewrite In_deln. intros [_ H]. apply H. reflexivity. Qed.
Lemma not_in_deln_self g l : ~ In g (deln g l).
Proof. intros C. apply In_deln in C. destruct C as [_ C]. apply C; reflexivity. Qed.

Lemma In_notify_add ids q : forall S p, In p (notify_add ids q S) <-> In p S \/ (snd p = q /\ In (fst p) (ident_keys ids)).
Proof.
  induction ids as [|i r IH]; intros S p; cbn [notify_add ident_keys].
  - split; [auto|]. intros [H|[_ []]]. exact H.
  - destruct (ident_key i) as [e|] eqn:E.
    + rewrite IH, In_addp. cbn [In]. split.
      * intros [[H| ->]|[A B]]; cbn; auto.
      * intros [H|[A [B|B]]]; auto. left. right. destruct p; cbn in *; subst; reflexivity.
    + apply IH.
Qed.

Lemma notify_add_app ids q : forall S, exists N', notify_add ids q S = S ++ N' /\
  forall p, In p N' -> snd p = q /\ In (fst p) (ident_keys ids).
Proof.
  induction ids as [|i r IH]; intros S; cbn [notify_add ident_keys].
  - exists []. rewrite app_nil_r. split; [reflexivity|intros p []].
  - destruct (ident_key i) as [e|] eqn:E.
    + destruct (IH (addp (e, q) S)) as [N' [EQ HN]]. unfold addp in *. destruct (memp (e, q) S).
      * exists N'. split; [exact EQ|]. intros p Hp. destruct (HN p Hp). split; [assumption|right; assumption].
      * exists ((e, q) :: N'). rewrite EQ, <- app_assoc. split; [reflexivity|].
        intros p [<-|Hp]; [cbn; auto|]. destruct (HN p Hp). split; [assumption|right; assumption].
    + apply IH.
Qed.

Definition sub_of (ids : list ident) (q : N) (p : N * N) : bool := N.eqb (snd p) q && memn (fst p) (ident_keys ids).
Lemma sub_of_spec ids q p : sub_of ids q p = true <-> snd p = q /\ In (fst p) (ident_keys ids).
Proof. unfold sub_of. rewrite andb_true_iff, N.eqb_eq, memn_In. reflexivity. Qed.

(* with `continue` ([ret = false]) the order of [ids] does not matter; the unit-level lemmas need D16 off for this only *)
Lemma notify_del_filter ids q : forall S, notify_del false ids q S = filter (fun p => negb (sub_of ids q p)) S.
Proof.
  induction ids as [|i r IH]; intros S; cbn [notify_del].
  - symmetry. apply filter_all. intros x _. unfold sub_of. cbn. rewrite andb_false_r. reflexivity.
  - unfold sub_of in *. cbn [ident_keys]. destruct (ident_key i) as [e|] eqn:E; [|apply IH].
    assert (EQ : forall S', filter (fun p => negb (N.eqb (snd p) q && memn (fst p) (ident_keys r))) (delp (e, q) S') =
                        filter (fun p => negb (N.eqb (snd p) q && memn (fst p) (e :: ident_keys r))) S').
    { intros S'. unfold delp. rewrite filter_filter. apply filter_ext_in. intros [a b] _. cbn.
      unfold pair_eqb, memn. cbn. rewrite (N.eqb_sym e a), (N.eqb_sym q b).
      destruct (N.eqb a e), (N.eqb b q); cbn; reflexivity. }
    rewrite <- EQ. destruct (memp (e, q) S) eqn:M; rewrite IH; [reflexivity|].
    rewrite delp_notin; [reflexivity|]. apply memp_false. exact M.
Qed.

Lemma notify_del_add_fresh ids q S : (forall p, In p S -> snd p <> q) ->
  notify_del false ids q (notify_add ids q S) = S.
Proof.
  intros F. destruct (notify_add_app ids q S) as [N' [EQ HN]]. rewrite EQ, notify_del_filter, filter_app.
  rewrite (filter_all _ S), (filter_none _ N'), app_nil_r; [reflexivity| |].
  - intros p Hp. apply negb_false_iff, sub_of_spec, HN, Hp.
  - intros p Hp. apply negb_true_iff, not_true_iff_false. rewrite sub_of_spec. intros [A _]. exact (F p Hp A).
Qed.

Lemma In_notify_del_sub ret ids q : forall S p, In p (notify_del ret ids q S) -> In p S.
Proof.
  induction ids as [|i r IH]; intros S p; cbn [notify_del]; [auto|].
  destruct (ident_key i) as [e|]; [|apply IH].
  destruct (memp (e, q) S).
  - intros H. apply IH in H. apply In_delp in H. tauto.
  - destruct ret; [auto|apply IH].
Qed.

(* a unit's entries: in State.notify; in Event.notify (legacy trigger, [nw = false]) or on the bus (new decorator, [nw = true]) *)
Inductive tbl := TState | TEvent | TBus.
Definition tab (t : tbl) (L : ledger) : list (N * N) :=
  match t with TState => l_state L | TEvent => l_event L | TBus => l_bus L end.
Definition st_entry (u : unit_) (p : N * N) : Prop :=
  snd p = u_id u /\ exists ids, u_state u = Some ids /\ In (fst p) (ident_keys ids).
Definition ev_entry (u : unit_) (p : N * N) : Prop := snd p = u_id u /\ u_event u = Some (fst p).
Definition entry (nw : bool) (u : unit_) (t : tbl) (p : N * N) : Prop :=
  match t with TState => st_entry u p | TEvent => ev_entry u p /\ nw = false | TBus => ev_entry u p /\ nw = true end.
Lemma entry_id nw u t p : entry nw u t p -> snd p = u_id u.
Proof. destruct t; cbn; intros H; apply H. Qed.

(* the shape of three clauses of the model's [id_fresh] *)
Definition foreign (id : N) (l : list (N * N)) : Prop := forall p, In p l -> snd p <> id.
(* shared legacy listeners on the bus B against the queues of Event.notify E.  [bus0_exact] is the first clause of the model's
   [ledger_wf]: start followed by stop is the identity only then *)
Definition bus0_ok (E B : list (N * N)) : Prop := forall ev, In (ev, 0) B -> has_fst ev E = true.
Definition bus0_exact (E B : list (N * N)) : Prop := forall ev, In (ev, 0) B <-> has_fst ev E = true.

Definition st_sub (u : unit_) (S : list (N * N)) : list (N * N) :=
  match u_state u with Some ids => notify_add ids (u_id u) S | None => S end.
Definition st_unsub (ret : bool) (u : unit_) (S : list (N * N)) : list (N * N) :=
  match u_state u with Some ids => notify_del ret ids (u_id u) S | None => S end.
Definition ev_sub (u : unit_) (E : list (N * N)) : list (N * N) :=
  match u_event u with Some ev => addp (ev, u_id u) E | None => E end.
Definition ev_unsub (u : unit_) (E : list (N * N)) : list (N * N) :=
  match u_event u with Some ev => delp (ev, u_id u) E | None => E end.
(* the shared legacy listener (owner 0); [E] is Event.notify before the change *)
Definition bus0_sub (u : unit_) (E B : list (N * N)) : list (N * N) :=
  match u_event u with Some ev => if has_fst ev E then B else addp (ev, 0) B | None => B end.
Definition bus0_unsub (u : unit_) (E B : list (N * N)) : list (N * N) :=
  match u_event u with
  | Some ev => if memp (ev, u_id u) E && negb (has_fst ev (delp (ev, u_id u) E)) then delp (ev, 0) B else B
  | None => B
  end.

Lemma In_st_sub u S p : In p (st_sub u S) -> In p S \/ st_entry u p.
Proof.
  unfold st_sub, st_entry. destruct (u_state u) as [ids|]; [|auto]. rewrite In_notify_add.
  intros [H|[A B]]; [left; exact H|right; split; [exact A|]]. exists ids. auto.
Qed.
Lemma In_st_unsub u S p : In p (st_unsub false u S) -> In p S /\ ~ st_entry u p.
Proof.
  unfold st_unsub, st_entry. destruct (u_state u) as [ids|].
  - rewrite notify_del_filter, filter_In, negb_true_iff, <- not_true_iff_false, sub_of_spec. intros [H K]. split; [exact H|].
    intros [A [ids' [E B]]]. inversion E; subst. auto.
  - intros H. split; [exact H|]. intros [_ [ids [E _]]]. discriminate.
Qed.
Lemma In_ev_sub u E p : In p (ev_sub u E) -> In p E \/ ev_entry u p.
Proof.
  unfold ev_sub, ev_entry. destruct (u_event u) as [ev|]; [|auto]. rewrite In_addp. intros [H| ->]; auto.
Qed.
Lemma In_ev_unsub u E p : In p (ev_unsub u E) -> In p E /\ ~ ev_entry u p.
Proof.
  unfold ev_unsub, ev_entry. destruct (u_event u) as [ev|].
  - rewrite In_delp. intros [H K]. split; [exact H|]. intros [A B]. inversion B. apply K. destruct p; cbn in *; subst; reflexivity.
  - intros H. split; [exact H|]. intros [_ B]. discriminate.
Qed.

Lemma In_bus0_sub u E B p : In p (bus0_sub u E B) -> In p B \/ snd p = 0.
Proof.
  unfold bus0_sub. destruct (u_event u) as [ev|]; [|auto]. destruct (has_fst ev E); [auto|].
  rewrite In_addp. intros [H| ->]; auto.
Qed.
Lemma bus0_sub_ok u E B : bus0_ok E B -> bus0_ok (ev_sub u E) (bus0_sub u E B).
Proof.
  intros OK ev' H. unfold bus0_sub, ev_sub in *. destruct (u_event u) as [ev|]; [|exact (OK ev' H)].
  assert (OLD : In (ev', 0) B -> has_fst ev' (addp (ev, u_id u) E) = true) by (intros K; apply has_fst_addp_mono, OK, K).
  destruct (has_fst ev E); [exact (OLD H)|]. apply In_addp in H. destruct H as [H|H]; [exact (OLD H)|].
  inversion H. apply has_fst_In. exists (u_id u). apply In_addp. auto.
Qed.
Lemma In_bus0_unsub u E B p : In p (bus0_unsub u E B) -> In p B.
Proof.
  unfold bus0_unsub. destruct (u_event u) as [ev|]; [|auto].
  destruct (memp (ev, u_id u) E && negb (has_fst ev (delp (ev, u_id u) E))); [|auto]. rewrite In_delp. tauto.
Qed.
(* the listener goes only with the last queue of its event type, so a listener that stays has a queue *)
Lemma bus0_unsub_ok u E B : bus0_ok E B -> bus0_ok (ev_unsub u E) (bus0_unsub u E B).
Proof.
  intros OK ev' H. pose proof (OK ev' (In_bus0_unsub _ _ _ _ H)) as K.
  unfold bus0_unsub, ev_unsub in *. destruct (u_event u) as [ev|]; [|exact K].
  destruct (memp (ev, u_id u) E) eqn:M; [|rewrite delp_notin; [exact K|apply memp_false; exact M]].
  destruct (N.eq_dec ev' ev) as [->|NE].
  - destruct (has_fst ev (delp (ev, u_id u) E)); [reflexivity|]. apply In_delp in H. exfalso. apply (proj2 H). reflexivity.
  - rewrite has_fst_delp_other by exact NE. exact K.
Qed.

Lemma st_unsub_sub u S : foreign (u_id u) S -> st_unsub false u (st_sub u S) = S.
Proof. intros F. unfold st_unsub, st_sub. destruct (u_state u); [apply notify_del_add_fresh; exact F|reflexivity]. Qed.
Lemma ev_unsub_sub u E : foreign (u_id u) E -> ev_unsub u (ev_sub u E) = E.
Proof.
  intros F. unfold ev_unsub, ev_sub. destruct (u_event u) as [ev|]; [|reflexivity]. apply delp_addp. intros H. exact (F _ H eq_refl).
Qed.
Lemma bus0_unsub_sub u E B : foreign (u_id u) E -> bus0_exact E B ->
  bus0_unsub u (ev_sub u E) (bus0_sub u E B) = B.
Proof.
  intros F WB. unfold bus0_unsub. pose proof (ev_unsub_sub u E F) as K. unfold ev_unsub, ev_sub, bus0_sub in *.
  destruct (u_event u) as [ev|]; [|reflexivity]. rewrite K, (proj2 (memp_In _ _)) by (apply In_addp; auto).
  destruct (has_fst ev E) eqn:HF; [reflexivity|]. apply delp_addp. intros H. apply WB in H. congruence.
Qed.

Lemma ledger_eq A B : l_state A = l_state B -> l_event A = l_event B -> l_bus A = l_bus B ->
  l_tasks A = l_tasks B -> l_reap A = l_reap B -> l_svc A = l_svc B -> A = B.
Proof. destruct A, B. cbn. intros; subst; reflexivity. Qed.

Lemma ev_add_proj ev q L :
  l_state (ev_add ev q L) = l_state L /\ l_event (ev_add ev q L) = addp (ev, q) (l_event L) /\
  l_bus (ev_add ev q L) = (if has_fst ev (l_event L) then l_bus L else addp (ev, 0) (l_bus L)) /\
  l_tasks (ev_add ev q L) = l_tasks L /\ l_reap (ev_add ev q L) = l_reap L /\ l_svc (ev_add ev q L) = l_svc L.
Proof. unfold ev_add. repeat split; reflexivity. Qed.

Lemma ev_del_notin ev q L : ~ In (ev, q) (l_event L) -> ev_del ev q L = L.
Proof. intros H. unfold ev_del. rewrite (proj2 (memp_false _ _) H). reflexivity. Qed.
Lemma ev_del_nf ev q L : ev_del ev q L =
  set_evbus L (delp (ev, q) (l_event L))
    (if memp (ev, q) (l_event L) && negb (has_fst ev (delp (ev, q) (l_event L))) then delp (ev, 0) (l_bus L) else l_bus L).
Proof.
  unfold ev_del. destruct (memp (ev, q) (l_event L)) eqn:M.
  - destruct (has_fst ev (delp (ev, q) (l_event L))); reflexivity.
  - rewrite delp_notin by (apply memp_false; exact M). destruct L; reflexivity.
Qed.

(* common to TrigInfo.stop and the `except` branch of trigger_watch *)
Definition leg_unsub (cfg : deviations) (u : unit_) (L : ledger) : ledger :=
  let L1 := match u_state u with
            | Some ids => set_state L (notify_del (d16_notify_del_return cfg) ids (u_id u) (l_state L))
            | None => L end in
  match u_event u with Some ev => ev_del ev (u_id u) L1 | None => L1 end.

(* [x_nf]: operation x as one record over the unit's table operations *)
Lemma leg_unsub_nf cfg u L : leg_unsub cfg u L =
  {| l_state := st_unsub (d16_notify_del_return cfg) u (l_state L); l_event := ev_unsub u (l_event L);
     l_bus := bus0_unsub u (l_event L) (l_bus L); l_tasks := l_tasks L; l_reap := l_reap L; l_svc := l_svc L |}.
Proof.
  unfold leg_unsub, st_unsub, ev_unsub, bus0_unsub. cbv zeta.
  destruct (u_state u), (u_event u); rewrite ?ev_del_nf; destruct L; reflexivity.
Qed.
Lemma leg_stop_running_nf cfg u L :
  leg_stop_running cfg u L = (set_reap (leg_unsub cfg u L) (addn (u_id u) (l_reap L)), shutdown_run u).
Proof.
  change (leg_stop_running cfg u L) with
    (set_reap (leg_unsub cfg u L) (addn (u_id u) (l_reap (leg_unsub cfg u L))), shutdown_run u).
  rewrite leg_unsub_nf. reflexivity.
Qed.
(* a trigger whose task has not run has no queue in Event.notify yet *)
Lemma leg_stop_pending_idle u L : (forall ev, u_event u = Some ev -> ~ In (ev, u_id u) (l_event L)) ->
  leg_stop_pending u L = (set_reap L (addn (u_id u) (l_reap L)), shutdown_run u).
Proof. intros H. unfold leg_stop_pending. destruct (u_event u) as [ev|]; [rewrite (ev_del_notin _ _ _ (H ev eq_refl))|]; reflexivity. Qed.
Lemma leg_stop_pending_reap u L : l_reap (fst (leg_stop_pending u L)) = addn (u_id u) (l_reap L).
Proof. unfold leg_stop_pending. destruct (u_event u); rewrite ?ev_del_nf; reflexivity. Qed.
Lemma leg_crash_nf cfg u L : leg_crash cfg u L = set_tasks (leg_unsub cfg u L) (deln (u_id u) (l_tasks L)).
Proof.
  change (leg_crash cfg u L) with (set_tasks (leg_unsub cfg u L) (deln (u_id u) (l_tasks (leg_unsub cfg u L)))).
  rewrite leg_unsub_nf. reflexivity.
Qed.
Lemma leg_prologue_nf u L : leg_prologue u L =
  ({| l_state := st_sub u (l_state L); l_event := ev_sub u (l_event L); l_bus := bus0_sub u (l_event L) (l_bus L);
      l_tasks := (if u_persistent u then l_tasks L else deln (u_id u) (l_tasks L)); l_reap := l_reap L; l_svc := l_svc L |},
   startup_run u).
Proof.
  unfold leg_prologue, ev_add, st_sub, ev_sub, bus0_sub. destruct L, (u_state u), (u_event u), (u_persistent u); reflexivity.
Qed.

(* new decorator: a cycle task per state trigger with a watched name, one per periodic time trigger *)
Definition dec_tasks (u : unit_) (T : list N) : list N :=
  let T1 := match u_state u with Some ids => if notify_added ids then addn (u_id u) T else T | None => T end in
  if u_periodic u then addn (u_id u) T1 else T1.
Lemma dec_tasks_cases u T : dec_tasks u T = T \/ dec_tasks u T = addn (u_id u) T.
Proof.
  unfold dec_tasks. destruct (u_state u) as [ids|]; [destruct (notify_added ids)|]; destruct (u_periodic u); auto.
  right. apply addn_in, In_addn. auto.
Qed.
Lemma dec_start_nf u L : dec_start u L =
  ({| l_state := st_sub u (l_state L); l_event := l_event L; l_bus := ev_sub u (l_bus L);
      l_tasks := dec_tasks u (l_tasks L); l_reap := l_reap L; l_svc := l_svc L |}, startup_run u).
Proof.
  unfold dec_start, st_sub, ev_sub, dec_tasks.
  destruct L, (u_state u) as [ids|]; [destruct (notify_added ids)|]; destruct (u_event u), (u_periodic u); reflexivity.
Qed.
Lemma dec_stop_nf cfg u L : dec_stop cfg u L =
  ({| l_state := st_unsub (d16_notify_del_return cfg) u (l_state L); l_event := l_event L; l_bus := ev_unsub u (l_bus L);
      l_tasks := deln (u_id u) (l_tasks L); l_reap := l_reap L; l_svc := l_svc L |},
   if u_crash u then [] else shutdown_run u).
Proof. unfold dec_stop, st_unsub, ev_unsub. destruct L, (u_state u), (u_event u); reflexivity. Qed.

Lemma startup_run_spec u r : In r (startup_run u) -> r = {| r_gen := u_gen u; r_kind := RStartup; r_unit := u_id u |}.
Proof. unfold startup_run. destruct (u_startup u && negb (u_crash u)); [intros [<-|[]]; reflexivity|intros []]. Qed.
Lemma shutdown_run_spec u r : In r (shutdown_run u) -> r = {| r_gen := u_gen u; r_kind := RShutdown; r_unit := u_id u |}.
Proof. unfold shutdown_run. destruct (u_shutdown u); [intros [<-|[]]; reflexivity|intros []]. Qed.

Lemma reap_single_absent id T : ~ In id T -> filter (fun t => negb (memn t [id])) T = T.
Proof.
  intros H. apply filter_all. intros x Hx. apply negb_true_iff, memn_false. intros [->|[]]. exact (H Hx).
Qed.
Lemma reap_single_added id T : ~ In id T -> filter (fun t => negb (memn t [id])) (addn id T) = T.
Proof.
  intros H. unfold addn. rewrite (proj2 (memn_false _ _) H), filter_app. cbn.
  rewrite (proj2 (memn_In id [id])) by (left; reflexivity). cbn. rewrite app_nil_r. apply reap_single_absent. exact H.
Qed.

Lemma leg_cycle_inverse cfg u L : d16_notify_del_return cfg = false ->
  foreign (u_id u) (l_state L) -> foreign (u_id u) (l_event L) -> ~ In (u_id u) (l_tasks L) -> l_reap L = [] ->
  bus0_exact (l_event L) (l_bus L) -> leg_cycle cfg u L = L.
Proof.
  intros D16 FS FE FT WR WB. unfold leg_cycle, reap.
  rewrite leg_stop_running_nf, leg_unsub_nf, leg_prologue_nf, D16. unfold leg_start.
  apply ledger_eq; cbn [fst l_state l_event l_bus l_tasks l_reap l_svc set_tasks set_reap]; try reflexivity.
  - apply st_unsub_sub. exact FS.
  - apply ev_unsub_sub. exact FE.
  - apply bus0_unsub_sub; assumption.
  - rewrite WR. change (addn (u_id u) []) with [u_id u]. destruct (u_persistent u); [apply reap_single_added; exact FT|].
    rewrite (deln_addn _ _ FT). apply reap_single_absent. exact FT.
  - symmetry. exact WR.
Qed.

Lemma dec_cycle_inverse cfg u L : d16_notify_del_return cfg = false ->
  foreign (u_id u) (l_state L) -> foreign (u_id u) (l_bus L) -> ~ In (u_id u) (l_tasks L) -> dec_cycle cfg u L = L.
Proof.
  intros D16 FS FB FT. unfold dec_cycle. rewrite dec_stop_nf, dec_start_nf, D16.
  apply ledger_eq; cbn [fst l_state l_event l_bus l_tasks l_reap l_svc]; try reflexivity.
  - apply st_unsub_sub. exact FS.
  - apply ev_unsub_sub. exact FB.
  - destruct (dec_tasks_cases u (l_tasks L)) as [E|E]; rewrite E; [apply deln_notin|apply deln_addn]; exact FT.
Qed.

Lemma cycle_inverse cfg : all_off cfg -> forall L u, id_fresh (u_id u) L ->
  (ledger_wf L -> leg_cycle cfg u L = L) /\ dec_cycle cfg u L = L.
Proof.
  (* by conversion: [id_fresh] is [foreign] of each table, the first clause of [ledger_wf] is [bus0_exact] *)
  intros [D16 _] L u [_ [FS [FE [FB [FT _]]]]]. split; [intros [WB [WR _]]|]; [apply leg_cycle_inverse|apply dec_cycle_inverse]; assumption.
Qed.

(* upper bounds on L' after a stop / a start of u; [stopped], [started] (LifeLedgerSys.v) build on them.  [released] is silent on
   the reaper queue: a legacy stop adds to it *)
Record released (nw : bool) (u : unit_) (L L' : ledger) : Prop := {
  rl_tab : forall t p, In p (tab t L') -> In p (tab t L) /\ ~ entry nw u t p;
  rl_bus0 : bus0_ok (l_event L) (l_bus L) -> bus0_ok (l_event L') (l_bus L');
  rl_tasks : forall t, In t (l_tasks L') -> In t (l_tasks L)
}.
(* [aq_tab], third case: the shared listener (ev, 0) of a legacy prologue belongs to no unit *)
Record acquired (nw : bool) (u : unit_) (L L' : ledger) : Prop := {
  aq_tab : forall t p, In p (tab t L') -> In p (tab t L) \/ entry nw u t p \/ t = TBus /\ snd p = 0;
  aq_bus0 : bus0_ok (l_event L) (l_bus L) -> bus0_ok (l_event L') (l_bus L');
  aq_tasks : forall t, In t (l_tasks L') -> In t (l_tasks L) \/ t = u_id u;
  aq_reap : l_reap L' = l_reap L
}.

Lemma released_set_reap nw u L L' x : released nw u L L' -> released nw u L (set_reap L' x).
Proof. intros [RE RZ RT]. constructor; assumption. Qed.

Lemma leg_unsub_released cfg u L : d16_notify_del_return cfg = false -> released false u L (leg_unsub cfg u L).
Proof.
  intros D. rewrite leg_unsub_nf, D. constructor; cbn [l_event l_bus l_tasks].
  - intros [] p; cbn [tab entry l_state l_event l_bus]; intros H.
    + apply In_st_unsub, H.
    + apply In_ev_unsub in H. split; [apply H|]. intros [X _]. exact (proj2 H X).
    + split; [exact (In_bus0_unsub _ _ _ _ H)|]. intros [_ X]. discriminate.
  - apply bus0_unsub_ok.
  - auto.
Qed.
Lemma dec_stop_released cfg u L : d16_notify_del_return cfg = false -> released true u L (fst (dec_stop cfg u L)).
Proof.
  intros D. rewrite dec_stop_nf, D. constructor; cbn [fst l_event l_bus l_tasks].
  - intros [] p; cbn [tab entry l_state l_event l_bus]; intros H.
    + apply In_st_unsub, H.
    + split; [exact H|]. intros [_ X]. discriminate.
    + apply In_ev_unsub in H. split; [apply H|]. intros [X _]. exact (proj2 H X).
  - intros OK ev H. apply OK. apply In_ev_unsub in H. apply H.
  - intros t H. apply In_deln in H. apply H.
Qed.
Lemma leg_prologue_acquired u L : acquired false u L (fst (leg_prologue u L)).
Proof.
  rewrite leg_prologue_nf. constructor; cbn [fst l_event l_bus l_tasks l_reap].
  - intros [] p; cbn [tab entry l_state l_event l_bus]; intros H.
    + apply In_st_sub in H. tauto.
    + apply In_ev_sub in H. tauto.
    + apply In_bus0_sub in H. tauto.
  - apply bus0_sub_ok.
  - intros t H. left. destruct (u_persistent u); [exact H|apply In_deln in H; apply H].
  - reflexivity.
Qed.
Lemma dec_start_acquired u L : u_id u <> 0 -> acquired true u L (fst (dec_start u L)).
Proof.
  intros NZ. rewrite dec_start_nf. constructor; cbn [fst l_event l_bus l_tasks l_reap].
  - intros [] p; cbn [tab entry l_state l_event l_bus]; intros H.
    + apply In_st_sub in H. tauto.
    + auto.
    + apply In_ev_sub in H. tauto.
  - (* the unit's own listener is not a shared one *)
    intros OK ev H. apply In_ev_sub in H. destruct H as [H|[Z _]]; [exact (OK ev H)|]. exfalso. apply NZ. symmetry. exact Z.
  - intros t H. destruct (dec_tasks_cases u (l_tasks L)) as [E|E]; rewrite E in H; [auto|apply In_addn, H].
  - reflexivity.
Qed.

(* entries and tasks taken away: a watcher died, the reaper ran *)
Record less (L L' : ledger) : Prop := {
  ls_tab : forall t p, In p (tab t L') -> In p (tab t L);
  ls_bus0 : bus0_ok (l_event L) (l_bus L) -> bus0_ok (l_event L') (l_bus L');
  ls_reap : forall t, In t (l_reap L') -> In t (l_reap L);
  ls_tasks : forall t, In t (l_tasks L') -> In t (l_tasks L) /\ (In t (l_reap L) -> In t (l_reap L'));
  ls_svc : l_svc L' = l_svc L
}.

Lemma reap_less L : less L (reap L).
Proof.
  unfold reap. constructor; cbn [l_tasks l_reap l_svc set_reap set_tasks]; auto.
  - (* ls_reap *) intros t [].
  - (* ls_tasks: what the reaper leaves was not queued *)
    intros t H. apply filter_In in H. destruct H as [H NR]. split; [exact H|]. intros R.
    apply negb_true_iff, memn_false in NR. destruct (NR R).
Qed.

(* a _cycle task ends *)
Lemma task_end_less id L : less L (set_tasks L (deln id (l_tasks L))).
Proof. constructor; auto. intros t H. cbn [l_tasks set_tasks] in H. apply In_deln in H. split; [apply H|auto]. Qed.

Lemma leg_crash_less cfg u L : d16_notify_del_return cfg = false -> less L (leg_crash cfg u L).
Proof.
  intros D16. rewrite leg_crash_nf. destruct (leg_unsub_released cfg u L D16) as [RE RZ _]. rewrite leg_unsub_nf in *.
  constructor; cbn [l_tasks l_reap l_svc set_tasks]; auto.
  - (* ls_tab *) intros t p H. apply (RE t p). destruct t; exact H.
  - (* ls_tasks *) intros t H. apply In_deln in H. split; [apply H|auto].
Qed.

Definition owns (W : world) (f : func) (u : unit_) : Prop := In f (w_funcs W) /\ In u (f_units f).

(* generations and unit ids come from the one counter [w_next] *)
Record ids_ok (W : world) : Prop := {
  io_next : 0 < w_next W;
  io_gen : forall f, In f (w_funcs W) -> 0 < f_gen f /\ f_gen f < w_next W;
  io_unit : forall f u, owns W f u -> u_gen u = f_gen f /\ f_gen f < u_id u /\ u_id u < w_next W;
  io_uniq : forall f1 u1 f2 u2, owns W f1 u1 -> owns W f2 u2 -> u_id u1 = u_id u2 -> f1 = f2 /\ u1 = u2;
  io_guniq : forall f1 f2, In f1 (w_funcs W) -> In f2 (w_funcs W) -> f_gen f1 = f_gen f2 -> f1 = f2
}.

(* [so_zomb]: zombies arise with D91 only; why [Inv] is kept only with D91 off *)
Record stat_ok (W : world) : Prop := {
  so_run : forall id, In id (w_running W) -> exists f u, owns W f u /\ u_id u = id /\
             In (f_gen f) (w_active W) /\ ~ In (f_gen f) (w_delayed W);
  so_pend : forall id, In id (w_pending W) -> exists f u, owns W f u /\ u_id u = id /\ f_new f = false /\
             In (f_gen f) (w_active W) /\ ~ In (f_gen f) (w_delayed W);
  so_disj : forall id, In id (w_pending W) -> ~ In id (w_running W);
  so_act : forall g, In g (w_active W) -> exists f, In f (w_funcs W) /\ f_gen f = g;
  so_zomb : w_zombie W = []
}.

(* every entry has a holder: why a world without active functions has the empty ledger once the reaper has run *)
Record led_ok (W : world) : Prop := {
  ok_state : forall e q, In (e, q) (l_state (w_led W)) -> In q (w_running W) /\
     exists f u ids, owns W f u /\ u_id u = q /\ u_state u = Some ids /\ In e (ident_keys ids);
  ok_event : forall ev q, In (ev, q) (l_event (w_led W)) -> In q (w_running W) /\
     exists f u, owns W f u /\ u_id u = q /\ u_event u = Some ev /\ f_new f = false;
  ok_bus : forall ev o, In (ev, o) (l_bus (w_led W)) ->
     (o = 0 /\ has_fst ev (l_event (w_led W)) = true) \/
     (In o (w_running W) /\ exists f u, owns W f u /\ u_id u = o /\ u_event u = Some ev /\ f_new f = true);
  ok_tasks : forall t, In t (l_tasks (w_led W)) -> In t (l_reap (w_led W)) \/ In t (w_pending W) \/ In t (w_running W);
  ok_svc : forall g, In g (l_svc (w_led W)) -> In g (w_active W) /\ exists f, In f (w_funcs W) /\ f_gen f = g /\ is_some (f_svc f) = true /\
             (f_new f = true -> ~ In g (w_delayed W))
}.

Definition Inv (W : world) : Prop := ids_ok W /\ stat_ok W /\ led_ok W.

Lemma Inv0 : Inv world0.
Proof.
  split; [|split]; constructor; cbn; try (intros; contradiction); try reflexivity.
  - (* io_unit *) intros f u [[] _].
  - (* io_uniq *) intros f1 u1 f2 u2 [[] _].
Qed.

Lemma unit_id_nz W f u : ids_ok W -> owns W f u -> u_id u <> 0.
Proof.
  intros I O. destruct (io_unit W I f u O) as [_ [A _]]. destruct O as [Hf _].
  destruct (io_gen W I f Hf) as [B _]. lia.
Qed.

(* [ok_svc].  Last clause: the @service of the new subsystem registers in start(), so a delayed manager has none and [dm_discard]
   need not remove one *)
Definition svc_held (W : world) (g : N) : Prop :=
  In g (w_active W) /\ exists f, In f (w_funcs W) /\ f_gen f = g /\ is_some (f_svc f) = true /\
    (f_new f = true -> ~ In g (w_delayed W)).

(* [led_ok] on the three tables as one statement: a shared legacy listener, or the entry of a started unit *)
Definition held (W : world) (t : tbl) (p : N * N) : Prop :=
  t = TBus /\ snd p = 0 \/ In (snd p) (w_running W) /\ exists f u, owns W f u /\ entry (f_new f) u t p.

Lemma led_held W t p : led_ok W -> In p (tab t (w_led W)) -> held W t p.
Proof.
  intros L H. destruct p as [e q]. unfold held, entry, st_entry, ev_entry. cbn [fst snd]. destruct t; cbn [tab] in H.
  - destruct (ok_state W L e q H) as [R [f [u [ids [O [<- X]]]]]]. right. split; [exact R|]. exists f, u. eauto.
  - destruct (ok_event W L e q H) as [R [f [u [O [<- X]]]]]. right. split; [exact R|]. exists f, u. tauto.
  - destruct (ok_bus W L e q H) as [[Z _]|[R [f [u [O [<- X]]]]]]; [left; auto|right]. split; [exact R|]. exists f, u. tauto.
Qed.
Lemma led_ok_of_held W : (forall t p, In p (tab t (w_led W)) -> held W t p) -> bus0_ok (l_event (w_led W)) (l_bus (w_led W)) ->
  (forall t, In t (l_tasks (w_led W)) -> In t (l_reap (w_led W)) \/ In t (w_pending W) \/ In t (w_running W)) ->
  (forall g, In g (l_svc (w_led W)) -> svc_held W g) -> led_ok W.
Proof.
  intros H Z HT HV. unfold held, entry, st_entry, ev_entry in H. constructor; [| | |exact HT|exact HV]; intros e q K.
  - destruct (H TState _ K) as [[C _]|[R [f [u [O [E [ids X]]]]]]]; [discriminate|]. split; [exact R|]. exists f, u, ids. auto.
  - destruct (H TEvent _ K) as [[C _]|[R [f [u [O [[E X] NF]]]]]]; [discriminate|]. split; [exact R|]. exists f, u. auto.
  - destruct (H TBus _ K) as [[_ C]|[R [f [u [O [[E X] NF]]]]]]; cbn [fst snd] in *.
    + subst q. left. split; [reflexivity|exact (Z e K)].
    + right. split; [exact R|]. exists f, u. auto.
Qed.

Lemma own_entry W f u t p : Inv W -> owns W f u -> In p (tab t (w_led W)) -> snd p = u_id u -> entry (f_new f) u t p.
Proof.
  intros [I [_ L]] O H E. destruct (led_held W t p L H) as [[_ Z]|[_ [f' [u' [O' X]]]]].
  - rewrite E in Z. destruct (unit_id_nz W f u I O Z).
  - rewrite (entry_id _ _ _ _ X) in E. destruct (io_uniq W I f' u' f u O' O E) as [-> ->]. exact X.
Qed.
Lemma bus0_inv W : Inv W -> bus0_ok (l_event (w_led W)) (l_bus (w_led W)).
Proof.
  intros [I [S L]] ev H. destruct (ok_bus W L ev 0 H) as [[_ X]|[R _]]; [exact X|].
  exfalso. destruct (so_run W S 0 R) as [f [u [O [E _]]]]. exact (unit_id_nz W f u I O E).
Qed.
Lemma running_unit W f u : Inv W -> owns W f u -> In (u_id u) (w_running W) ->
  In (f_gen f) (w_active W) /\ ~ In (f_gen f) (w_delayed W).
Proof.
  intros [I [S _]] O H. destruct (so_run W S _ H) as [f' [u' [O' [E' X]]]].
  destruct (io_uniq W I f' u' f u O' O E') as [-> _]. exact X.
Qed.
Lemma pending_unit W f u : Inv W -> owns W f u -> In (u_id u) (w_pending W) ->
  f_new f = false /\ In (f_gen f) (w_active W) /\ ~ In (f_gen f) (w_delayed W).
Proof.
  intros [I [S _]] O H. destruct (so_pend W S _ H) as [f' [u' [O' [E' X]]]].
  destruct (io_uniq W I f' u' f u O' O E') as [-> _]. exact X.
Qed.
Lemma new_not_pending W f u : Inv W -> owns W f u -> f_new f = true -> ~ In (u_id u) (w_pending W).
Proof. intros HI O NF H. destruct (pending_unit W f u HI O H) as [NF' _]. congruence. Qed.

(* what [stop_frame] (LifeLedgerSys.v) says of the function table *)
Definition same_tables (W W' : world) : Prop := w_funcs W' = w_funcs W /\ w_next W' = w_next W.
