(* The install decision: gate, foreign packages untouched, own packages updated iff the pin differs, and the record matches
   what was installed (C20, second sentence).  First the parts of a run, key by key: the loop ([plan_spec]) and the end of
   the run ([finish_lookup]).  Section Run derives every statement about one completed run from [install_args_iff] (what is
   handed to the installer) and, for a record with distinct keys, [install_key] (what the record holds afterwards); after
   it, the same for the table that [process_all] computes. *)
From PV Require Import Common.Util Gen.ReqConsts Req.Merge Req.Install Req.Spec Proofs.ReqMerge.

Lemma alookup_aset k k' v a : alookup k' (aset k v a) = if str_eqb k' k then Some v else alookup k' a.
Proof. exact (al_get_set _ str_eqb_eq k k' v a). Qed.
Lemma alookup_aset_other k v a p : p <> k -> alookup p (aset k v a) = alookup p a.
Proof. intros H. rewrite alookup_aset, (str_eqb_neq p k H). reflexivity. Qed.
Lemma alookup_None k a : alookup k a = None -> ~ In k (map fst a).
Proof. exact (proj1 (al_get_None _ str_eqb_eq k a)). Qed.
Lemma In_alookup k v a : NoDup (map fst a) -> In (k, v) a -> alookup k a = Some v.
Proof. exact (al_In_get _ str_eqb_eq k v a). Qed.
Lemma alookup_notin k a : ~ In k (map fst a) -> alookup k a = None.
Proof. exact (proj2 (al_get_None _ str_eqb_eq k a)). Qed.

Lemma alookup_aremove k k' a : alookup k' (aremove k a) = if str_eqb k' k then None else alookup k' a.
Proof.
  transitivity (if negb (str_eqb k k') then alookup k' a else None).
  - exact (al_get_filter _ str_eqb_eq (fun x => negb (str_eqb k x)) k' a).
  - rewrite (str_eqb_sym k k'). destruct (str_eqb k' k); reflexivity.
Qed.

Lemma aremove_NoDup k a : NoDup (map fst a) -> NoDup (map fst (aremove k a)).
Proof. apply NoDup_map_filter. Qed.

(* a fold of updates, each of the entry of one key *)
Section FoldUpdate.
  Context {B : Type} (upd : alist -> str * B -> alist) (val : str * B -> option str).
  Hypothesis upd_other : forall a x p, p <> fst x -> alookup p (upd a x) = alookup p a.
  Hypothesis upd_same : forall a x, alookup (fst x) (upd a x) = val x.

  Lemma fold_upd_other l : forall a p, ~ In p (map fst l) -> alookup p (fold_left upd l a) = alookup p a.
  Proof.
    intros a p Hn. apply (fold_left_inv (fun a' => alookup p a' = alookup p a)); [|reflexivity].
    intros a' x Hx <-. apply upd_other. intros ->. exact (Hn (in_map fst l x Hx)).
  Qed.

  Lemma fold_upd_in l a p w : (forall w', In (p, w') l -> w' = w) -> In (p, w) l ->
    alookup p (fold_left upd l a) = val (p, w).
  Proof.
    induction l as [|[n w0] l IH] using rev_ind; intros Hu Hin; [destruct Hin|].
    rewrite fold_left_app. cbn [fold_left]. destruct (str_eqb_spec p n) as [<-|Hn].
    - rewrite (Hu w0) by (apply in_or_app; right; left; reflexivity). apply (upd_same _ (p, w)).
    - rewrite upd_other by exact Hn. apply in_app_or in Hin as [Hin|[E|[]]]; [|congruence].
      apply IH; [intros w' Hw'; apply Hu, in_or_app; left; exact Hw'|exact Hin].
  Qed.
End FoldUpdate.

Section InstallProofs.
  Variable vvalid : str -> bool.
  Variable vle : str -> str -> bool.

  Local Notation decide_pkg := (decide_pkg vvalid vle).
  Local Notation plan := (plan vvalid vle).
  Local Notation install := (install vvalid vle).
  Local Notation install_plan := (install_plan vvalid vle).
  Local Notation veq := (veq vle).

  Definition decision (rec : alist) (n : str) (e : entry) : pdec := decide_pkg (alookup n rec) (e_inst e) (e_ver e).

  Lemma decide_keep_inv recv inst want v : decide_pkg recv inst want = DKeep -> recv = Some v ->
    exists iv, truthy inst = Some iv /\ (v = iv \/ (vvalid v = true /\ vvalid iv = true /\ veq v iv = true)).
  Proof.
    unfold Install.decide_pkg. intros H ->. destruct (truthy inst) as [iv|]; [|discriminate].
    exists iv. split; [reflexivity|]. destruct want as [w|].
    - destruct (vvalid v), (vvalid iv); cbn [negb orb] in H; try discriminate.
      destruct (veq v iv); cbn [negb] in H; [|discriminate]. right. tauto.
    - destruct (str_eqb_spec v iv) as [->|_]; cbn [negb] in H; [|discriminate]. left. reflexivity.
  Qed.

  Lemma plan_cons rec n0 e0 r todo res : plan rec ((n0, e0) :: r) todo = Some res ->
    exists rec' todo', plan rec' r todo' = Some res
      /\ decision rec n0 e0 <> DRaise
      /\ (forall n, alookup n rec' =
            if str_eqb n n0 then match decision rec n0 e0 with DDrop => None | _ => alookup n0 rec end else alookup n rec)
      /\ (forall a, In a todo' <-> In a todo \/ (decision rec n0 e0 = DInstall /\ a = (n0, e_ver e0))).
  Proof.
    unfold decision. cbn [Install.plan]. intros H.
    destruct (decide_pkg (alookup n0 rec) (e_inst e0) (e_ver e0)).
    - (* DInstall *)
      exists rec, (todo ++ [(n0, e_ver e0)]). split; [exact H|]. split; [discriminate|]. split.
      + intros n. destruct (str_eqb_spec n n0) as [->|]; reflexivity.
      + intros a. rewrite in_app_iff. cbn [In]. intuition congruence.
    - (* DKeep *)
      exists rec, todo. split; [exact H|]. split; [discriminate|]. split.
      + intros n. destruct (str_eqb_spec n n0) as [->|]; reflexivity.
      + intuition discriminate.
    - (* DDrop *)
      exists (aremove n0 rec), todo. split; [exact H|]. split; [discriminate|]. split.
      + intros n. apply alookup_aremove.
      + intuition discriminate.
    - (* DRaise *)
      discriminate H.
  Qed.

  (* the keys of the table are distinct, so the turn of a key sees the record as it was *)
  Lemma plan_spec : forall t rec todo rec1 todo1, NoDup (map fst t) -> plan rec t todo = Some (rec1, todo1) ->
    forall n,
    match tlookup n t with
    | Some e => decision rec n e <> DRaise
                /\ alookup n rec1 = match decision rec n e with DDrop => None | _ => alookup n rec end
                /\ forall w, In (n, w) todo1 <-> In (n, w) todo \/ (decision rec n e = DInstall /\ w = e_ver e)
    | None => alookup n rec1 = alookup n rec /\ forall w, In (n, w) todo1 <-> In (n, w) todo
    end.
  Proof.
    induction t as [|[n0 e0] r IH]; intros rec todo rec1 todo1 ND H n.
    - injection H as <- <-. split; reflexivity.
    - cbn [map fst] in ND. inversion ND as [|? ? Hn0 ND']; subst.
      apply plan_cons in H as (rec' & todo' & H & NR & Hrec & Htodo).
      specialize (IH _ _ _ _ ND' H n). unfold decision in *. rewrite Hrec in IH. cbn [tlookup].
      destruct (str_eqb_spec n n0) as [->|Hn].
      + rewrite (tlookup_notin n0 r Hn0) in IH. destruct IH as [-> T].
        split; [exact NR|]. split; [reflexivity|]. intros w. rewrite T, Htodo. intuition congruence.
      + assert (T : forall w, In (n, w) todo' <-> In (n, w) todo) by (intros w; rewrite Htodo; intuition congruence).
        destruct (tlookup n r); setoid_rewrite T in IH; exact IH.
  Qed.

  Lemma plan_NoDup : forall t rec todo rec1 todo1, NoDup (map fst rec) -> plan rec t todo = Some (rec1, todo1) ->
    NoDup (map fst rec1).
  Proof.
    induction t as [|[n e] t IH]; intros rec todo rec1 todo1 ND H; cbn [Install.plan] in H; [injection H as <- _; exact ND|].
    destruct (decide_pkg (alookup n rec) (e_inst e) (e_ver e)).
    - (* DInstall *) exact (IH _ _ _ _ ND H).
    - (* DKeep *) exact (IH _ _ _ _ ND H).
    - (* DDrop *) exact (IH _ _ _ _ (aremove_NoDup n rec ND) H).
    - (* DRaise *) discriminate H.
  Qed.

  Definition set_all (todo : plan_t) (a : alist) : alist := fold_left (fun a p => aset (fst p) (ver_str (snd p)) a) todo a.

  Lemma set_all_other todo a p : ~ In p (map fst todo) -> alookup p (set_all todo a) = alookup p a.
  Proof. apply fold_upd_other. intros a' x q. apply alookup_aset_other. Qed.

  Lemma set_all_in todo a p w : (forall w', In (p, w') todo -> w' = w) -> In (p, w) todo ->
    alookup p (set_all todo a) = Some (ver_str w).
  Proof.
    apply (fold_upd_in _ (fun x => Some (ver_str (snd x)))).
    - intros a' x q. apply alookup_aset_other.
    - intros a' x. rewrite alookup_aset, str_eqb_refl. reflexivity.
  Qed.

  Lemma set_all_NoDup todo a : NoDup (map fst a) -> NoDup (map fst (set_all todo a)).
  Proof. apply (fold_left_inv (fun a => NoDup (map fst a))). intros a' x _. apply (al_set_NoDup _ str_eqb_eq). Qed.

  (* how update_unpinned_versions reads an entry of package p: the marker gives way to the version found installed *)
  Definition unmark (ia : str -> option str) (p : str) (o : option str) : option str :=
    match o with
    | Some v => if str_eqb v unpinned_version then truthy (ia p) else Some v
    | None => None
    end.

  Lemma truthy_some o v : truthy o = Some v -> o = Some v.
  Proof. destruct o as [[|c r]|]; cbn; intros [= <-]; reflexivity. Qed.

  Lemma unmark_clean ia p o v : (forall x, ia p = Some x -> str_eqb x unpinned_version = false) ->
    unmark ia p o = Some v -> str_eqb v unpinned_version = false.
  Proof.
    intros CE. destruct o as [x|]; [cbn [unmark]|discriminate]. destruct (str_eqb x unpinned_version) eqn:E.
    - intros H. exact (CE v (truthy_some _ _ H)).
    - intros [= <-]. exact E.
  Qed.

  Lemma update_unpinned_lookup ia a p : NoDup (map fst a) ->
    alookup p (update_unpinned ia a) = unmark ia p (alookup p a).
  Proof.
    unfold update_unpinned. induction a as [|[k v] r IH]; intros ND; [reflexivity|].
    cbn [map fst] in ND. inversion ND as [|? ? Hk ND']; subst.
    cbn [flat_map fst snd alookup]. specialize (IH ND').
    destruct (str_eqb_spec p k) as [->|Hp].
    - cbn [unmark]. destruct (str_eqb v unpinned_version); [destruct (truthy (ia k)) as [iv|]|];
        cbn [app alookup]; rewrite ?str_eqb_refl; try reflexivity.
      (* the entry is dropped, and no later one has its key *)
      rewrite IH, (alookup_notin k r Hk). reflexivity.
    - destruct (str_eqb v unpinned_version); [destruct (truthy (ia k))|];
        cbn [app alookup]; rewrite ?(str_eqb_neq p k Hp); exact IH.
  Qed.

  Lemma update_unpinned_keys ia a : map fst (update_unpinned ia a) =
    map fst (filter (fun kv => negb (str_eqb (snd kv) unpinned_version)
                               || match truthy (ia (fst kv)) with Some _ => true | None => false end) a).
  Proof.
    unfold update_unpinned. induction a as [|[k v] a IH]; [reflexivity|]. cbn [flat_map filter fst snd].
    rewrite map_app, IH. destruct (str_eqb v unpinned_version); [destruct (truthy (ia k))|]; reflexivity.
  Qed.

  Lemma dict_sub_lookup a b k v : dict_sub a b = true -> alookup k a = Some v -> alookup k b = Some v.
  Proof.
    unfold dict_sub. intros H Hl. rewrite forallb_forall in H. specialize (H (k, v) (al_get_In _ str_eqb_eq _ _ _ Hl)). cbn [fst snd] in H.
    destruct (alookup k b) as [v'|]; [|discriminate]. apply str_eqb_eq in H. subst. reflexivity.
  Qed.

  Lemma dict_eqb_lookup a b k : dict_eqb a b = true -> alookup k a = alookup k b.
  Proof.
    unfold dict_eqb. intros H. apply andb_true_iff in H as [H1 H2].
    destruct (alookup k a) as [v|] eqn:Ea.
    - symmetry. exact (dict_sub_lookup a b k v H1 Ea).
    - destruct (alookup k b) as [v|] eqn:Eb; [|reflexivity].
      rewrite (dict_sub_lookup b a k v H2 Eb) in Ea. discriminate.
  Qed.

  Definition no_marker (a : alist) : Prop := forall k v, alookup k a = Some v -> str_eqb v unpinned_version = false.

  Lemma unmark_no_marker ia a p : no_marker a -> unmark ia p (alookup p a) = alookup p a.
  Proof. intros NM. destruct (alookup p a) as [v|] eqn:E; [|reflexivity]. cbn [unmark]. rewrite (NM p v E). reflexivity. Qed.

  Lemma finish_lookup ia rec0 rec1 todo r u p : NoDup (map fst rec1) ->
    install_finish ia rec0 rec1 todo = (r, u) ->
    alookup p r = unmark ia p (alookup p (set_all todo rec1)).
  Proof.
    intros ND. unfold install_finish. fold (set_all todo rec1).
    set (rec2 := set_all todo rec1).
    set (rec3 := if existsb (fun kv => str_eqb (snd kv) unpinned_version) rec2 then update_unpinned ia rec2 else rec2).
    assert (H3 : alookup p rec3 = unmark ia p (alookup p rec2)).
    { subst rec3. destruct (existsb _ rec2) eqn:Ex; [apply update_unpinned_lookup, set_all_NoDup, ND|].
      (* update_unpinned_versions is skipped: no entry holds the marker *)
      unfold unmark. destruct (alookup p rec2) as [v|] eqn:El; [|reflexivity].
      destruct (str_eqb v unpinned_version) eqn:Ev; [|reflexivity].
      apply not_true_iff_false in Ex. destruct Ex. apply existsb_exists. exists (p, v).
      split; [exact (al_get_In _ str_eqb_eq _ _ _ El)|exact Ev]. }
    destruct (dict_eqb rec3 rec0) eqn:Eq; intros [= <- _]; [|exact H3].
    rewrite <- (dict_eqb_lookup rec3 rec0 p Eq). exact H3.
  Qed.

  Theorem install_gate ia rec0 t todo r u : install false ia rec0 t = ODone todo r u -> todo = [].
  Proof.
    unfold Install.install, Install.install_plan. destruct t as [|x t]; [|discriminate].
    cbn. destruct (install_finish ia rec0 rec0 []). intros [= <- _ _]. reflexivity.
  Qed.

  Lemma install_done allow ia rec0 t todo r u : install allow ia rec0 t = ODone todo r u ->
    exists rec1, plan rec0 t [] = Some (rec1, todo) /\ install_finish ia rec0 rec1 todo = (r, u).
  Proof.
    unfold Install.install, Install.install_plan. intros H.
    (* only a table with entries is gated *)
    destruct t as [|x t']; [|destruct allow; [|discriminate H]]; cbn [negb] in H.
    all: destruct (plan rec0 _ []) as [[rec1 todo0]|]; [|discriminate H].
    all: destruct (install_finish ia rec0 rec1 todo0) eqn:F; injection H as <- <- <-; eauto.
  Qed.

  (* the version an installer call leaves installed for one of its arguments: the pin, or what is found afterwards *)
  Definition arg_ver (ia : str -> option str) (a : str * option str) : option str :=
    match snd a with Some w => Some w | None => truthy (ia (fst a)) end.

  Section Run.
    Variables (inst : str -> option str) (t : table).
    Hypothesis WF : table_wf inst t.
    Variables (allow : bool) (ia : str -> option str) (rec0 : alist) (todo : plan_t) (r : alist) (u : bool).
    Hypothesis Hrun : install allow ia rec0 t = ODone todo r u.

    Theorem install_args_iff n w : In (n, w) todo <->
      exists e, tlookup n t = Some e /\ w = e_ver e /\ decide_pkg (alookup n rec0) (inst n) (e_ver e) = DInstall.
    Proof.
      destruct WF as [ND Hi]. destruct (install_done _ _ _ _ _ _ _ Hrun) as (rec1 & Hp & _).
      pose proof (plan_spec t rec0 [] rec1 todo ND Hp n) as S. unfold decision in S.
      destruct (tlookup n t) as [e|] eqn:Hl.
      - destruct S as (_ & _ & ->). rewrite (proj1 (Hi n e Hl)). split.
        + intros [[]|[Hd ->]]. eauto.
        + intros (e' & [= <-] & -> & Hd). right. split; [exact Hd|reflexivity].
      - destruct S as (_ & ->). split; [intros []|intros (e & [=] & _)].
    Qed.

    Lemma install_args_unique p w : In (p, w) todo -> forall w', In (p, w') todo -> w' = w.
    Proof. intros H1 w' H2. apply install_args_iff in H1 as (e1 & L1 & -> & _), H2 as (e2 & L2 & -> & _). congruence. Qed.

    Lemma install_keys_iff p e : tlookup p t = Some e ->
      In p (map fst todo) <-> decide_pkg (alookup p rec0) (inst p) (e_ver e) = DInstall.
    Proof.
      intros Hl. split.
      - intros Hin. apply in_map_iff in Hin as ([n w] & <- & Hin). cbn [fst] in *.
        apply install_args_iff in Hin as (e' & Hl' & _ & Hd). congruence.
      - intros Hd. apply (in_map fst _ (p, e_ver e)), install_args_iff. eauto.
    Qed.

    (* a package installed by something other than pyscript (not in the record, or recorded at another version) is never
       handed to the installer *)
    Theorem install_foreign p iv : truthy (inst p) = Some iv ->
      (alookup p rec0 = None \/ exists rv, alookup p rec0 = Some rv /\ veq rv iv = false) ->
      ~ In p (map fst todo).
    Proof.
      intros Hi Hf Hin. apply in_map_iff in Hin as ([n w] & <- & Hin).
      apply install_args_iff in Hin as (e & _ & _ & Hd). cbn [fst] in *.
      unfold Install.decide_pkg in Hd. rewrite Hi in Hd.
      destruct Hf as [Hf|(rv & Hf & Hq)]; rewrite Hf in Hd; destruct (e_ver e); try discriminate.
      - destruct (_ || _); [discriminate|]. rewrite Hq in Hd. discriminate.
      - destruct (negb _); discriminate.
    Qed.

    (* a package pyscript installed itself (recorded at the installed version) is handed to the installer iff the pinned
       version differs from the installed one; an unpinned requirement never touches it *)
    Theorem install_own p iv rv e : truthy (inst p) = Some iv -> alookup p rec0 = Some rv ->
      vvalid rv = true -> vvalid iv = true -> veq rv iv = true ->
      tlookup p t = Some e ->
      match e_ver e with
      | Some w => vvalid w = true -> (In p (map fst todo) <-> veq w iv = false)
      | None => ~ In p (map fst todo)
      end.
    Proof.
      intros Hi Hr Vr Vi Eq Hl. pose proof (install_keys_iff p e Hl) as K.
      unfold Install.decide_pkg in K. rewrite Hi, Hr, Vr, Vi, Eq in K. cbn [negb orb] in K.
      destruct (e_ver e) as [w|].
      - intros Vw. rewrite Vw in K. cbn [negb] in K. rewrite K. destruct (veq w iv); cbn [negb]; split; congruence.
      - rewrite K. destruct (negb _); discriminate.
    Qed.

    Hypothesis ND0 : NoDup (map fst rec0).

    (* what a completed run leaves under key p: the loop's decision, the version handed to the installer written over it,
       the marker replaced by the version found afterwards *)
    Definition key_after (p : str) (oe : option entry) (recv : option str) : option str :=
      unmark ia p match oe with
                  | Some e => match decide_pkg recv (inst p) (e_ver e) with
                              | DInstall => Some (ver_str (e_ver e))
                              | DDrop => None
                              | _ => recv
                              end
                  | None => recv
                  end.

    Theorem install_key p :
      alookup p r = key_after p (tlookup p t) (alookup p rec0)
      /\ forall e, tlookup p t = Some e -> decide_pkg (alookup p rec0) (inst p) (e_ver e) <> DRaise.
    Proof.
      destruct (install_done _ _ _ _ _ _ _ Hrun) as (rec1 & Hp & Hf).
      rewrite (finish_lookup ia rec0 rec1 todo r u p (plan_NoDup _ _ _ _ _ ND0 Hp) Hf). unfold key_after.
      pose proof (plan_spec t rec0 [] rec1 todo (proj1 WF) Hp p) as S. unfold decision in S.
      destruct (tlookup p t) as [e|] eqn:Hl.
      - rewrite (proj1 (proj2 WF p e Hl)) in S. destruct S as (NR & E1 & T).
        split; [f_equal|intros e' [= <-]; exact NR]. pose proof (install_keys_iff p e Hl) as K.
        destruct (decide_pkg (alookup p rec0) (inst p) (e_ver e));
          [|(* DKeep, DDrop, DRaise *) rewrite set_all_other; [exact E1|rewrite K; discriminate]..].
        (* DInstall *)
        assert (Hin : In (p, e_ver e) todo) by (apply T; right; split; reflexivity).
        apply set_all_in; [apply install_args_unique|]; exact Hin.
      - destruct S as [E1 T]. split; [f_equal|discriminate]. rewrite set_all_other; [exact E1|].
        intros Hin. apply in_map_iff in Hin as ([n w] & <- & Hin). apply T in Hin. destruct Hin.
    Qed.

    Lemma install_NoDup : NoDup (map fst r).
    Proof.
      destruct (install_done _ _ _ _ _ _ _ Hrun) as (rec1 & Hp & Hf). revert Hf.
      unfold install_finish. fold (set_all todo rec1).
      pose proof (set_all_NoDup todo rec1 (plan_NoDup _ _ _ _ _ ND0 Hp)) as N2.
      destruct (dict_eqb _ rec0); intros [= <- _]; [exact ND0|]. destruct (existsb _ _); [|exact N2].
      rewrite update_unpinned_keys. apply NoDup_map_filter, N2.
    Qed.

    Lemma install_arg_key p w : In (p, w) todo -> alookup p r = arg_ver ia (p, w).
    Proof.
      intros Hin. apply install_args_iff in Hin as (e & Hl & -> & Hd).
      rewrite (proj1 (install_key p)), Hl. unfold key_after, arg_ver. rewrite Hd.
      destruct (e_ver e) as [w|] eqn:Ew; cbn [ver_str unmark snd]; [rewrite (proj2 (proj2 WF p e Hl) w Ew)|rewrite str_eqb_refl]; reflexivity.
    Qed.

    (* an entry under a key that was not handed to the installer was there before *)
    Lemma install_kept : no_marker rec0 ->
      forall p v, alookup p r = Some v -> ~ In p (map fst todo) -> alookup p rec0 = Some v.
    Proof.
      intros NM p v Hr Hn. rewrite (proj1 (install_key p)) in Hr. unfold key_after in Hr.
      rewrite <- (unmark_no_marker ia rec0 p NM), <- Hr. f_equal.
      destruct (tlookup p t) as [e|] eqn:Hl; [|reflexivity]. rewrite (install_keys_iff p e Hl) in Hn.
      destruct (decide_pkg (alookup p rec0) (inst p) (e_ver e)).
      - (* DInstall *) destruct (Hn eq_refl).
      - (* DKeep *) reflexivity.
      - (* DDrop *) discriminate Hr.
      - (* DRaise *) reflexivity.
    Qed.

    (* pyscript's record matches what it installed *)
    Theorem install_record : no_marker rec0 ->
      (forall p w, In (p, Some w) todo -> alookup p r = Some w) /\
      (forall p, In (p, None) todo -> alookup p r = truthy (ia p)) /\
      (forall p v, alookup p r = Some v -> ~ In p (map fst todo) -> alookup p rec0 = Some v).
    Proof.
      intros NM. exact (conj (fun p w => install_arg_key p (Some w)) (conj (fun p => install_arg_key p None) (install_kept NM))).
    Qed.

    (* after a completed run the record tracks what is installed, for every required package.  The two hypotheses are on
       the installer: it changes only the packages it was asked to install, and a pin ends up installed at that version *)
    Theorem install_tracks : no_marker rec0 ->
      (forall p, ~ In p (map fst todo) -> ia p = inst p) ->
      (forall p w, In (p, Some w) todo -> truthy (ia p) = Some w) ->
      forall p e v, tlookup p t = Some e -> alookup p r = Some v ->
      exists iv, truthy (ia p) = Some iv /\ (v = iv \/ (vvalid v = true /\ vvalid iv = true /\ veq v iv = true)).
    Proof.
      intros NM Hoth Hpin p e v Hl Hr. destruct (install_key p) as [Hk NR].
      pose proof (install_keys_iff p e Hl) as K. pose proof Hr as Hr0. rewrite Hk, Hl in Hr. unfold key_after in Hr.
      destruct (decide_pkg (alookup p rec0) (inst p) (e_ver e)) eqn:D.
      - (* DInstall *)
        assert (A : In (p, e_ver e) todo) by (apply install_args_iff; eauto). exists v. split; [|left; reflexivity].
        rewrite (install_arg_key p _ A) in Hr0. destruct (e_ver e) as [w|]; [|exact Hr0]. rewrite <- Hr0. exact (Hpin p w A).
      - (* DKeep *)
        rewrite (unmark_no_marker ia rec0 p NM) in Hr. destruct (decide_keep_inv _ _ _ v D Hr) as (iv & Ti & Hv).
        exists iv. rewrite Hoth by (rewrite K; discriminate). tauto.
      - (* DDrop *) discriminate Hr.
      - (* DRaise *) destruct (NR e Hl D).
    Qed.
  End Run.

  (* with D25 off the keys are package names: no requirement handed to the installer names (after stripping) a package that
     something else installed *)
  Theorem run_foreign_pkg inst cfg files allow ia rec0 todo r u p iv : d25_no_strip cfg = false ->
    install allow ia rec0 (process_all vvalid vle inst cfg files) = ODone todo r u ->
    truthy (inst p) = Some iv ->
    (alookup p rec0 = None \/ exists rv, alookup p rec0 = Some rv /\ veq rv iv = false) ->
    ~ In p (map (fun a => strip (fst a)) todo).
  Proof.
    intros Hd H Hi Hf Hin. apply in_map_iff in Hin as ([k w] & E & Hin). cbn [fst] in E.
    pose proof (merge_lines_wf vvalid vle inst cfg (flat_lines (discover files))) as WF.
    destruct (proj1 (install_args_iff inst _ WF _ _ _ _ _ _ H k w) Hin) as (e & Hl & _).
    rewrite (merge_lines_keys_stripped vvalid vle inst cfg _ k Hd (in_map fst _ _ (al_get_In _ str_eqb_eq _ _ _ Hl))) in E. subst k.
    exact (install_foreign inst _ WF _ _ _ _ _ _ H p iv Hi Hf (in_map fst _ _ Hin)).
  Qed.
End InstallProofs.
