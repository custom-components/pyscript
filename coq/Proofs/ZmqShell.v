(* C19, second sentence, for every HMAC function, request sequence and kernel state: an unanswered request ends the
   session, an answered one writes a group that the checker of Zmq/ShellCheck.v accepts ([run_satisfies_spec]).
   A toy session with a forged request closes the file. *)
From PV Require Import Common.Util Gen.ZmqConsts Zmq.Framing Zmq.Shell Zmq.ShellCheck.

Lemma filter_repeat {A} (f : A -> bool) x n : filter f (repeat x n) = if f x then repeat x n else [].
Proof. destruct (f x) eqn:E; [apply filter_all|apply filter_none]; intros y ->%repeat_spec; exact E. Qed.

Lemma forallb_repeat {A} (f : A -> bool) x n : f x = true -> forallb f (repeat x n) = true.
Proof. intros H. apply forallb_forall. intros y ->%repeat_spec. exact H. Qed.

Lemma iter_cons_repeat {A} (x : A) n : N.iter n (cons x) [] = repeat x (N.to_nat n).
Proof. rewrite N2Nat.inj_iter. induction (N.to_nat n) as [|k IH]; [reflexivity|]. cbn [repeat]. rewrite <- IH. reflexivity. Qed.

Section Shell.
  Variable hmac : list bytes -> bytes.

  Lemma authentic_sig r ids :
    authentic hmac r = Some ids ->
    exists frames, split_wire (r_wire r) = Some (ids, hmac frames, frames) /\ r_json_ok r = true.
  Proof.
    unfold authentic. destruct (split_wire (r_wire r)) as [[[i s] f]|]; [|discriminate].
    destruct (r_json_ok r); cbn; [|discriminate].
    destruct (bytes_eqb s (hmac f)) eqn:E; [|discriminate].
    apply bytes_eqb_eq in E as ->. intros [= ->]. eauto.
  Qed.

  Definition forged (r : request) : Prop :=
    forall ids sig frames, split_wire (r_wire r) = Some (ids, sig, frames) -> sig <> hmac frames.

  Lemma forged_not_authentic r : forged r -> authentic hmac r = None.
  Proof.
    intros F. destruct (authentic hmac r) as [ids|] eqn:E; [|reflexivity].
    destruct (authentic_sig r ids E) as (frames & S & _). destruct (F ids _ frames S eq_refl).
  Qed.

  Lemma run_dead st rs : k_alive st = false -> run hmac st rs = (st, map (fun _ => []) rs).
  Proof.
    intros D. induction rs as [|r rs IH]; cbn [run map]; [reflexivity|]. unfold handle. rewrite D, IH. reflexivity.
  Qed.

  (* the state in which a session is left by a request that is not answered *)
  Definition ended (st : kstate) : kstate := {| k_alive := false; k_count := k_count st; k_executed := k_executed st |}.

  Lemma run_unanswered st r rs : k_alive st = false \/ authentic hmac r = None ->
    run hmac st (r :: rs) = (ended st, map (fun _ => []) (r :: rs)).
  Proof.
    intros H. cbn [run]. unfold handle. destruct st as [[] c e]; cbn [k_alive] in *.
    - destruct H as [H|H]; [discriminate H|]. rewrite H, run_dead by reflexivity. reflexivity.
    - rewrite run_dead by reflexivity. reflexivity.
  Qed.

  Lemma forged_request_inert : forall st r rs,
    forged r ->
    let '(st', groups) := run hmac st (r :: rs) in
    Forall (fun g => g = []) groups /\ k_executed st' = k_executed st /\ k_count st' = k_count st.
  Proof.
    intros st r rs F. rewrite run_unanswered by (right; apply forged_not_authentic, F).
    split; [apply Forall_map, Forall_forall; reflexivity|split; reflexivity].
  Qed.

  (* computed per request type and outcome; only [stdout_msgs] (a [repeat]) has a symbolic length *)
  Lemma group_ok_handle_ok st ids r :
    group_ok ids (k_count st) r (snd (handle_ok st ids r)) = true.
  Proof.
    unfold handle_ok, group_ok, expected_reply, expected_iopub, ok_cell, is_execute, strip_stream, count_stream, stdout_msgs.
    rewrite iter_cons_repeat.
    (* all but RExecute: closed groups *)
    destruct (r_type r); [|cbn; rewrite ?(eqb_refl_of _ frames_eqb_eq); reflexivity..].
    (* RExecute; ExError and ExSyntax write closed groups *)
    destruct (r_outcome r); cbn -[last]; rewrite (eqb_refl_of _ frames_eqb_eq), !N.eqb_refl; [| |reflexivity..].
    (* ExNone, ExValue: the group ends with the stdout run and the closing idle *)
    all: rewrite !filter_app, !forallb_app, !filter_repeat, !forallb_repeat by reflexivity; cbn -[last].
    all: rewrite filter_repeat, !app_comm_cons, last_last, app_nil_r, repeat_length; apply Nat.eqb_refl.
  Qed.

  Lemma handle_ok_state st ids r :
    k_alive st = true ->
    let st' := fst (handle_ok st ids r) in
    k_alive st' = true /\
    k_count st' = (if is_execute r then bump r (k_count st) else k_count st) /\
    k_executed st' = (k_executed st + (if is_execute r && runs_code (r_outcome r) then 1 else 0))%N.
  Proof.
    intros A. unfold handle_ok, is_execute.
    destruct (r_type r); cbn [reply_type fst andb]; [|repeat split; [exact A|lia]..].
    destruct (r_outcome r); cbn; repeat split; lia.
  Qed.

  Lemma spec_groups_dead c rs : spec_groups hmac false c rs (map (fun _ => []) rs) = true.
  Proof. induction rs as [|r rs IH]; [reflexivity|exact IH]. Qed.

  Lemma run_satisfies_spec : forall rs st,
    spec_groups hmac (k_alive st) (k_count st) rs (snd (run hmac st rs)) = true /\
    k_executed (fst (run hmac st rs)) = (k_executed st + spec_executed hmac (k_alive st) rs)%N.
  Proof.
    induction rs as [|r rs IH]; intros st; [cbn; split; [reflexivity|destruct (k_alive st); lia]|].
    cbn [spec_groups spec_executed].
    destruct (k_alive st) eqn:A; [destruct (authentic hmac r) as [ids|] eqn:Au|].
    { cbn [run]. unfold handle. rewrite A, Au.
      pose proof (group_ok_handle_ok st ids r) as G.
      destruct (handle_ok_state st ids r A) as (A1 & C1 & E1).
      destruct (handle_ok st ids r) as [st1 o]. cbn [fst snd] in *.
      specialize (IH st1). destruct (run hmac st1 rs) as [st2 os]. cbn [fst snd] in *.
      rewrite A1, C1 in IH. destruct IH as [IH1 IH2]. rewrite G, IH1. split; [reflexivity|]. rewrite IH2, E1. lia. }
    all: rewrite run_unanswered by auto; cbn [fst snd map is_nil andb ended k_executed]; split; [apply spec_groups_dead|lia].
  Qed.
End Shell.

(* toy MAC: the first byte of each frame; the third request is forged *)
Definition toy_mac (fs : list bytes) : bytes := map (fun f => hd 0%N f) fs.
Definition toy_req (t : reqtype) (o : exec_outcome) (good : bool) : request :=
  let frames := [[1%N; 2%N]; [3%N]; [4%N]; [5%N]] in
  {| r_wire := [[7%N]; zmq_delim; (if good then toy_mac frames else [0%N]) ] ++ frames;
     r_json_ok := true; r_type := t; r_store := true; r_outcome := o; r_stdout := 2%N |}.
Example session_instance :
  let rs := [toy_req RExecute ExValue true; toy_req RKernelInfo ExNone true; toy_req RExecute ExNone false;
             toy_req RExecute ExNone true] in
  let '(st, gs) := run toy_mac k_init rs in
  map (@length out) gs = [7; 3; 0; 0]%nat /\ k_executed st = 1%N /\ forged toy_mac (toy_req RExecute ExNone false).
Proof.
  vm_compute. split; [reflexivity|split; [reflexivity|]].
  intros ids sig frames H. inversion H; subst. discriminate.
Qed.
